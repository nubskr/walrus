(* C10 — SyncEach: acknowledged appends and (StrictlyAtOnce) consumption survive power loss.
   Definitions in model/Durable.v (durability model over recorded I/O traces, protocol predicate
   [proto_ok]) and spec/PowerLoss.v (acceptor).  The trace theorems are the state-level lemmas of
   proofs/DurableW.v and DurableI.v (winv_reflected, iinv_old_or_new, iinv_durable) at the state
   reached by a prefix (proto_inv); the acceptors are read in proofs/PowerLossP.v.

   Power-loss model: per file everything up to its last fsync (or written with O_SYNC) is kept,
   each later write independently kept or lost; directory operations up to the last directory
   fsync are kept, later ones independently.  [admissible (drun (firstn k tr)) o] = o is a
   post-power-loss disk after the first k events of trace tr.

   [proto_ok false]: the index is written as tmp, fsync tmp, rename, with no directory fsync;
   [proto_ok true]: with a directory fsync between the rename and the acknowledgement.
   [reflected o f off len id]: the name resolves, the file is long enough, every byte of the range
   is that write's.  c10_appends_durable holds whether or not O_SYNC is in effect (the
   process-global OnceLock schedule is harmless for durability).  [admissible_outcomes] and
   [pick_outcome] are the generators the check uses.
   Two definitions in the statements are in proof files: [newest_renamed] (proofs/DurableI.v) and
   [subseq] (proofs/PowerLossP.v).  [version_of] and [reflected_ends] are the executable readings of
   [holds_version] and [reflected] (DurableP.holds_version_of, reflected_ends_of). *)
From W Require Import model.Base model.Durable spec.Queue spec.PowerLoss
  proofs.DurableP proofs.DurableW proofs.DurableI proofs.PowerLossP.

(* appends: an acknowledged write survives every power loss *)
Theorem c10_appends_durable : forall fixed pairs tr k,
  proto_ok fixed pairs tr = true ->
  forall f off len id os, In (EWrite f off len id os) (firstn k tr) -> In (EAck id) (firstn k tr) ->
  forall o, admissible (drun (firstn k tr)) o -> reflected o f off len id.
Proof.
  intros fixed pairs tr k H f off len id os Hw Ha o Hadm. destruct (proto_inv _ _ _ k H) as (m & E & I & _).
  destruct (dmrun_record _ _ _ _ E) as (_ & R). exact (winv_reflected _ _ _ _ _ _ _ I (R _ Hw) (R _ Ha) Hadm).
Qed.

(* consumption, the protocol before fix 1aa90ed (no directory fsync after the rename): the read that persisted
   version 2 is acknowledged and an outcome still holds version 1, which c10_consumption_durable excludes
   under [proto_ok true]; [proto_ok true] rejects the trace *)
Theorem c10_refuted_index_rename_not_synced :
  exists pairs tr x id o,
    proto_ok false pairs tr = true /\ In (EAckRead x id) tr /\ admissible (drun tr) o /\
    version_of o x = Some (Some 1) /\ 1 < id /\ proto_ok true pairs tr = false.
Proof.
  exists refute_pairs, refute_trace, 101, 2, refute_outcome.
  split; [vm_compute; reflexivity|]. split; [cbn; auto 10|]. split; [apply pick_outcome_admissible|].
  split; [vm_compute; reflexivity|]. split; [lia|vm_compute; reflexivity].
Qed.

(* consumption, either protocol: the index is absent or one complete version that was renamed onto it *)
Theorem c10_index_old_or_new : forall fixed pairs tr k,
  proto_ok fixed pairs tr = true -> forall t x, In (t, x) pairs ->
  forall o, admissible (drun (firstn k tr)) o ->
  dlook (o_dops o) x = None \/
  exists id, holds_version o x id /\ 0 < id /\ id <= newest_renamed fixed pairs (firstn k tr) x.
Proof.
  intros fixed pairs tr k H t x Hin o Hadm. destruct (proto_inv _ _ _ k H) as (m & E & _ & I).
  destruct (dmrun_has_pair _ _ _ _ _ _ E Hin) as (r & Hr & _ & <-).
  rewrite (newest_renamed_is _ _ _ _ _ E (ii_names _ _ _ I) Hr). exact (iinv_old_or_new _ _ _ _ _ I Hr Hadm).
Qed.

(* consumption, the protocol of the code as it is (directory fsync between rename and return): the surviving
   index is not older than any acknowledged read *)
Theorem c10_consumption_durable : forall pairs tr k,
  proto_ok true pairs tr = true ->
  forall x id, In (EAckRead x id) (firstn k tr) ->
  forall o, admissible (drun (firstn k tr)) o -> exists id', holds_version o x id' /\ id <= id'.
Proof.
  intros pairs tr k H x id Ha o Hadm. destruct (proto_inv _ _ _ k H) as (m & E & _ & I).
  exact (iinv_durable _ _ _ _ _ I (proj2 (dmrun_record _ _ _ _ E) _ Ha) Hadm).
Qed.

(* the check's generators yield exactly the admissible outcomes *)
Theorem c10_outcomes_enumerated : forall tr k o,
  (In o (admissible_outcomes tr k) <-> admissible (drun (firstn k tr)) o) /\
  (admissible (drun (firstn k tr)) o -> exists fb db, o = pick_outcome fb db (drun (firstn k tr))).
Proof.
  intros tr k o. split.
  - unfold admissible_outcomes, admissible. destruct o as [fo dd]. cbn. rewrite in_flat_map. split.
    + intros (fo' & Hf & H). apply in_map_iff in H as (dd' & E & Hd). inversion E; subst.
      split; now apply adm_outcomes.
    + intros (Hf & Hd). exists fo. split; [now apply adm_outcomes|]. apply in_map. now apply adm_outcomes.
  - intros (Hf & Hd). destruct (adm_is_pick _ _ Hf) as (fb & Ef). destruct (adm_is_pick _ _ Hd) as (db & Ed).
    exists fb, db. destruct o as [fo dd]. cbn in *. unfold pick_outcome. now rewrite Ef, Ed.
Qed.

(* Strict: nothing delivered again, nothing skipped, every acknowledged entry accounted for *)
Theorem c10_strict_acceptor_means : forall acked inflight deliv rec gap,
  c10_strict_ok acked inflight deliv rec gap = true ->
  outs_are deliv (firstn (length deliv) acked) = true /\
  exists p sub, (length deliv <= p <= length deliv + gap)%nat /\ subseq sub inflight /\
                outs_are rec (skipn p acked ++ sub) = true.
Proof.
  unfold c10_strict_ok. intros acked inflight deliv rec gap H. apply c10_one_means in H as (Hd & p & sub & Hp & Hs & Ho).
  split; [assumption|]. exists p, sub. split; [lia|]. split; assumption.
Qed.

(* appends only: what is recovered starts at most [gap] past the deliveries; entries may be delivered again *)
Theorem c10_appends_acceptor_means : forall acked inflight deliv rec gap,
  c10_appends_ok acked inflight deliv rec gap = true ->
  exists p sub, (p <= length deliv + gap)%nat /\ subseq sub inflight /\ outs_are rec (skipn p acked ++ sub) = true.
Proof.
  unfold c10_appends_ok. intros acked inflight deliv rec gap H. apply c10_one_means in H as (Hd & p & sub & Hp & Hs & Ho).
  exists p, sub. split; [lia|]. split; assumption.
Qed.

(* Non-vacuity.  A SyncEach trace of the shape recorded before fix 1aa90ed (file creation, two appends with
   their flushes, one consuming read persisting the index, no directory fsync after its rename; the code
   as it is records an ESyncDir between ERename and EAckRead): accepted by [proto_ok false], not by
   [proto_ok true]; at the end there are 2 unsynced directory operations, hence 4 outcomes, and the
   acknowledged writes are reflected in every one of them. *)
Definition ex_trace : list ev :=
  [ECreate 1; ESetLen 1 32768; ESyncFile 1; ESyncDir;
   EWrite 1 0 356 11 false; ESyncFile 1; EAck 11;
   EWrite 1 356 3256 12 false; ESyncFile 1; EAck 12;
   ETmpWrite 100 44 1; ESyncFile 100; ERename 100 101; EAckRead 101 1].
Example c10_witness_accepted :
  proto_ok false [(100, 101)] ex_trace = true /\ proto_ok true [(100, 101)] ex_trace = false /\
  length (admissible_outcomes ex_trace 14) = 4%nat /\
  forallb (fun o => reflected_ends o 1 0 356 11 && reflected_ends o 1 356 3256 12) (admissible_outcomes ex_trace 14) = true /\
  map (fun o => version_of o 101) (admissible_outcomes ex_trace 14) = [Some (Some 1); Some (Some 1); None; None].
Proof. vm_compute. repeat split; reflexivity. Qed.

(* the same appends WITHOUT the flushes (what NoFsync issues): the predicate rejects the trace, and
   there is an outcome in which an acknowledged write is gone — the hypothesis is not idle *)
Definition ex_nofsync : list ev :=
  [ECreate 1; ESetLen 1 32768; ESyncFile 1; ESyncDir; EWrite 1 0 356 11 false; EAck 11].
Example c10_witness_unsynced_lost :
  proto_ok false [(100, 101)] ex_nofsync = false /\
  existsb (fun o => negb (reflected_ends o 1 0 356 11)) (admissible_outcomes ex_nofsync 6) = true.
Proof. vm_compute. split; reflexivity. Qed.

(* a directory fsync missing after file creation: the whole file may vanish *)
Definition ex_nodirsync : list ev :=
  [ECreate 1; ESetLen 1 32768; ESyncFile 1; EWrite 1 0 356 11 false; ESyncFile 1; EAck 11].
Example c10_witness_dir_entry_lost :
  proto_ok false [] ex_nodirsync = false /\
  existsb (fun o => negb (reflected_ends o 1 0 356 11)) (admissible_outcomes ex_nodirsync 6) = true.
Proof. vm_compute. split; reflexivity. Qed.

Check c10_appends_durable : forall fixed pairs tr k,
  proto_ok fixed pairs tr = true ->
  forall f off len id os, In (EWrite f off len id os) (firstn k tr) -> In (EAck id) (firstn k tr) ->
  forall o, admissible (drun (firstn k tr)) o -> reflected o f off len id.
Check c10_refuted_index_rename_not_synced :
  exists pairs tr x id o,
    proto_ok false pairs tr = true /\ In (EAckRead x id) tr /\ admissible (drun tr) o /\
    version_of o x = Some (Some 1) /\ 1 < id /\ proto_ok true pairs tr = false.
Check c10_index_old_or_new : forall fixed pairs tr k,
  proto_ok fixed pairs tr = true -> forall t x, In (t, x) pairs ->
  forall o, admissible (drun (firstn k tr)) o ->
  dlook (o_dops o) x = None \/
  exists id, holds_version o x id /\ 0 < id /\ id <= newest_renamed fixed pairs (firstn k tr) x.
Check c10_consumption_durable : forall pairs tr k,
  proto_ok true pairs tr = true ->
  forall x id, In (EAckRead x id) (firstn k tr) ->
  forall o, admissible (drun (firstn k tr)) o -> exists id', holds_version o x id' /\ id <= id'.
Check c10_outcomes_enumerated : forall tr k o,
  (In o (admissible_outcomes tr k) <-> admissible (drun (firstn k tr)) o) /\
  (admissible (drun (firstn k tr)) o -> exists fb db, o = pick_outcome fb db (drun (firstn k tr))).
Check c10_strict_acceptor_means : forall acked inflight deliv rec gap,
  c10_strict_ok acked inflight deliv rec gap = true ->
  outs_are deliv (firstn (length deliv) acked) = true /\
  exists p sub, (length deliv <= p <= length deliv + gap)%nat /\ subseq sub inflight /\
                outs_are rec (skipn p acked ++ sub) = true.
Check c10_appends_acceptor_means : forall acked inflight deliv rec gap,
  c10_appends_ok acked inflight deliv rec gap = true ->
  exists p sub, (p <= length deliv + gap)%nat /\ subseq sub inflight /\ outs_are rec (skipn p acked ++ sub) = true.
Print Assumptions c10_appends_durable.
Print Assumptions c10_refuted_index_rename_not_synced.
Print Assumptions c10_index_old_or_new.
Print Assumptions c10_consumption_durable.
Print Assumptions c10_outcomes_enumerated.
Print Assumptions c10_strict_acceptor_means.
Print Assumptions c10_appends_acceptor_means.
