(* C21 — Raft log store and peer address book survive any number of restarts.
   The faithful model (mode Consuming = /repo as it is) does NOT satisfy the property: the
   recovery read consumes the log (finding C21-D11).  Stated here: the witness, what holds
   outside the known class, the general law of the code as it is, and the full property for the
   repaired wrapper (mode Replaying = corpus/C21/PROPOSED_FIX.diff.txt, which /repo does not have). *)
From W Require Import model.Base model.RaftStore spec.RaftSpec proofs.RaftStoreP.

(* The property at full strength, for every configuration (both modes) and every history of
   append / truncate / purge / save_vote / save_committed / peer-address operations, observations
   and reopens: every result and observation is the ideal (never restarting) store's, and the
   reopened log store is the replay of every acknowledged record.  FALSE for mode Consuming. *)
Definition C21_full : Prop := forall c h,
  c21_ok c (trace c h) = true
  /\ n_mem (final c h) = fst (ideal_final c h)
  /\ book_same (n_book (final c h)) (snd (ideal_final c h))
  /\ n_mem (final c h) = replay (ackl (trace c h)).

Theorem c21_refuted_second_reopen :
  exists c h, c_mode c = Consuming /\ reopens h = 2%nat /\ c21_known c h = true
    /\ c21_ok c (trace c h) = false
    /\ c21_ok c (trace c (firstn 6 h)) = true
    /\ n_mem (final c h) = mem_empty
    /\ mem_eqb (n_mem (final c h)) (replay (ackl (trace c h))) = false
    /\ pb_get 3 (n_book (final c h)) = None
    /\ pb_get 3 (snd (ideal_final c h)) = Some (167772163 * 65536 + 9323).
Proof. exists d11_cfg, d11_hist. vm_compute. repeat split; reflexivity. Qed.

Theorem c21_full_refuted : ~ C21_full.
Proof. intros H. destruct (H d11_cfg d11_hist) as [A _]. vm_compute in A. discriminate. Qed.

Theorem c21_one_reopen : forall c h, (reopens h <= 1)%nat ->
  c21_ok c (trace c h) = true
  /\ n_mem (final c h) = fst (ideal_final c h)
  /\ book_same (n_book (final c h)) (snd (ideal_final c h))
  /\ n_mem (final c h) = replay (ackl (trace c h)).
Proof. intros c h H. apply raft_outside_known, raft_one_reopen, H. Qed.

Theorem c21_outside_known : forall c h, c21_known c h = false ->
  c21_ok c (trace c h) = true
  /\ n_mem (final c h) = fst (ideal_final c h)
  /\ book_same (n_book (final c h)) (snd (ideal_final c h))
  /\ n_mem (final c h) = replay (ackl (trace c h)).
Proof. exact raft_outside_known. Qed.

Theorem c21_known_needs_two_reopens : forall c h, c21_known c h = true -> (2 <= reopens h)%nat.
Proof.
  intros c h K. destruct (Nat.le_gt_cases (reopens h) 1) as [L|L]; [|lia].
  rewrite (raft_one_reopen c h L) in K. discriminate.
Qed.

(* the code as it is, any number of reopens: the log store is the replay of the records acknowledged
   in the previous and the current lifetime ([p], [cu]), and of nothing older: what is lost is [e],
   everything acknowledged before the PREVIOUS reopen (the one before the last) *)
Theorem c21_loses_all_before_last_reopen : forall c h, c_mode c = Consuming ->
  let '(e, p, cu) := lifetimes3 (trace c h) in
  n_mem (final c h) = replay (ackl p ++ ackl cu)
  /\ ackl (trace c h) = ackl e ++ ackl p ++ ackl cu.
Proof.
  intros c h EM. unfold lifetimes3.
  pose proof (ghost_split c (trace c h) (ghost_init c) [] [] []) as G. rewrite EM in G.
  destruct (split3 [] [] [] (trace c h)) as [[e p] cu].
  fold (ghost_of c h) in G. destruct G as ((G1 & G2) & G3); [now split|reflexivity|].
  destruct (raft_law c h) as (Hm & _ & _ & T). cbn zeta in *.
  rewrite G1, G2, G3 in T. rewrite G2, G3 in Hm. split; [exact Hm|now rewrite T].
Qed.

(* both stores, both modes, in terms of the accounting lost / visible / current *)
Theorem c21_law : forall c h,
  let n := final c h in let g := ghost_of c h in
  n_mem n = replay (g_vis g ++ g_cur g)
  /\ n_book n = book_of c (p_vis g) (p_cur g)
  /\ w_log (n_lw n) = ackl (trace c h)
  /\ g_lost g ++ g_vis g ++ g_cur g = ackl (trace c h).
Proof. exact raft_law. Qed.

(* with the proposed repair the property holds for every history *)
Theorem c21_fixed_all_reopens : forall c h, c_mode c = Replaying ->
  c21_ok c (trace c h) = true
  /\ n_mem (final c h) = fst (ideal_final c h)
  /\ book_same (n_book (final c h)) (snd (ideal_final c h))
  /\ n_mem (final c h) = replay (ackl (trace c h)).
Proof. intros c h H. apply raft_outside_known, raft_replaying_never_known, H. Qed.

(* the acceptor c21_accept_from, run over implementation output, decides the relation Accepts *)
Theorem c21_acceptor_reflects : forall c tr s, c21_accept_from c s tr = true <-> Accepts c s tr.
Proof.
  intros c. induction tr as [|[o x] tr IH]; intros s; [split; [constructor|reflexivity]|].
  assert (D : x = XErr \/ x <> XErr) by (destruct x; (now left) || (now right)).
  destruct D as [->|NE].
  - cbn [c21_accept_from]. rewrite andb_true_iff, negb_true_iff, IH.
    split; [intros []; now constructor|intros H; inversion H; intuition congruence].
  - rewrite accept_cons, andb_true_iff, IH by exact NE.
    split; [intros []; now apply Acc_step|intros H; inversion H; intuition congruence].
Qed.

(* the wrapper alone on the history of D11: append*, reopen, read_all, reopen, read_all *)
Theorem c21_wal_d11_shape : forall (A : Type) (keep : A -> bool) (ps : list A),
  wal_run Consuming keep wal_empty (map WAppend ps ++ [WReopen; WReadAll; WReopen; WReadAll])
  = map (fun k => WOff (N.of_nat k)) (seq 0 (length ps))
    ++ [WOpened; WEntries (filter keep ps); WOpened; WEntries []].
Proof. intros A keep ps. rewrite wal_run_appends. cbn. f_equal. rewrite skipn_all. reflexivity. Qed.

Theorem c21_wal_fixed_shape : forall (A : Type) (keep : A -> bool) (ps : list A),
  wal_run Replaying keep wal_empty (map WAppend ps ++ [WReopen; WReadAll; WReopen; WReadAll])
  = map (fun k => WOff (N.of_nat k)) (seq 0 (length ps))
    ++ [WOpened; WEntries (filter keep ps); WOpened; WEntries (filter keep ps)].
Proof. intros A keep ps. rewrite wal_run_appends. cbn. reflexivity. Qed.

(* non-vacuity: every record kind, a refused purge, a learned peer, one reopen; and three reopens
   with nothing acknowledged before the last two (outside the known class although reopens = 3) *)
Example c21_witness_one_reopen :
  let c := mkCfg Consuming 1 (2130706433 * 65536 + 9321) [2130706433 * 65536 + 9322] in
  let id := fun i => mkLogId 2 1 i in
  let h := [SVote (mkVote 2 1 true);
            SAppend [mkEntry (id 1) PBlank; mkEntry (id 2) (PNormal [120]); mkEntry (id 3) (PMember 2); mkEntry (id 4) (PNormal [])];
            SCommitted (Some (id 3)); STruncate (id 4); SPurge (id 1); SPurge (mkLogId 0 0 0);
            SPeer 3 77; SPeer 2 78; SReopen; SState; SPeers] in
  reopens h = 1%nat /\ c21_known c h = false /\ c21_ok c (trace c h) = true
  /\ n_mem (final c h) = mkMem (Some (id 1)) [mkEntry (id 2) (PNormal [120]); mkEntry (id 3) (PMember 2)]
                               (Some (id 3)) (Some (mkVote 2 1 true))
  /\ n_book (final c h) = [(1, 2130706433 * 65536 + 9321); (2, 2130706433 * 65536 + 9322); (3, 77)]
  /\ length (w_log (n_pw (final c h))) = 4%nat.
Proof. vm_compute. repeat split; reflexivity. Qed.

Example c21_witness_three_reopens_outside :
  let c := mkCfg Consuming 1 5 [] in
  let h := [SReopen; SReopen; SVote (mkVote 1 1 false); SReopen; SState] in
  reopens h = 3%nat /\ c21_known c h = false /\ m_vote (n_mem (final c h)) = Some (mkVote 1 1 false).
Proof. vm_compute. repeat split; reflexivity. Qed.

Check c21_refuted_second_reopen :
  exists c h, c_mode c = Consuming /\ reopens h = 2%nat /\ c21_known c h = true
    /\ c21_ok c (trace c h) = false
    /\ c21_ok c (trace c (firstn 6 h)) = true
    /\ n_mem (final c h) = mem_empty
    /\ mem_eqb (n_mem (final c h)) (replay (ackl (trace c h))) = false
    /\ pb_get 3 (n_book (final c h)) = None
    /\ pb_get 3 (snd (ideal_final c h)) = Some (167772163 * 65536 + 9323).
Check c21_full_refuted : ~ C21_full.
Check c21_one_reopen : forall c h, (reopens h <= 1)%nat ->
  c21_ok c (trace c h) = true
  /\ n_mem (final c h) = fst (ideal_final c h)
  /\ book_same (n_book (final c h)) (snd (ideal_final c h))
  /\ n_mem (final c h) = replay (ackl (trace c h)).
Check c21_outside_known : forall c h, c21_known c h = false ->
  c21_ok c (trace c h) = true
  /\ n_mem (final c h) = fst (ideal_final c h)
  /\ book_same (n_book (final c h)) (snd (ideal_final c h))
  /\ n_mem (final c h) = replay (ackl (trace c h)).
Check c21_known_needs_two_reopens : forall c h, c21_known c h = true -> (2 <= reopens h)%nat.
Check c21_loses_all_before_last_reopen : forall c h, c_mode c = Consuming ->
  let '(e, p, cu) := lifetimes3 (trace c h) in
  n_mem (final c h) = replay (ackl p ++ ackl cu)
  /\ ackl (trace c h) = ackl e ++ ackl p ++ ackl cu.
Check c21_law : forall c h,
  let n := final c h in let g := ghost_of c h in
  n_mem n = replay (g_vis g ++ g_cur g)
  /\ n_book n = book_of c (p_vis g) (p_cur g)
  /\ w_log (n_lw n) = ackl (trace c h)
  /\ g_lost g ++ g_vis g ++ g_cur g = ackl (trace c h).
Check c21_fixed_all_reopens : forall c h, c_mode c = Replaying ->
  c21_ok c (trace c h) = true
  /\ n_mem (final c h) = fst (ideal_final c h)
  /\ book_same (n_book (final c h)) (snd (ideal_final c h))
  /\ n_mem (final c h) = replay (ackl (trace c h)).
Check c21_acceptor_reflects : forall c tr s, c21_accept_from c s tr = true <-> Accepts c s tr.
Check c21_wal_d11_shape : forall (A : Type) (keep : A -> bool) (ps : list A),
  wal_run Consuming keep wal_empty (map WAppend ps ++ [WReopen; WReadAll; WReopen; WReadAll])
  = map (fun k => WOff (N.of_nat k)) (seq 0 (length ps))
    ++ [WOpened; WEntries (filter keep ps); WOpened; WEntries []].
Check c21_wal_fixed_shape : forall (A : Type) (keep : A -> bool) (ps : list A),
  wal_run Replaying keep wal_empty (map WAppend ps ++ [WReopen; WReadAll; WReopen; WReadAll])
  = map (fun k => WOff (N.of_nat k)) (seq 0 (length ps))
    ++ [WOpened; WEntries (filter keep ps); WOpened; WEntries (filter keep ps)].
Print Assumptions c21_refuted_second_reopen.
Print Assumptions c21_full_refuted.
Print Assumptions c21_one_reopen.
Print Assumptions c21_outside_known.
Print Assumptions c21_known_needs_two_reopens.
Print Assumptions c21_loses_all_before_last_reopen.
Print Assumptions c21_law.
Print Assumptions c21_fixed_all_reopens.
Print Assumptions c21_acceptor_reflects.
Print Assumptions c21_wal_d11_shape.
Print Assumptions c21_wal_fixed_shape.
