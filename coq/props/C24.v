(* C24 — client protocol stays frame-synchronised and round-trips payloads.
   serve_fixed = model of distributed-walrus/src/client.rs as it is in /repo: the body of a refused
                 frame is read and discarded (discard_exact, fix a215ffe)
   serve_v0    = model of the same loop before that fix (finding D12)
   responses   = the per-frame answers (structured), enc_resps their wire encoding
   c24_ok      = the spec acceptor (spec/FrameSpec.v) that ./check runs over the
                 implementation's own output *)
From W Require Import gen.Consts model.Base model.Utf8 model.Frame spec.FrameSpec
  proofs.Utf8P proofs.FrameP proofs.FrameSpecP.

(* frame synchronisation: one response per frame, in order.
   Before fix a215ffe: every list of well-formed frames none of which announces more than MAX_FRAME_LEN
   (zero-length, invalid UTF-8, unknown and incomplete commands included) *)
Theorem c24_sync : forall fs : list frame,
  forallb frame_wfb fs = true -> forallb in_range fs = true ->
  serve_v0 (enc_frames fs) = enc_resps (responses fs).
Proof. intros fs Hwf Hin. now apply (sync_gen false). Qed.

(* client.rs as it is: every list of well-formed frames, any announced length below 2^32 *)
Theorem c24_sync_fixed : forall fs : list frame,
  forallb frame_wfb fs = true ->
  serve_fixed (enc_frames fs) = enc_resps (responses fs).
Proof. intros fs Hwf. now apply (sync_gen true). Qed.

Theorem c24_one_response_per_frame : forall fs : list frame, length (responses fs) = length fs.
Proof.
  intros fs. unfold responses. generalize ctl0. induction fs as [|f fs IH]; intros c; [reflexivity|].
  rewrite responses_from_cons. cbn [length]. now rewrite IH.
Qed.

(* a truncated final frame (incomplete header, or fewer body bytes than a within-limit header
   announces) is never answered and never disturbs the answers before it *)
Theorem c24_truncated_final : forall (d : bool) (fs : list frame) (tl : list N),
  forallb frame_wfb fs = true -> (d = false -> forallb in_range fs = true) ->
  incomplete tl -> tail_oversize tl = false ->
  serve_gen d (enc_frames fs ++ tl) = enc_resps (responses fs).
Proof. exact truncated_final. Qed.

(* PUT t p then GET t in any controller state in which topic t has nothing queued; the two frames are well
   formed and within the limit (the last four conjuncts), so both variants of the loop handle them *)
Theorem c24_roundtrip_state : forall (c : ctl) (t p : str),
  c24_rt_ok t p = true -> ctl_queue c t = [] ->
  let f1 := text_frame (put_line t p) in
  let f2 := text_frame (get_line t) in
  snd (respond c f1) = FOk /\
  snd (respond (fst (respond c f1)) f2) = FData (trim_end p) /\
  ctl_queue (fst (respond (fst (respond c f1)) f2)) t = [] /\
  wf f1 /\ wf f2 /\ in_range f1 = true /\ in_range f2 = true.
Proof.
  intros c t p Hok Hq. unfold c24_rt_ok in Hok. rewrite !andb_true_iff in Hok.
  destruct Hok as [[[[[[[Ht Hp] Hn] Hne] Htr] Hf] Hpne] Hfit].
  apply scalars_forallb in Ht, Hp. apply BytesP.str_eqb_eq in Htr. apply negb_true_iff in Hf. apply N.leb_le in Hfit.
  assert (Hne' : t <> []) by (intros ->; discriminate).
  assert (Hpne' : trim_end p <> []) by (intros E; rewrite E in Hpne; discriminate).
  assert (Hs : scalars (trim_end p)).
  { destruct (trim_end_prefix p) as [w Hw]. rewrite Hw in Hp. now apply Forall_app in Hp. }
  pose proof (blen_get_le_put t p) as Hle. cbv zeta.
  rewrite respond_put by assumption. cbn [exec]. rewrite Hf, Hq. cbn [fst snd app].
  rewrite respond_get by (assumption || lia). cbn [exec]. rewrite Hf, ctl_get_set, BytesP.str_eqb_refl. cbn [fst snd].
  rewrite ctl_queue_set, BytesP.str_eqb_refl. unfold lossy. rewrite utf8_decode_encode by exact Hs.
  split; [reflexivity|]. split; [reflexivity|]. split; [reflexivity|].
  split; [apply text_frame_wf; lia|]. split; [apply text_frame_wf; lia|].
  change (in_range (text_frame ?l)) with (blen (utf8_encode l) <=? max_frame_len). lia.
Qed.

(* on the wire, behind any earlier traffic that leaves topic t empty, for both variants of the loop:
   the answers are "OK" and "OK " ++ (the payload without the line's trailing whitespace) *)
Theorem c24_roundtrip : forall (d : bool) (pre : list frame) (t p : str),
  forallb frame_wfb pre = true -> (d = false -> forallb in_range pre = true) ->
  c24_rt_ok t p = true -> ctl_queue (ctl_after ctl0 pre) t = [] ->
  serve_gen d (enc_frames (pre ++ [text_frame (put_line t p); text_frame (get_line t)])) =
  enc_resps (responses pre ++ [FOk; FData (trim_end p)]).
Proof.
  intros d pre t p Hwf Hin Hok Hq. destruct (c24_roundtrip_state _ t p Hok Hq) as (R1 & R2 & _ & W1 & W2 & I1 & I2).
  apply frame_wfb_wf in W1, W2. rewrite sync_gen.
  - unfold responses. now rewrite responses_from_app, !responses_from_cons, R1, R2.
  - rewrite forallb_app, Hwf. cbn [forallb]. now rewrite W1, W2.
  - intros E. rewrite forallb_app, Hin by exact E. cbn [forallb]. now rewrite I1, I2.
Qed.

(* ... byte-identical when the payload does not end in whitespace *)
Theorem c24_roundtrip_identical : forall (d : bool) (pre : list frame) (t p : str),
  forallb frame_wfb pre = true -> (d = false -> forallb in_range pre = true) ->
  c24_rt_ok t p = true -> str_eqb (trim_end p) p = true -> ctl_queue (ctl_after ctl0 pre) t = [] ->
  serve_gen d (enc_frames (pre ++ [text_frame (put_line t p); text_frame (get_line t)])) =
  enc_resps (responses pre ++ [FOk; FData p]).
Proof.
  intros d pre t p Hwf Hin Hok Ht Hq. apply BytesP.str_eqb_eq in Ht. rewrite <- Ht at 2. now apply c24_roundtrip.
Qed.

Theorem c24_utf8_roundtrip : forall s : str,
  Forall (fun c => is_scalar c = true) s -> utf8_decode (utf8_encode s) = Some s.
Proof. exact utf8_decode_encode. Qed.

Theorem c24_utf8_decode_sound : forall (bs : list N) (s : str),
  utf8_decode bs = Some s -> utf8_encode s = bs /\ Forall (fun c => is_scalar c = true) s.
Proof. exact utf8_encode_decode. Qed.

(* whatever reaches the controller's queues is the UTF-8 of a string within the frame limit:
   from_utf8_lossy never replaces anything *)
Theorem c24_queued_payloads_valid : forall (fs : list frame) (t : str) (x : list N),
  forallb frame_wfb fs = true -> In x (ctl_queue (ctl_after ctl0 fs) t) ->
  exists p, Forall (fun c => is_scalar c = true) p /\ x = utf8_encode p /\ lossy x = p /\ blen x <= max_frame_len.
Proof.
  intros fs t x Hwf Hin. apply forallb_wf in Hwf.
  destruct (check_sim fs ctl0 ctl0 (fun _ => eq_refl) ctl_ok0 Hwf) as (_ & _ & Hok).
  destruct (Hok t x Hin) as (p & Hp & -> & Hb).
  exists p. repeat split; try assumption. unfold lossy. now rewrite utf8_decode_encode.
Qed.

(* the whole property as the acceptor states it, over ALL byte streams.
   client.rs as it is: whatever bytes a client sends, the output is accepted *)
Theorem c24_accepted_fixed : forall inp : list N,
  Forall (fun b => b < 256) inp -> c24_ok inp (serve_fixed inp) = true.
Proof. intros inp Hb. now apply (accepted true). Qed.

(* before fix a215ffe: every byte stream in which no header announces more than MAX_FRAME_LEN *)
Theorem c24_outside_known : forall inp : list N,
  Forall (fun b => b < 256) inp -> c24_known inp = false -> c24_ok inp (serve_v0 inp) = true.
Proof. intros inp Hb Hk. now apply (accepted false). Qed.

(* the witness spelled out: one frame announcing MAX_FRAME_LEN+1 bytes whose body begins with the
   frames "PUT t smug", "GET t".  Owed: one refusal.  Written by the loop before fix a215ffe: the
   refusal, then "OK", then "OK smug" — the smuggled commands ran.  By client.rs as it is: the refusal only. *)
Theorem c24_pinned_refuted :
  frame_wfb d12_frame = true /\
  responses [d12_frame] = [FErr m_len] /\
  serve_fixed (enc_frames [d12_frame]) = enc_resps [FErr m_len] /\
  serve_v0 (enc_frames [d12_frame]) = enc_resps [FErr m_len; FOk; FData d12_payload] /\
  c24_known (enc_frames [d12_frame]) = true /\
  c24_ok (enc_frames [d12_frame]) (serve_v0 (enc_frames [d12_frame])) = false.
Proof.
  pose proof max_frame_small as Hs. pose proof max_frame_big as Hb.
  assert (Hwf : Forall wf [d12_frame]) by (constructor; [exact d12_wf|constructor]).
  assert (H2 : responses [d12_frame] = [FErr m_len]) by reflexivity.
  assert (H4 : serve_v0 (enc_frames [d12_frame]) = enc_resps [FErr m_len; FOk; FData d12_payload]).
  { rewrite d12_stream, serve_v0_refused; [reflexivity|lia|reflexivity|reflexivity| |].
    - apply incomplete_short; [lia|]. rewrite blen_repeat. change (blen d12_inner) with 23. lia.
    - unfold d12_tail. rewrite tail_oversize_le32 by lia. apply N.ltb_irrefl. }
  split; [apply frame_wfb_wf, d12_wf|]. split; [exact H2|].
  split; [unfold serve_fixed; rewrite sync_gen, H2; [reflexivity|now apply forallb_wf|discriminate]|].
  split; [exact H4|]. split.
  - rewrite c24_known_frames by exact Hwf.
    cbn [existsb]. change (f_len d12_frame) with (max_frame_len + 1). lia.
  - rewrite H4. apply c24_ok_surplus; [exact Hwf| |cbn [length]; lia]. repeat constructor; now vm_compute.
Qed.

Definition C24_full : Prop :=
  forall inp : list N, Forall (fun b => b < 256) inp -> c24_ok inp (serve_v0 inp) = true.

(* finding D12: the loop before fix a215ffe executes the body of a refused frame *)
Theorem c24_full_refuted : ~ C24_full.
Proof.
  intros H. destruct c24_pinned_refuted as (_ & _ & _ & _ & _ & H6).
  rewrite H in H6; [discriminate H6|]. rewrite d12_stream.
  apply Forall_app. split; [apply le32_bytes|]. apply Forall_app. split.
  - apply (ListP.forallb_Forall (fun b => b <? 256)); [intros b; apply N.ltb_lt|reflexivity].
  - apply Forall_app. split; [apply le32_bytes|]. apply Forall_forall. intros x Hx.
    apply repeat_spec in Hx. subst x. reflexivity.
Qed.

Theorem c24_refuted_oversize : exists fs : list frame,
  forallb frame_wfb fs = true /\
  serve_v0 (enc_frames fs) <> enc_resps (responses fs) /\
  c24_ok (enc_frames fs) (serve_v0 (enc_frames fs)) = false.
Proof.
  exists [d12_frame]. destruct c24_pinned_refuted as (H1 & H2 & _ & H4 & _ & H6).
  split; [cbn [forallb]; rewrite H1; reflexivity|]. split; [|exact H6].
  rewrite H4, H2. intros E. apply (f_equal (@length N)) in E. vm_compute in E. discriminate E.
Qed.

Example c24_max_frame_tied : max_frame_len = src_MAX_FRAME_LEN /\ max_frame_len + 16 < two32.
Proof. split; [reflexivity|exact max_frame_small]. Qed.

(* a pipeline of good and malformed frames: PUT t "é x", zero length, invalid UTF-8, "GET", GET t, GET t *)
Example c24_witness_sync :
  let fs := [text_frame (put_line [116] [233; 32; 120]); {| f_len := 0; f_body := [] |};
             {| f_len := 2; f_body := [237; 160] |}; text_frame s_GET;
             text_frame (get_line [116]); text_frame (get_line [116])] in
  forallb frame_wfb fs = true /\ forallb in_range fs = true /\
  responses fs = [FOk; FErr m_len; FErr m_utf8; FErr m_get_topic; FData [233; 32; 120]; FEmpty] /\
  serve_v0 (enc_frames fs) = enc_resps (responses fs) /\
  c24_ok (enc_frames fs) (serve_v0 (enc_frames fs)) = true.
Proof. vm_compute. repeat split; reflexivity. Qed.

(* the round trip's side condition holds for topic "tópic" and payload "a b" ++ U+3000 (trailing
   ideographic space: trimmed), and fails for a payload of whitespace only *)
Example c24_witness_rt :
  c24_rt_ok [116; 243; 112; 105; 99] [97; 32; 98; 12288] = true /\
  trim_end [97; 32; 98; 12288] = [97; 32; 98] /\
  c24_rt_ok [116] [32; 12288] = false.
Proof. vm_compute. repeat split; reflexivity. Qed.

Check c24_sync : forall fs : list frame,
  forallb frame_wfb fs = true -> forallb in_range fs = true ->
  serve_v0 (enc_frames fs) = enc_resps (responses fs).
Check c24_sync_fixed : forall fs : list frame,
  forallb frame_wfb fs = true -> serve_fixed (enc_frames fs) = enc_resps (responses fs).
Check c24_roundtrip : forall (d : bool) (pre : list frame) (t p : str),
  forallb frame_wfb pre = true -> (d = false -> forallb in_range pre = true) ->
  c24_rt_ok t p = true -> ctl_queue (ctl_after ctl0 pre) t = [] ->
  serve_gen d (enc_frames (pre ++ [text_frame (put_line t p); text_frame (get_line t)])) =
  enc_resps (responses pre ++ [FOk; FData (trim_end p)]).
Check c24_accepted_fixed : forall inp : list N,
  Forall (fun b => b < 256) inp -> c24_ok inp (serve_fixed inp) = true.
Check c24_outside_known : forall inp : list N,
  Forall (fun b => b < 256) inp -> c24_known inp = false -> c24_ok inp (serve_v0 inp) = true.
Check c24_refuted_oversize : exists fs : list frame,
  forallb frame_wfb fs = true /\
  serve_v0 (enc_frames fs) <> enc_resps (responses fs) /\
  c24_ok (enc_frames fs) (serve_v0 (enc_frames fs)) = false.
Print Assumptions c24_sync.
Print Assumptions c24_sync_fixed.
Print Assumptions c24_one_response_per_frame.
Print Assumptions c24_truncated_final.
Print Assumptions c24_roundtrip_state.
Print Assumptions c24_roundtrip.
Print Assumptions c24_roundtrip_identical.
Print Assumptions c24_utf8_roundtrip.
Print Assumptions c24_utf8_decode_sound.
Print Assumptions c24_queued_payloads_valid.
Print Assumptions c24_accepted_fixed.
Print Assumptions c24_outside_known.
Print Assumptions c24_full_refuted.
Print Assumptions c24_refuted_oversize.
Print Assumptions c24_pinned_refuted.
