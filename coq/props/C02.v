(* C02 — non-consuming reads never change what later reads or counts see.  The statements, each a line or two from
   proofs/EngineEraseR.v (a), proofs/EngineC02.v (b, c) and proofs/EngineEraseG.v (b with restarts). *)
From W Require Import model.Base model.Engine model.EngineCfg spec.Queue
  proofs.EngineWF proofs.EngineInv proofs.EngineMain proofs.EngineC02 proofs.EngineErase
  proofs.EngineC06 proofs.EngineEraseR proofs.EngineEraseG props.C01 props.C04.

(* (a) erasure, in full for everything the model holds: deleting every peek (read_next or batch
   read with checkpoint=false) and every offset-addressed read (checkpoint true or false, any
   offset, any budget) from ANY restart-free history ([op_ok c o] says no more than that [o] is not
   OReopen) whose offered entries fit the u64 counters leaves the result of every
   remaining operation — every append, batch, consuming read (including HOW MANY entries a
   budgeted batch read returns) and every count — exactly as it was.  Proof: a simulation; a
   non-consuming read changes a topic's state only in the reader's hydration flag and by
   stepping the in-memory cursor over exhausted blocks, and no operation can tell.
   Not covered: the reclamation bookkeeping clause (the block/file trackers are not part of
   model/Engine.v; see C12). *)
Theorem c02_erasure : forall (c : Cfg) (m : mode) (be : backend) (ops : list op),
  cfg_ok c -> Forall (op_ok c) ops ->
  N.of_nat (length (offered_all ops)) <= u64_max -> sum_len (offered_all ops) <= u64_max ->
  filter (fun p => keep (fst p)) (trace (env_of c m be) init ops) = trace (env_of c m be) init (filter keep ops).
Proof.
  intros c m be ops Hc Hok. apply erase_with_restarts; [exact Hc| |]; apply (op_ok_outside_known c); [exact Hok|].
  exact (Forall_filter _ _ _ Hok).
Qed.

(* what [keep] erases *)
Example c02_keep_is : forall t e es mb st,
  keep (OAppend t e) = true /\ keep (OBatch t es) = true /\ keep (OCount t) = true /\
  keep (ORead t true) = true /\ keep (OBatchRead t mb true None) = true /\
  keep (ORead t false) = false /\ keep (OBatchRead t mb false None) = false /\
  keep (OBatchRead t mb true (Some st)) = false /\ keep (OBatchRead t mb false (Some st)) = false.
Proof. intros; repeat split. Qed.

(* the other half of "never change what later reads or counts see", for restart-free histories: with peeks and
   offset reads anywhere in it, the trace is accepted by the queue acceptors of C01 (every read returns the next
   entries of what was appended) and C15 (every count) *)
Theorem c02_queue_view : forall (c : Cfg) (m : mode) (be : backend) (ops : list op),
  cfg_ok c -> Forall (op_ok c) ops ->
  N.of_nat (length (offered_all ops)) <= u64_max -> sum_len (offered_all ops) <= u64_max ->
  c01_ok (trace (env_of c m be) init ops) = true /\ c15_ok (trace (env_of c m be) init ops) = true.
Proof. exact c04_rejected_ops_invisible. Qed.

(* (b) a peek returns exactly what the immediately following consuming read with the same
   arguments returns, and (c) offset-addressed reads return only sub-ranges of entries appended
   to that topic, in append order: acceptors c02b_ok / c02c_ok hold on every restart-free
   history within the u64 counters *)
Theorem c02_peek_and_offset_reads : forall (c : Cfg) (m : mode) (be : backend) (ops : list op),
  cfg_ok c -> Forall (op_ok c) ops ->
  N.of_nat (length (offered_all ops)) <= u64_max -> sum_len (offered_all ops) <= u64_max ->
  c02c_ok (trace (env_of c m be) init ops) = true /\ c02b_ok (trace (env_of c m be) init ops) = true.
Proof. exact c02_from_init. Qed.

(* (b) for batch reads holds in EVERY state (reachable or not), every budget and mode *)
Theorem c02_batch_peek_then_consume : forall c m s t maxb,
  let '(s1, r1) := batch_read c m s t maxb false None in
  let '(s2, r2) := batch_read c m s1 t maxb true None in
  r1 = r2.
Proof. exact batch_peek_then_consume. Qed.

(* (c) in EVERY state: whatever a batch read returns is a list of sub-ranges of the topic's
   stream (sealed chain followed by the writer block), in stream order *)
Theorem c02_subranges_any_state : forall c m s t maxb ck start s' os,
  batch_read c m s t maxb ck start = (s', REntries os) ->
  outs_subranges (stream (get_ts s (t_id t))) os = true.
Proof. exact batch_read_subranges. Qed.

(* an offset-addressed read leaves the whole model state of the topic exactly as it was *)
Theorem c02_offset_read_changes_nothing : forall c m s t maxb ck st0,
  exists os, batch_read c m s t maxb ck (Some st0) = (set_ts s (t_id t) (get_ts s (t_id t)), REntries os).
Proof. exact batch_read_stateless. Qed.

(* non-vacuity: peeks, offset reads with checkpoint=true in AtLeastOnce mode (defect D8,
   fix dc7ca6c of /repo), trimmed first entry *)
Example c02_witness :
  map snd (trace (env_of small_cfg (ALO 1) Fd) init
             [OAppend t1 (e 0 300); OAppend t1 (e 1 3700); OAppend t1 (e 2 50);
              OBatchRead t1 1000 true (Some 300); OBatchRead t1 4000 false None; OBatchRead t1 4000 true None;
              ORead t1 false; ORead t1 true; OCount t1])
  = [ROk; ROk; ROk; REntries [{| o_pid := 0; o_skip := 44; o_len := 256 |}];
     REntries [out_of (e 0 300)]; REntries [out_of (e 0 300)];
     REntry (out_of (e 1 3700)); REntry (out_of (e 1 3700)); RNum 1].
Proof. vm_compute. reflexivity. Qed.

(* (a) for histories with ANY NUMBER OF RESTARTS ([OReopen] anywhere), any mode, any backend, both
   read APIs mixed freely: deleting every peek and every offset-addressed read leaves the result of
   every remaining operation (every restart included) unchanged.  The two booleans are evaluated
   along the two runs (proofs/EngineC06.v): no restart of the run, resp. of the erased run, happens
   in a state with block-id drift ([id_drift], model/Engine.v).  They cannot be dropped: see
   [c02_erasure_refuted_id_drift] below.
   What [reopen] reads of the in-memory state is, per known topic, the persisted index and the
   unmodelled flag; a non-consuming read changes neither, nor the disk image
   ([reopen_get_eq], proofs/EngineEraseR.v).  The extra work is between a restart and a topic's
   first stateful read: the persisted position is applied by that read, read_next and batch_read
   apply it with different reader tail fields, and an erased peek can make the two runs apply it
   through different APIs; outside block-id drift both tail values are dead (they name a sealed
   block) and no operation can tell (proofs/EngineEraseD.v, proofs/EngineEraseR.v). *)
Theorem c02_erasure_with_restarts : forall (c : Cfg) (m : mode) (be : backend) (ops : list op),
  cfg_ok c ->
  outside_known (env_of c m be) init ops = true ->
  outside_known (env_of c m be) init (filter keep ops) = true ->
  N.of_nat (length (offered_all ops)) <= u64_max -> sum_len (offered_all ops) <= u64_max ->
  filter (fun p => keep (fst p)) (trace (env_of c m be) init ops) = trace (env_of c m be) init (filter keep ops).
Proof. exact erase_with_restarts. Qed.

(* (b) with restarts: a peek returns exactly what the immediately following consuming read with
   the same arguments returns, in every state such a history reaches — in particular when the
   peek is the first read after a restart and itself applies the persisted position *)
Theorem c02_peek_equals_consuming_read_after_restart : forall (c : Cfg) (m : mode) (be : backend) (ops : list op),
  cfg_ok c ->
  outside_known (env_of c m be) init ops = true ->
  N.of_nat (length (offered_all ops)) <= u64_max -> sum_len (offered_all ops) <= u64_max ->
  c02b_ok (trace (env_of c m be) init ops) = true.
Proof. intros c m be ops Hc Ho HB HBb. apply (c02b_with_restarts_from c m be Hc ops init). now apply Adm_init. Qed.

(* non-vacuity: two restarts; before the first a consuming read of the writer block persists a
   TAIL position and a rotation seals that block; after it a read_next peek, offset reads and a
   batch peek are erased, so the two runs apply the persisted position through different APIs *)
Definition dt (n : N) : topic := {| t_id := n; t_nlen := 2 |}.
Definition c02_restart_ops : list op :=
  [OAppend t1 (e 0 5000); OAppend t1 (e 1 2000); ORead t1 true; OAppend t1 (e 2 9000); OAppend (dt 2) (e 3 100);
   OReopen;
   ORead t1 false; OBatchRead t1 100000 true (Some 0); OBatchRead t1 100000 true None; OCount t1; OAppend t1 (e 4 300);
   OBatchRead (dt 2) 100000 false None; ORead (dt 2) true; OBatchRead t1 4000 false (Some 5000);
   OReopen;
   OBatchRead t1 100000 false None; ORead t1 true; OCount t1; ORead (dt 2) false; OCount (dt 2); ORead t1 true].

Example c02_restart_witness :
  outside_known (env_of small_cfg Strict Fd) init c02_restart_ops = true /\
  outside_known (env_of small_cfg Strict Fd) init (filter keep c02_restart_ops) = true /\
  map snd (trace (env_of small_cfg Strict Fd) init c02_restart_ops)
  = [ROk; ROk; REntry (out_of (e 0 5000)); ROk; ROk;
     ROk;
     REntry (out_of (e 1 2000)); REntries [out_of (e 0 5000); out_of (e 1 2000); out_of (e 2 9000)];
     REntries [out_of (e 1 2000); out_of (e 2 9000)]; RNum 0; ROk;
     REntries [out_of (e 3 100)]; REntry (out_of (e 3 100)); REntries [{| o_pid := 0; o_skip := 4744; o_len := 256 |}];
     ROk;
     REntries [out_of (e 4 300)]; REntry (out_of (e 4 300)); RNum 0; RNone; RNum 0; RNone] /\
  filter keep c02_restart_ops
  = [OAppend t1 (e 0 5000); OAppend t1 (e 1 2000); ORead t1 true; OAppend t1 (e 2 9000); OAppend (dt 2) (e 3 100);
     OReopen; OBatchRead t1 100000 true None; OCount t1; OAppend t1 (e 4 300); ORead (dt 2) true;
     OReopen; ORead t1 true; OCount t1; OCount (dt 2); ORead t1 true] /\
  map snd (trace (env_of small_cfg Strict Fd) init (filter keep c02_restart_ops))
  = [ROk; ROk; REntry (out_of (e 0 5000)); ROk; ROk;
     ROk; REntries [out_of (e 1 2000); out_of (e 2 9000)]; RNum 0; ROk; REntry (out_of (e 3 100));
     ROk; REntry (out_of (e 4 300)); RNum 0; RNum 0; RNone] /\
  (* AtLeastOnce: the same history is outside the known class too, and the restarts redeliver *)
  outside_known (env_of small_cfg (ALO 2) Mmap) init c02_restart_ops = true /\
  outside_known (env_of small_cfg (ALO 2) Mmap) init (filter keep c02_restart_ops) = true /\
  map snd (trace (env_of small_cfg (ALO 2) Mmap) init (filter keep c02_restart_ops))
  = [ROk; ROk; REntry (out_of (e 0 5000)); ROk; ROk;
     ROk; REntries [out_of (e 0 5000); out_of (e 1 2000); out_of (e 2 9000)]; RNum 0; ROk; REntry (out_of (e 3 100));
     ROk; REntry (out_of (e 0 5000)); RNum 3; RNum 1; REntry (out_of (e 1 2000))].
Proof. vm_compute. repeat split; reflexivity. Qed.

(* the hypothesis cannot be dropped (corpus/C02/iddrift-peek.case, confirmed on the code): seven
   one-entry topics leave a hole in the allocator ids, topic 8's consuming read persists a TAIL
   position, the restart renumbers its blocks (block-id drift).  read_next resolves the dangling
   position to the start of the chain, batch_read keeps the recovered cursor at the end of the
   chain: WITH the read_next peek the consuming batch read returns both entries and the count
   goes to 0; WITHOUT it the batch read returns nothing and the count stays 2. *)
Definition c02_drift_ops : list op :=
  [OAppend (dt 1) (e 0 10); OAppend (dt 2) (e 1 10); OAppend (dt 3) (e 2 10); OAppend (dt 4) (e 3 10); OAppend (dt 5) (e 4 10);
   OAppend (dt 6) (e 5 10); OAppend (dt 7) (e 6 10); OAppend (dt 8) (e 7 5000); OAppend (dt 8) (e 8 100); ORead (dt 8) true;
   OReopen;
   ORead (dt 8) false; OBatchRead (dt 8) 100000 true None; OCount (dt 8)].

Theorem c02_erasure_refuted_id_drift :
  outside_known (env_of small_cfg Strict Fd) init c02_drift_ops = false /\
  map snd (filter (fun p => keep (fst p)) (trace (env_of small_cfg Strict Fd) init c02_drift_ops))
  = [ROk; ROk; ROk; ROk; ROk; ROk; ROk; ROk; ROk; REntry (out_of (e 7 5000)); ROk;
     REntries [out_of (e 7 5000); out_of (e 8 100)]; RNum 0] /\
  map snd (trace (env_of small_cfg Strict Fd) init (filter keep c02_drift_ops))
  = [ROk; ROk; ROk; ROk; ROk; ROk; ROk; ROk; ROk; REntry (out_of (e 7 5000)); ROk;
     REntries []; RNum 2].
Proof. vm_compute. repeat split; reflexivity. Qed.

Theorem c02_erasure_with_restarts_needs_outside_known :
  ~ (forall ops : list op,
       filter (fun p => keep (fst p)) (trace (env_of small_cfg Strict Fd) init ops)
       = trace (env_of small_cfg Strict Fd) init (filter keep ops)).
Proof.
  intros H. pose proof (f_equal (map snd) (H c02_drift_ops)) as E.
  destruct c02_erasure_refuted_id_drift as (_ & H1 & H2).
  pose proof (eq_trans (eq_trans (eq_sym H1) E) H2) as X. discriminate X.
Qed.

(* (b) right after a restart, both APIs, the peek applying the persisted position itself *)
Example c02_peek_after_restart_witness :
  let ops := [OAppend t1 (e 0 5000); OAppend t1 (e 1 2000); ORead t1 true; OAppend t1 (e 2 9000); OReopen;
              ORead t1 false; ORead t1 true; OReopen; OBatchRead t1 100000 false None; OBatchRead t1 100000 true None] in
  outside_known (env_of small_cfg Strict Fd) init ops = true /\
  map snd (trace (env_of small_cfg Strict Fd) init ops)
  = [ROk; ROk; REntry (out_of (e 0 5000)); ROk; ROk; REntry (out_of (e 1 2000)); REntry (out_of (e 1 2000)); ROk;
     REntries [out_of (e 2 9000)]; REntries [out_of (e 2 9000)]].
Proof. vm_compute. split; reflexivity. Qed.

Check c02_erasure : forall (c : Cfg) (m : mode) (be : backend) (ops : list op),
  cfg_ok c -> Forall (op_ok c) ops ->
  N.of_nat (length (offered_all ops)) <= u64_max -> sum_len (offered_all ops) <= u64_max ->
  filter (fun p => keep (fst p)) (trace (env_of c m be) init ops) = trace (env_of c m be) init (filter keep ops).
Check c02_peek_and_offset_reads : forall (c : Cfg) (m : mode) (be : backend) (ops : list op),
  cfg_ok c -> Forall (op_ok c) ops ->
  N.of_nat (length (offered_all ops)) <= u64_max -> sum_len (offered_all ops) <= u64_max ->
  c02c_ok (trace (env_of c m be) init ops) = true /\ c02b_ok (trace (env_of c m be) init ops) = true.
Print Assumptions c02_erasure.
Print Assumptions c02_queue_view.
Print Assumptions c02_peek_and_offset_reads.
Print Assumptions c02_batch_peek_then_consume.
Print Assumptions c02_subranges_any_state.
Print Assumptions c02_offset_read_changes_nothing.
Check c02_erasure_with_restarts : forall (c : Cfg) (m : mode) (be : backend) (ops : list op),
  cfg_ok c ->
  outside_known (env_of c m be) init ops = true ->
  outside_known (env_of c m be) init (filter keep ops) = true ->
  N.of_nat (length (offered_all ops)) <= u64_max -> sum_len (offered_all ops) <= u64_max ->
  filter (fun p => keep (fst p)) (trace (env_of c m be) init ops) = trace (env_of c m be) init (filter keep ops).
Check c02_peek_equals_consuming_read_after_restart : forall (c : Cfg) (m : mode) (be : backend) (ops : list op),
  cfg_ok c ->
  outside_known (env_of c m be) init ops = true ->
  N.of_nat (length (offered_all ops)) <= u64_max -> sum_len (offered_all ops) <= u64_max ->
  c02b_ok (trace (env_of c m be) init ops) = true.
Print Assumptions c02_erasure_with_restarts.
Print Assumptions c02_peek_equals_consuming_read_after_restart.
Print Assumptions c02_erasure_refuted_id_drift.
Print Assumptions c02_erasure_with_restarts_needs_outside_known.
