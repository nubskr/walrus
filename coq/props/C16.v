(* C16 — FD/io_uring and mmap backends behave identically. *)
From W Require Import model.Base model.Engine proofs.EngineBasic.

(* for every configuration, mode, start state and operation sequence (appends, batches, both
   read APIs, counts, restarts, rejected operations): the results with the two backends are
   equal.  The one place where the model looks at the backend is a batch on a topic whose name does
   not fit the entry header (a panic on the FD path, InvalidData on the mmap path); the argument
   check in front of both paths makes that branch unreachable, so the theorem needs no side condition. *)
Theorem c16_backend_irrelevant : forall (c : Cfg) (m : mode) (ops : list op) (s : st),
  run {| v_cfg := c; v_mode := m; v_backend := Fd |} s ops =
  run {| v_cfg := c; v_mode := m; v_backend := Mmap |} s ops.
Proof.
  intros c m. induction ops as [|o ops IH]; intros s; [reflexivity|].
  cbn [run]. rewrite (step_backend c m s o).
  destruct (step _ s o) as [s' r]. now rewrite IH.
Qed.

(* non-vacuity: a history with a rejected long-name batch, an oversize append and a restart *)
Example c16_witness :
  let c := {| c_block := 4096; c_bpf := 8; c_max_alloc := 16384; c_hdr := 256; c_max_entries := 2000;
              c_max_bytes := 262144; c_small := 128; c_overflow_checks := true |} in
  let tl := {| t_id := 9; t_nlen := 217 |} in let t1 := {| t_id := 1; t_nlen := 2 |} in
  run {| v_cfg := c; v_mode := Strict; v_backend := Fd |} init
    [OBatch tl [{| e_pid := 0; e_len := 1 |}]; OAppend t1 {| e_pid := 1; e_len := 20000 |};
     OAppend t1 {| e_pid := 2; e_len := 5 |}; OReopen; ORead t1 true]
  = [RErr EInvalidData; RErr EInvalidInput; ROk; ROk; REntry {| o_pid := 2; o_skip := 0; o_len := 5 |}].
Proof. vm_compute. reflexivity. Qed.

Check c16_backend_irrelevant : forall (c : Cfg) (m : mode) (ops : list op) (s : st),
  run {| v_cfg := c; v_mode := m; v_backend := Fd |} s ops =
  run {| v_cfg := c; v_mode := m; v_backend := Mmap |} s ops.
Print Assumptions c16_backend_irrelevant.
