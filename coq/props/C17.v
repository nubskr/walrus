(* C17 — topic clean/dirty markers reflect the latest change, across restarts.
   The statements about the model are instances of k_outs_ok (proofs/CleanP.v: k_run_ok from the
   initial state); those about the acceptor rest on k_accept_from_iff and k_sched_weave
   (proofs/CleanAccP.v).
   Model: model/Clean.v (tracker states with generations, channel, persister thread in three
   steps, store file, persisters of dropped instances, two shutdown variants: KPinned = dropping
   the Walrus value does nothing for the markers, the code before fix 906b117; KFlush = Drop for
   Walrus calls flush_and_close, src/wal/runtime/walrus.rs and topic_clean.rs, the code since).
   Acceptor: spec/CleanSpec.v. *)
From W Require Import model.Base model.Clean spec.CleanSpec proofs.CleanP proofs.CleanAccP.

(* inside one instance the answer is always the last value set: every history without a
   shutdown, persister steps anywhere, either variant *)
Theorem c17_in_process : forall v h,
  forallb k_no_restart h = true -> k_outs v h = kspec_outs kspec0 h.
Proof. intros v h NR. apply k_outs_ok. right. now apply k_settled_no_restart. Qed.

(* without the flush on drop (KPinned) C17 does NOT hold: for every topic, a change followed at
   once by a clean shutdown is forgotten (an append is reported clean; a mark_clean is undone) *)
Theorem c17_refuted_restart_before_tick : forall t,
  k_outs KPinned [KAppend t; KReopen; KIsClean t] = [true] /\
  kspec_outs kspec0 [KAppend t; KReopen; KIsClean t] = [false] /\
  k_outs KPinned [KAppend t; KTick; KMarkClean t; KRestart; KIsClean t] = [false] /\
  kspec_outs kspec0 [KAppend t; KTick; KMarkClean t; KRestart; KIsClean t] = [true].
Proof.
  intros t. split; [reflexivity|]. split; [|split].
  - cbn [kspec_outs kspec_step]. unfold kspec_set. now rewrite k_cmp_refl.
  - (* evaluation stops at each comparison of t with itself *)
    unfold k_outs. repeat (cbv -[k_cmp]; rewrite ?k_cmp_refl). reflexivity.
  - cbn [kspec_outs kspec_step]. unfold kspec_set. now rewrite k_cmp_refl.
Qed.

Theorem c17_pinned_not_full : ~ C17_full KPinned.
Proof.
  intros F. destruct (c17_refuted_restart_before_tick []) as [A [B _]]. rewrite (F _), B in A. discriminate.
Qed.

(* second mechanism (KPinned, same process): the persister of a dropped instance lands its old file
   image later — the answer changes between two reopens without any call (first history), and a
   marker that a completed persister run of the NEW instance had written is wiped out (second
   history and what C17 demands of it), although a tick separates that change from the shutdown:
   the last conjunct says so of the new instance's own calls (the second history from its first
   KReopen on, without the KOLand) *)
Theorem c17_refuted_late_write :
  let a := [97] in let b := [98] in
  k_outs KPinned [KMarkDirty a; KRecv; KSnap; KReopen; KIsClean a; KOLand 0; KIsClean a; KReopen; KIsClean a]
    = [true; true; false] /\
  k_outs KPinned [KMarkDirty a; KRecv; KSnap; KReopen; KMarkDirty b; KTick; KIsClean b; KOLand 0; KReopen; KIsClean b]
    = [false; true] /\
  kspec_outs kspec0 [KMarkDirty a; KRecv; KSnap; KReopen; KMarkDirty b; KTick; KIsClean b; KOLand 0; KReopen; KIsClean b]
    = [false; false] /\
  k_tick_separated false [KMarkDirty b; KTick; KIsClean b; KReopen; KIsClean b] = true.
Proof. vm_compute. repeat split; reflexivity. Qed.

(* what does hold without the flush on drop: outside the known class (every shutdown happens
   with nothing on its way to the file) C17 holds, all histories *)
Theorem c17_outside_known : forall h, ~ c17_known h -> k_outs KPinned h = kspec_outs kspec0 h.
Proof.
  intros h NK. apply k_outs_ok. right. unfold c17_known in NK.
  destruct (k_settled KPinned k_init h); [reflexivity|]. now elim NK.
Qed.

(* in particular: histories of client calls, whole persister runs and shutdowns in which a
   persister run separates every change from the next shutdown *)
Theorem c17_tick_separated : forall h,
  k_tick_separated false h = true -> k_outs KPinned h = kspec_outs kspec0 h.
Proof.
  intros h T. apply k_outs_ok. right. now apply (k_tick_separated_settled h [] [] [] [] false).
Qed.

(* with the flush on drop (fix 906b117) C17 holds in full *)
Theorem c17_restart_with_flush : C17_full KFlush.
Proof. intros h. apply k_outs_ok. now left. Qed.

(* the acceptor applied to implementation runs accepts exactly the runs the model can
   produce under some placement of persister steps between the client's calls ... *)
Theorem c17_acceptor_means : forall v h, k_accept v h = true <-> k_admissible v h.
Proof.
  intros v h. unfold k_accept, k_admissible. rewrite k_accept_from_iff. split.
  - intros [s [bs [[<-|[]] H]]]. now exists bs.
  - intros [bs H]. exists k_init, bs. split; [now left|exact H].
Qed.

(* ... such a schedule is one history of the model, whose answers are the observed ones ... *)
Theorem c17_admissible_is_model_run : forall v h bursts s',
  k_pev_only bursts -> k_sched v k_init h bursts = Some s' ->
  exists s'', k_run v k_init (k_weave h bursts) = (s'', k_answers h).
Proof. intros v h bursts s' P E. exists s'. apply (k_sched_weave v h bursts k_init s' P E). Qed.

(* ... with the flush on drop an accepted run satisfies C17 literally; without it an accepted
   run does whenever the explaining history is outside the known class *)
Theorem c17_accepted_flush_exact : forall h,
  k_accept KFlush h = true -> k_answers h = kspec_outs kspec0 (k_client h).
Proof.
  intros h A. apply c17_acceptor_means in A as [bs [P S]].
  destruct (k_sched KFlush k_init h bs) as [s'|] eqn:E; [|congruence].
  apply (k_sched_answers KFlush h bs s' P E), k_outs_ok. now left.
Qed.

(* the literal acceptor of the property, also applied to every implementation run *)
Theorem c17_literal_acceptor_means : forall h,
  k_c17_ok h = true <-> k_answers h = kspec_outs kspec0 (k_client h).
Proof. intros h. unfold k_c17_ok. apply list_eqb_bool_iff. Qed.

Theorem c17_accepted_flush_is_c17 : forall h, k_accept KFlush h = true -> k_c17_ok h = true.
Proof. intros h A. apply c17_literal_acceptor_means. now apply c17_accepted_flush_exact. Qed.

Theorem c17_accepted_pinned_settled : forall h bursts s',
  k_pev_only bursts -> k_sched KPinned k_init h bursts = Some s' ->
  k_settled KPinned k_init (k_weave h bursts) = true ->
  k_answers h = kspec_outs kspec0 (k_client h).
Proof.
  intros h bs s' P E St. apply (k_sched_answers KPinned h bs s' P E), k_outs_ok. now right.
Qed.

(* non-vacuity: the acceptor admits both outcomes of the race without the flush on drop, only
   the right one once the persister has caught up or with the flush on drop, and it watches the
   file's content including generations *)
Example c17_acceptor_witness :
  let t := [116; 49] in
  k_accept KPinned [BMarkDirty t; BReopen; BIsClean t true] = true /\
  k_accept KPinned [BMarkDirty t; BReopen; BIsClean t false] = true /\
  k_accept KPinned [BMarkDirty t; BSynced [t]; BReopen; BIsClean t true] = false /\
  k_accept KPinned [BMarkDirty t; BSynced [t]; BReopen; BIsClean t false] = true /\
  k_accept KFlush [BMarkDirty t; BReopen; BIsClean t true] = false /\
  k_accept KFlush [BMarkDirty t; BReopen; BIsClean t false] = true /\
  k_accept KPinned [BMarkDirty t; BMarkClean t; BSynced [t]; BDisk [(t, {| cr_gen := 2; cr_clean := true |})]] = true /\
  k_accept KPinned [BMarkDirty t; BMarkClean t; BSynced [t]; BDisk [(t, {| cr_gen := 1; cr_clean := true |})]] = false /\
  k_accept KPinned [BMarkDirty t; BReopen; BIsClean t true; BReopen; BIsClean t false] = true /\
  k_accept KPinned [BMarkDirty t; BRestart; BIsClean t true; BRestart; BIsClean t false] = false /\
  (* the file can stay different from the reported state for good only through a late write *)
  k_accept KPinned [BMarkDirty t; BReopen; BIsClean t true; BStuck [t]] = true /\
  k_accept KPinned [BMarkDirty t; BRestart; BIsClean t true; BStuck [t]] = false /\
  k_accept KPinned [BMarkDirty t; BStuck [t]] = false.
Proof. vm_compute. repeat split; reflexivity. Qed.

Check c17_in_process : forall v h,
  forallb k_no_restart h = true -> k_outs v h = kspec_outs kspec0 h.
Check c17_pinned_not_full : ~ C17_full KPinned.
Check c17_outside_known : forall h, ~ c17_known h -> k_outs KPinned h = kspec_outs kspec0 h.
Check c17_tick_separated : forall h,
  k_tick_separated false h = true -> k_outs KPinned h = kspec_outs kspec0 h.
Check c17_restart_with_flush : C17_full KFlush.
Check c17_acceptor_means : forall v h, k_accept v h = true <-> k_admissible v h.
Check c17_accepted_flush_exact : forall h,
  k_accept KFlush h = true -> k_answers h = kspec_outs kspec0 (k_client h).
Print Assumptions c17_in_process.
Print Assumptions c17_refuted_restart_before_tick.
Print Assumptions c17_pinned_not_full.
Print Assumptions c17_refuted_late_write.
Print Assumptions c17_outside_known.
Print Assumptions c17_tick_separated.
Print Assumptions c17_restart_with_flush.
Print Assumptions c17_acceptor_means.
Print Assumptions c17_admissible_is_model_run.
Print Assumptions c17_accepted_flush_exact.
Print Assumptions c17_accepted_pinned_settled.
Print Assumptions c17_literal_acceptor_means.
Print Assumptions c17_accepted_flush_is_c17.
