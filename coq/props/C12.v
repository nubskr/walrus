(* C12 — file reclamation never removes entries that are still unconsumed.
   The model is model/Trk.v (both trackers of allocator.rs and flush_check as a state machine
   over the calls the engine makes, 16-bit counters with wrap); the invariant, the safety theorem
   trk_safety and the comparison of the two variants are in proofs/TrkP.v.

   [trk_step false] is the variant of set_checkpointed_true in which every call increments the
   file's counter (/repo before its fix e1cdf77); [trk_step true] is the idempotent variant, which
   is the code today (allocator.rs: `is_checkpointed.swap(true, ..)`, only the first call counts).
   [contract fixed cs] is the executable precondition check of model/Trk.v (block ids registered
   once; for [fixed = false]: a block marked at most once; lock/unlock well bracketed;
   register_block always followed by add_block_to_file_state before the next flush_check of the
   file; fewer than 65536 blocks per file). *)
From W Require Import model.Base model.Trk proofs.TrkP.

(* Safety core, every call of set_checkpointed_true counting: whenever a call sequence that
   abides by the contract makes flush_check send a deletion request for f, then f was marked
   fully allocated, every block ever registered in f was marked (set_checkpointed_true), and none
   of them is locked. *)
Theorem c12_safety_core : forall cs, contract false cs ->
  forall p c rest, cs = p ++ c :: rest ->
  forall f, In f (snd (trk_step false (trk_st false p) c)) ->
  In (CFull f) (p ++ [c]) /\
  forall id, In (CRegister id f) (p ++ [c]) ->
             In (CMark id) (p ++ [c]) /\ ~ In id (locked_ids (p ++ [c])).
Proof. exact (trk_safety false). Qed.

(* The same for the idempotent set_checkpointed_true (the code today), WITHOUT the premise
   "marked at most once" (contract true has no such clause: repeated marks are allowed and do
   nothing). *)
Theorem c12_safety_idempotent_mark : forall cs, contract true cs ->
  forall p c rest, cs = p ++ c :: rest ->
  forall f, In f (snd (trk_step true (trk_st true p) c)) ->
  In (CFull f) (p ++ [c]) /\
  forall id, In (CRegister id f) (p ++ [c]) ->
             In (CMark id) (p ++ [c]) /\ ~ In id (locked_ids (p ++ [c])).
Proof. exact (trk_safety true). Qed.

(* With the engine-side clause of the contract as a hypothesis ("a block is marked only when
   its entries are consumed"): every block of a file requested for deletion is consumed. *)
Theorem c12_deleted_file_consumed : forall fixed cs (consumed : N -> Prop),
  contract fixed cs -> (forall id, In (CMark id) cs -> consumed id) ->
  forall p c rest, cs = p ++ c :: rest ->
  forall f, In f (snd (trk_step fixed (trk_st fixed p) c)) ->
  forall id, In (CRegister id f) (p ++ [c]) -> consumed id /\ ~ In id (locked_ids (p ++ [c])).
Proof.
  intros fixed cs consumed C Hc p c rest E f Hin id Hr. pose proof (trk_safety fixed cs C p c rest E f Hin) as S.
  split; [|now apply S]. apply Hc. subst cs. now apply (safe_hist_mono p c rest f S).
Qed.

(* Every deletion request of a run is the output of one step (so the theorems above speak
   about all of [trk_requests]). *)
Theorem c12_requests_are_steps : forall fixed cs f, In f (trk_requests fixed cs) ->
  exists p c rest, cs = p ++ c :: rest /\ In f (snd (trk_step fixed (trk_st fixed p) c)).
Proof. intros fixed cs f. setoid_rewrite trk_st_from. apply requests_split_from. Qed.

(* REFUTED for the variant in which every call counts: the sequence below abides by everything
   in the contract except "marked at most once" (it is accepted by contract true); block 1 of
   file 7 is marked twice (two polls at the exhausted block), block 2 never, and file 7 is
   requested for deletion. *)
Theorem c12_refuted_repeated_mark : exists cs f id,
  contract true cs /\ marks_repeated cs = true /\
  In f (trk_requests false cs) /\ In (CRegister id f) cs /\ ~ In (CMark id) cs /\
  trk_requests true cs = [].
Proof.
  exists c12_witness_repeated_mark, 7, 2.
  split; [vm_compute; reflexivity|]. split; [vm_compute; reflexivity|].
  split; [vm_compute; now left|]. split; [cbn; tauto|].
  split; [|vm_compute; reflexivity].
  cbn. intuition discriminate.
Qed.

(* The boolean acceptor run over traced call sequences: accepted by construction under the
   contract, and what acceptance means. *)
Theorem c12_contract_accepted : forall fixed cs, contract fixed cs -> c12_trace_ok fixed cs = true.
Proof. intros fixed cs C. exact (trace_safe_of_contract fixed cs trk0 [] [] inv0 C). Qed.

Theorem c12_acceptor_means : forall fixed cs, c12_trace_ok fixed cs = true ->
  forall p c rest, cs = p ++ c :: rest ->
  forall f, In f (snd (trk_step fixed (trk_st fixed p) c)) ->
  file_safe (trk_st fixed (p ++ [c])) (locked_ids (p ++ [c])) f = true.
Proof.
  intros fixed cs H p c rest ->. rewrite !trk_st_from, locked_ids_from. exact (trace_safe_means fixed p trk0 [] c rest H).
Qed.

(* On runs that mark every block at most once the two variants do the same. *)
Theorem c12_fix_is_conservative : forall cs, contract false cs ->
  trk_run false cs = trk_run true cs /\ contract true cs.
Proof.
  intros cs C. split; [exact (run_variants cs trk0 (no_repeat_of_contract_from cs trk0 [] C))|].
  unfold contract, contract_ok in C. rewrite contract_variants in C. now apply andb_prop in C.
Qed.

(* The strongest true statement for the variant in which every call counts: outside the known
   class (some block marked while its flag is already set) the rest of the contract gives safety. *)
Theorem c12_outside_known : forall cs, contract true cs -> marks_repeated cs = false ->
  contract false cs /\ trk_run false cs = trk_run true cs /\ c12_trace_ok false cs = true.
Proof.
  intros cs C M. pose proof (contract_of_no_repeat cs C M) as C0.
  split; [exact C0|]. split; [exact (proj1 (c12_fix_is_conservative cs C0))|exact (c12_contract_accepted false cs C0)].
Qed.

(* The counters are 16 bits wide: 65537 add_block_to_file_state calls for one file wrap its total
   to 1; one marked block then suffices for a request although block 2 was never marked.  No id
   is registered twice, no block is marked twice, every registration is followed by an
   add_block_to_file_state.  The contract rejects the sequence at the 65536th CAddBlock 7, whose
   total would leave 16 bits ([pre] at CAddBlock); without that clause it rejects it at CFull 7, where
   [paired] reads the wrapped counter (2 registered, total 1), not the history. *)
Theorem c12_refuted_u16_wrap : exists cs f id,
  reregistered cs = false /\ marks_repeated cs = false /\
  In f (trk_requests false cs) /\ In (CRegister id f) cs /\ ~ In (CMark id) cs.
Proof.
  exists c12_witness_wrap, 7, 2.
  pose (pfx := [CRegister 1 7; CRegister 2 7; CAddBlock 7]).
  pose (sfx := [CFull 7; CMark 1]).
  assert (E : forall n, [CRegister 1 7; CRegister 2 7] ++ repeat (CAddBlock 7) (S n) ++ sfx =
                        pfx ++ repeat (CAddBlock 7) n ++ sfx) by reflexivity.
  (* the first call creates file 7 with total 1; the other 65536 bring the total back to 1 *)
  assert (W : st_from false (st_from false trk0 pfx) (repeat (CAddBlock 7) (N.to_nat (N.succ 65535))) =
              st_from false trk0 pfx).
  { refine (eq_trans (st_addblocks false 7 65535 (st_from false trk0 pfx) (add_total fstate0) eq_refl) _).
    vm_compute. reflexivity. }
  unfold reregistered, marks_repeated, trk_requests, trk_run, c12_witness_wrap.
  change 65537 with (N.succ (N.succ 65535)). rewrite (N2Nat.inj_succ (N.succ 65535)), E.
  split; [rewrite !reregistered_from_app, W, reregistered_addblocks; reflexivity|].
  split; [rewrite !marks_repeated_from_app, W, marks_repeated_addblocks; reflexivity|].
  split; [|split].
  - rewrite !run_from_app, W. cbn [snd]. apply in_or_app. right. apply in_or_app. right. vm_compute. now left.
  - apply in_or_app. left. cbn. tauto.
  - intro H. apply in_app_or in H as [H|H]; [cbn in H; intuition discriminate|].
    apply in_app_or in H as [H|H]; [apply repeat_spec in H; discriminate|].
    cbn in H. intuition discriminate.
Qed.

(* non-vacuity: a legitimate reclamation — two blocks allocated, sealed, the file rolled
   over, both blocks consumed: contract holds, exactly one request, acceptor accepts *)
Example c12_witness_legit :
  let cs := [CRegister 1 7; CRegFile 7; CAddBlock 7; CLock 1;
             CRegister 2 7; CRegFile 7; CAddBlock 7; CLock 2;
             CUnlock 1; CUnlock 2; CFull 7; CMark 1; CMark 2] in
  (contract_ok false cs, trk_requests false cs, trk_requests true cs, c12_trace_ok false cs,
   c12_trace_ok false c12_witness_repeated_mark) = (true, [7], [7], true, false).
Proof. vm_compute. reflexivity. Qed.

Check c12_safety_core : forall cs, contract false cs ->
  forall p c rest, cs = p ++ c :: rest ->
  forall f, In f (snd (trk_step false (trk_st false p) c)) ->
  In (CFull f) (p ++ [c]) /\
  forall id, In (CRegister id f) (p ++ [c]) ->
             In (CMark id) (p ++ [c]) /\ ~ In id (locked_ids (p ++ [c])).
Check c12_safety_idempotent_mark : forall cs, contract true cs ->
  forall p c rest, cs = p ++ c :: rest ->
  forall f, In f (snd (trk_step true (trk_st true p) c)) ->
  In (CFull f) (p ++ [c]) /\
  forall id, In (CRegister id f) (p ++ [c]) ->
             In (CMark id) (p ++ [c]) /\ ~ In id (locked_ids (p ++ [c])).
Check c12_deleted_file_consumed : forall fixed cs (consumed : N -> Prop),
  contract fixed cs -> (forall id, In (CMark id) cs -> consumed id) ->
  forall p c rest, cs = p ++ c :: rest ->
  forall f, In f (snd (trk_step fixed (trk_st fixed p) c)) ->
  forall id, In (CRegister id f) (p ++ [c]) -> consumed id /\ ~ In id (locked_ids (p ++ [c])).
Check c12_requests_are_steps : forall fixed cs f, In f (trk_requests fixed cs) ->
  exists p c rest, cs = p ++ c :: rest /\ In f (snd (trk_step fixed (trk_st fixed p) c)).
Check c12_refuted_repeated_mark : exists cs f id,
  contract true cs /\ marks_repeated cs = true /\
  In f (trk_requests false cs) /\ In (CRegister id f) cs /\ ~ In (CMark id) cs /\
  trk_requests true cs = [].
Check c12_outside_known : forall cs, contract true cs -> marks_repeated cs = false ->
  contract false cs /\ trk_run false cs = trk_run true cs /\ c12_trace_ok false cs = true.
Check c12_contract_accepted : forall fixed cs, contract fixed cs -> c12_trace_ok fixed cs = true.
Check c12_acceptor_means : forall fixed cs, c12_trace_ok fixed cs = true ->
  forall p c rest, cs = p ++ c :: rest ->
  forall f, In f (snd (trk_step fixed (trk_st fixed p) c)) ->
  file_safe (trk_st fixed (p ++ [c])) (locked_ids (p ++ [c])) f = true.
Check c12_fix_is_conservative : forall cs, contract false cs ->
  trk_run false cs = trk_run true cs /\ contract true cs.
Check c12_refuted_u16_wrap : exists cs f id,
  reregistered cs = false /\ marks_repeated cs = false /\
  In f (trk_requests false cs) /\ In (CRegister id f) cs /\ ~ In (CMark id) cs.
Print Assumptions c12_safety_core.
Print Assumptions c12_safety_idempotent_mark.
Print Assumptions c12_deleted_file_consumed.
Print Assumptions c12_requests_are_steps.
Print Assumptions c12_refuted_repeated_mark.
Print Assumptions c12_outside_known.
Print Assumptions c12_contract_accepted.
Print Assumptions c12_acceptor_means.
Print Assumptions c12_fix_is_conservative.
Print Assumptions c12_refuted_u16_wrap.
