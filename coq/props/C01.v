(* C01 — consuming reads deliver every appended entry once, in order, byte-identical.
   Statements; proofs in proofs/EngineMain.v (and the files it imports). *)
From W Require Import gen.Consts model.Base model.Engine model.EngineCfg spec.Queue
  proofs.EngineWF proofs.EngineMain.

(* For every configuration satisfying the side conditions, both consistency modes, both
   backends and EVERY finite sequence of single appends, batch appends, read_next and
   batch_read_for_topic calls (consuming or peeking, any byte budget, stateful or
   offset-addressed) and count queries on any number of topics: the results the model
   produces are accepted by the queue specification — each consuming read returns exactly the
   next not-yet-returned appended entries of its topic, in order, and returns nothing only
   when nothing is left.  EVERY append and batch is admissible, including the ones the engine
   rejects (entry larger than MAX_ALLOC, topic name that does not fit the entry header, more
   than 2000 entries, over the byte limit): a rejected operation changes nothing the consumer can see
   (an empty batch is accepted and appends nothing).  Restarts are C06's subject.
   The name: no known class is left, every restart-free history is outside it.  "Identical" is [out_is] of spec/Queue.v:
   the whole entry of that producer id and length; payload bytes are abstract in the model (an entry is (pid, len)) and are
   compared per run on the crate.  Of the two bounds the first keeps the u64 entry counter from saturating; the
   second is only carried along ([Rel] of proofs/EngineMain.v): no step needs it. *)
Theorem c01_outside_known : forall (c : Cfg) (m : mode) (be : backend) (ops : list op),
  cfg_ok c -> Forall (op_ok c) ops ->
  N.of_nat (length (offered_all ops)) <= u64_max -> sum_len (offered_all ops) <= u64_max ->
  c01_ok (trace (env_of c m be) init ops) = true.
Proof. intros c m be ops Hc Ho H1 H2. exact (proj1 (engine_from_init c m be ops Hc Ho H1 H2)). Qed.

(* the two geometries the implementation is built with satisfy the side conditions; the
   constants come from the file regenerated from /repo on every run *)
Lemma real_cfg_ok : cfg_ok real_cfg.
Proof. unfold cfg_ok, real_cfg; cbn. unfold src_PREFIX_META_SIZE, src_DEFAULT_BLOCK_SIZE, src_MAX_ALLOC, src_MAX_BATCH_ENTRIES, u64_max. lia. Qed.
Lemma small_cfg_ok : cfg_ok small_cfg.
Proof. unfold cfg_ok, small_cfg; cbn. unfold src_small_PREFIX_META_SIZE, src_small_DEFAULT_BLOCK_SIZE, src_small_MAX_ALLOC, src_small_MAX_BATCH_ENTRIES, u64_max. lia. Qed.

Theorem c01_real : forall m be ops, Forall (op_ok real_cfg) ops ->
  N.of_nat (length (offered_all ops)) <= u64_max -> sum_len (offered_all ops) <= u64_max ->
  c01_ok (trace (env_of real_cfg m be) init ops) = true.
Proof. intros. apply c01_outside_known; auto. exact real_cfg_ok. Qed.

(* a rejected append leaves no trace: the regression witness of fix 47d4d63 *)
Definition t1 : topic := {| t_id := 1; t_nlen := 2 |}.
Definition e (p l : N) : entry := {| e_pid := p; e_len := l |}.
Example c01_oversize_append_leaves_no_trace :
  map snd (trace (env_of small_cfg Strict Fd) init
            [OAppend t1 (e 0 100); OAppend t1 (e 1 20000); ORead t1 true; ORead t1 true])
  = [ROk; RErr EInvalidInput; REntry (out_of (e 0 100)); RNone].
Proof. vm_compute. reflexivity. Qed.

(* non-vacuity: an admissible history with block rotation, an empty payload, both read APIs *)
Example c01_witness :
  let ops := [OAppend t1 (e 0 3000); OAppend t1 (e 1 0); OBatch t1 [e 2 2000; e 3 127; e 4 3500];
              ORead t1 true; OBatchRead t1 0 true None; OBatchRead t1 100 false None;
              OBatchRead t1 18446744073709551615 true None; ORead t1 true] in
  Forall (op_ok small_cfg) ops /\
  map snd (trace (env_of small_cfg (ALO 3) Mmap) init ops) =
    [ROk; ROk; ROk; REntry (out_of (e 0 3000)); REntries [out_of (e 1 0)]; REntries [out_of (e 2 2000)];
     REntries [out_of (e 2 2000); out_of (e 3 127); out_of (e 4 3500)]; RNone].
Proof.
  split.
  - repeat constructor.
  - vm_compute. reflexivity.
Qed.

Check c01_outside_known : forall (c : Cfg) (m : mode) (be : backend) (ops : list op),
  cfg_ok c -> Forall (op_ok c) ops ->
  N.of_nat (length (offered_all ops)) <= u64_max -> sum_len (offered_all ops) <= u64_max ->
  c01_ok (trace (env_of c m be) init ops) = true.
Print Assumptions c01_outside_known.
Print Assumptions c01_real.
