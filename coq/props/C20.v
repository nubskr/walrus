(* C20 — metadata replicas converge, including via snapshot transfer.
   Models: model/Bincode.v (bincode 1.3 default wire format for the types of metadata.rs),
   model/Meta.v (snapshot / restore / apply), model/Adapter.v (octopii's Raft state-machine
   adapter, storage.rs — tied to the source by a fingerprint only).

   Part (a), the state machine's own snapshot/restore: holds at full strength.  The theorems about
   runs are over Meta.apply / mexec / mrun, the RolloverTopic arm before fix 15a0232, for both build
   profiles [oc]; nothing here is stated over apply_fx, the arm /repo has since that fix.
   Part (b), through the Raft adapter: refuted — the adapter serialises its private,
   never-written map (8 zero bytes) instead of the application state. *)
From W Require Import model.Base model.Bincode model.Meta model.Adapter proofs.BincodeP proofs.SnapP.

(* (a) codec: decoding what was encoded gives the state back, whatever order the entries of
   the (hash) maps were written in, at both nesting levels *)
Theorem c20_codec_roundtrip : forall s l rest,
  cluster_sorted s -> cluster_wf l -> cluster_listing l s ->
  dec_cluster (enc_cluster l ++ rest) = Some (s, rest).
Proof. exact codec_roundtrip. Qed.

(* the decoder is total about listings: any well-formed listing decodes to its canonical map *)
Theorem c20_decode_any_listing : forall l rest,
  cluster_wf l -> dec_cluster (enc_cluster l ++ rest) = Some (canon_cluster l, rest).
Proof. exact dec_cluster_enc. Qed.

Theorem c20_cmd_roundtrip : forall c rest, cmd_wf c -> dec_cmd (enc_cmd c ++ rest) = Some (c, rest).
Proof. exact dec_cmd_enc. Qed.

(* a snapshot restored into a fresh state machine reproduces the original state exactly *)
Theorem c20_restore_reproduces : forall s l,
  m_poisoned s = false -> cluster_sorted (m_cl s) -> cluster_wf l -> cluster_listing l (m_cl s) ->
  restore m_init (enc_cluster l) = (s, true).
Proof. exact snapshot_restore_any_order. Qed.

(* ... and the restored replica then behaves exactly like the sender *)
Theorem c20_then_equal : forall oc s l inputs,
  m_poisoned s = false -> cluster_sorted (m_cl s) -> cluster_wf l -> cluster_listing l (m_cl s) ->
  mrun oc (fst (restore m_init (enc_cluster l))) inputs = mrun oc s inputs /\
  mexec oc (fst (restore m_init (enc_cluster l))) inputs = mexec oc s inputs.
Proof. intros oc s l inputs Hp Hs Hw Hl. rewrite (snapshot_restore_any_order s l Hp Hs Hw Hl). auto. Qed.

(* every state reachable by applying byte strings is in the domain of the two theorems above *)
Theorem c20_reachable_in_domain : forall oc inputs,
  Forall input_ok inputs -> 2 * N.of_nat (length inputs) + 2 < two64 ->
  cluster_wf (m_cl (mexec oc m_init inputs)) /\ cluster_sorted (m_cl (mexec oc m_init inputs)).
Proof.
  intros oc inputs Hi Hn. apply (cluster_b_wf (N.of_nat (length inputs))); [exact Hn|].
  apply (cluster_b_mexec oc inputs 0 m_init Hi). split; apply map_b_nil.
Qed.

(* assembled: all command sequences, snapshot at any point, any iteration order, any
   continuation *)
Theorem c20_snapshot_converges : forall oc inputs l more,
  Forall input_ok inputs -> 2 * N.of_nat (length inputs) + 2 < two64 ->
  let s := mexec oc m_init inputs in
  m_poisoned s = false -> cluster_listing l (m_cl s) ->
  restore m_init (enc_cluster l) = (s, true) /\
  mrun oc (fst (restore m_init (enc_cluster l))) more = mrun oc s more.
Proof.
  intros oc inputs l more Hi Hn s Hp Hl. destruct (c20_reachable_in_domain oc inputs Hi Hn) as [Hw Hs]. fold s in Hw, Hs.
  pose proof (cluster_wf_listing l (m_cl s) Hl Hw) as Hwl.
  split; [now apply snapshot_restore_any_order|]. now apply c20_then_equal.
Qed.

(* whatever bytes restore accepts, the resulting state is in canonical form *)
Theorem c20_decoded_is_canonical : forall bs c r, dec_cluster bs = Some (c, r) -> cluster_sorted c.
Proof. intros bs c r E. exact (proj1 (dec_cluster_sorted bs c r I E)). Qed.

(* (b) the Raft adapter: its private map is empty in every reachable adapter ... *)
Theorem c20_adapter_data_empty : forall a, areach a -> a_data a = [].
Proof. exact areach_data. Qed.

(* ... so every snapshot it builds is the same 8 bytes ... *)
Theorem c20_adapter_snapshot_const : forall b, areach b -> snd (snd (build_snapshot b)) = [0; 0; 0; 0; 0; 0; 0; 0].
Proof. intros b H. unfold build_snapshot. cbn [snd]. now rewrite (areach_data b H). Qed.

(* ... and installing one fails, leaves the application state as it was and overwrites the
   receiver's last-applied bookkeeping with the sender's *)
Theorem c20_adapter_never_transfers : forall a b, areach a -> areach b ->
  let r := install_snapshot a (snd (build_snapshot b)) in
  snd r = false /\ a_visible (fst r) = a_visible a /\ a_last (fst r) = a_last b.
Proof. intros a b _ Hb. cbn zeta. rewrite (install_empty a b (areach_data b Hb)). cbn. auto. Qed.

Theorem c20_refuted_adapter :
  exists entries,
    let sender := fst (a_apply false a_init entries) in
    let snap := snd (build_snapshot sender) in
    let r := install_snapshot a_init snap in
    snd snap = [0; 0; 0; 0; 0; 0; 0; 0] /\
    snd r = false /\
    a_visible (fst r) = empty_cluster /\
    a_visible sender <> a_visible (fst r) /\
    a_last (fst r) = a_last sender /\ a_last sender = Some 2.
Proof. exists c20_sender_entries. vm_compute. repeat split; try reflexivity. discriminate. Qed.

Theorem c20_adapter_full_refuted : ~ C20_adapter_full.
Proof.
  intros H.
  specialize (H a_init (fst (a_apply false a_init c20_sender_entries)) ar_init (ar_apply false a_init c20_sender_entries ar_init)).
  vm_compute in H. discriminate.
Qed.

(* the exact condition: the receiver equals the sender afterwards exactly when it already did
   before (KnownClass = the two application states differ at install time) *)
Theorem c20_outside_known : forall a b, areach a -> areach b ->
  (a_visible (fst (install_snapshot a (snd (build_snapshot b)))) = a_visible b <-> a_visible a = a_visible b).
Proof.
  intros a b Ha Hb. destruct (c20_adapter_never_transfers a b Ha Hb) as (_ & E & _). cbn zeta in E. now rewrite E.
Qed.

(* non-vacuity: a two-topic, two-node state written with its maps in reverse order decodes
   to the sorted state; the model's own snapshot restores *)
Example c20_witness_roundtrip :
  let t1 := mkTopic 3 3 18446744073709551615 [(2, 18446744073709551610); (1, 5)] [(3, 3); (1, 1); (2, 2)] in
  let t2 := mkTopic 1 7 0 [] [(1, 7)] in
  let l := mkCluster [([233; 116], t2); ([97], t1)] [(9, [120]); (2, [128512])] in
  dec_cluster (enc_cluster l) =
    Some (mkCluster [([97], mkTopic 3 3 18446744073709551615 [(1, 5); (2, 18446744073709551610)] [(1, 1); (2, 2); (3, 3)]);
                     ([233; 116], t2)]
                    [(2, [128512]); (9, [120])], []).
Proof. vm_compute. reflexivity. Qed.

Check c20_codec_roundtrip : forall s l rest,
  cluster_sorted s -> cluster_wf l -> cluster_listing l s ->
  dec_cluster (enc_cluster l ++ rest) = Some (s, rest).
Check c20_then_equal : forall oc s l inputs,
  m_poisoned s = false -> cluster_sorted (m_cl s) -> cluster_wf l -> cluster_listing l (m_cl s) ->
  mrun oc (fst (restore m_init (enc_cluster l))) inputs = mrun oc s inputs /\
  mexec oc (fst (restore m_init (enc_cluster l))) inputs = mexec oc s inputs.
Check c20_snapshot_converges : forall oc inputs l more,
  Forall input_ok inputs -> 2 * N.of_nat (length inputs) + 2 < two64 ->
  let s := mexec oc m_init inputs in
  m_poisoned s = false -> cluster_listing l (m_cl s) ->
  restore m_init (enc_cluster l) = (s, true) /\
  mrun oc (fst (restore m_init (enc_cluster l))) more = mrun oc s more.
Check c20_adapter_never_transfers : forall a b, areach a -> areach b ->
  let r := install_snapshot a (snd (build_snapshot b)) in
  snd r = false /\ a_visible (fst r) = a_visible a /\ a_last (fst r) = a_last b.
Check c20_outside_known : forall a b, areach a -> areach b ->
  (a_visible (fst (install_snapshot a (snd (build_snapshot b)))) = a_visible b <-> a_visible a = a_visible b).
Print Assumptions c20_codec_roundtrip.
Print Assumptions c20_decode_any_listing.
Print Assumptions c20_cmd_roundtrip.
Print Assumptions c20_restore_reproduces.
Print Assumptions c20_then_equal.
Print Assumptions c20_reachable_in_domain.
Print Assumptions c20_snapshot_converges.
Print Assumptions c20_decoded_is_canonical.
Print Assumptions c20_adapter_data_empty.
Print Assumptions c20_adapter_snapshot_const.
Print Assumptions c20_adapter_never_transfers.
Print Assumptions c20_refuted_adapter.
Print Assumptions c20_adapter_full_refuted.
Print Assumptions c20_outside_known.
