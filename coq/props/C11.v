(* C11 — opening damaged WAL state never crashes and never returns corrupt data.
   The byte-level model is model/Hdr.v (V0 = the code before fix 6c119bb, V1 = the code since).
   The property is FALSE of V0 (theorems c11_refuted_...): the header archive is decoded unchecked and the
   payload window is not bounded.  Outside those two mechanisms it holds at every entry position
   (c11_outside_known); V1 has no undefined outcome for any file content (theorems c11_fixed_...).
   c11_refuted_forged_checksum / c11_refuted_topic_reassigned are limits of the property as
   stated, for both variants: the checksum is not a MAC and does not cover the header. *)
From W Require Import gen.Consts model.Base model.Fnv model.Hdr spec.Damage proofs.FnvP proofs.HdrP.

(* the constants the model uses are the ones in the source (regenerated on every run) *)
Example c11_consts : hdr_size = src_PREFIX_META_SIZE /\ max_meta_len = src_PREFIX_META_SIZE - 2 /\
  fnv_offset = src_FNV_OFFSET /\ fnv_prime = src_FNV_PRIME.
Proof. repeat split; reflexivity. Qed.

Theorem c11_hdr_roundtrip : forall m, wf_meta m -> decode_hdr V0 (encode_hdr m) = HMeta m.
Proof. intros m Hwf. now apply hdr_roundtrip. Qed.

Theorem c11_hdr_roundtrip_fixed : forall m, wf_meta m -> utf8_ok (m_name m) = true ->
  decode_hdr V1 (encode_hdr m) = HMeta m.
Proof. intros m Hwf Hu. now apply hdr_roundtrip. Qed.

Theorem fnv1a_single_byte_detected : forall pre b b' post,
  Forall (fun x => x < 256) (pre ++ b :: post) -> b' < 256 -> b <> b' ->
  checksum64 (pre ++ b :: post) <> checksum64 (pre ++ b' :: post).
Proof. exact checksum64_single_byte. Qed.

(* the recovery loop over [well-formed entries] ++ [an entry one of whose payload bytes changed]
   ++ [anything]: only payloads stored in front of the damage come back, no undefined outcome *)
Theorem c11_payload_only_damage_detected :
  forall v lenient fsz B es name pre b b' post nbs rest fuel pos off limit,
  Forall wf_entry es -> wf_entry (mkW name (pre ++ b :: post) nbs) -> b' < 256 -> b <> b' ->
  let damaged := encode_hdr (meta_for name (pre ++ b :: post) nbs) ++ (pre ++ b' :: post) ++ rest in
  let r := scan_loop fuel v lenient fsz B (enc_ws es ++ damaged) pos off limit in
  (exists k, sc_entries r = firstn k (map we_payload es)) /\ clean_stop (sc_stop r).
Proof.
  intros v lenient fsz B es name pre b b' post nbs rest fuel pos off limit Hes He Hb Hne.
  exact (scan_prefix v lenient fsz B _ (entry_read_damaged v lenient name pre b b' post nbs rest He Hb Hne)
                     es fuel pos off limit Hes).
Qed.

(* zeroing (or cutting) from an entry boundary on *)
Theorem c11_zeroed_suffix_safe :
  forall v lenient fsz B es tail fuel pos off limit,
  Forall wf_entry es -> le_num (firstn 2 tail) = 0 ->
  let r := scan_loop fuel v lenient fsz B (enc_ws es ++ tail) pos off limit in
  (exists k, sc_entries r = firstn k (map we_payload es)) /\ clean_stop (sc_stop r).
Proof.
  intros v lenient fsz B es tail fuel pos off limit Hes Hz.
  exact (scan_prefix v lenient fsz B tail (entry_read_zero_len v lenient tail Hz) es fuel pos off limit Hes).
Qed.

(* and with room and fuel everything in front of the cut is recovered *)
Theorem c11_scan_complete :
  forall v lenient fsz B es tail fuel pos off limit,
  Forall wf_entry es -> le_num (firstn 2 tail) = 0 -> (length es < fuel)%nat ->
  pos + N.of_nat (length (enc_ws es)) + hdr_size <= fsz ->
  off + N.of_nat (length (enc_ws es)) < limit ->
  let r := scan_loop fuel v lenient fsz B (enc_ws es ++ tail) pos off limit in
  sc_entries r = map we_payload es /\ sc_used r = off + N.of_nat (length (enc_ws es)) /\
  sc_limit r = limit /\ sc_stop r = StErr.
Proof.
  intros v lenient fsz B es tail fuel pos off limit Hes Hz.
  exact (scan_complete v lenient fsz B tail (entry_read_zero_len v lenient tail Hz) es fuel pos off limit Hes).
Qed.

Theorem c11_refuted_short_root : exists hdr, length hdr = 256%nat /\ decode_hdr V0 hdr = HShortRoot.
Proof. exists (firstn 256 w_short_root). split; vm_compute; reflexivity. Qed.

Theorem c11_refuted_misaligned_root : exists hdr, one_byte_diff (firstn 256 w_entry) hdr /\
  decode_hdr V0 hdr = HMisaligned /\ decode_hdr V1 hdr = HInvalid.
Proof.
  exists w_misaligned. split; [|split; vm_compute; reflexivity].
  apply (upd_one_byte_diff 0 33 _ 32); [reflexivity|discriminate].
Qed.

Theorem c11_refuted_oob_name : exists hdr1 hdr2, length hdr1 = 256%nat /\ length hdr2 = 256%nat /\
  decode_hdr V0 hdr1 = HOob /\ decode_hdr V0 hdr2 = HOob /\
  one_byte_diff (firstn 256 w_entry) hdr1.
Proof.
  exists w_oob_inline, w_oob_huge.
  repeat split; try (vm_compute; reflexivity).
  apply (upd_one_byte_diff 9 100 _ 2); [reflexivity|discriminate].
Qed.

Theorem c11_refuted_inline_len : exists hdr m, one_byte_diff (firstn 256 w_entry) hdr /\
  decode_hdr V0 hdr = HMeta m /\ length (m_name m) = 20%nat /\ decode_hdr V1 hdr = HInvalid.
Proof.
  exists w_inline_long. eexists. split; [|split; [vm_compute; reflexivity|split; vm_compute; reflexivity]].
  apply (upd_one_byte_diff 9 20 _ 2); [reflexivity|discriminate].
Qed.

Theorem c11_refuted_read_size_past_file : exists bs m, entry_read V0 false bs = RPastEnd m /\
  entry_read V1 false bs = RErr.
Proof. exists w_big_size. eexists. split; vm_compute; reflexivity. Qed.

Theorem c11_full_refuted : ~ C11_full V0.
Proof. intros H. specialize (H false 512 512 (w_file w_short_root)). vm_compute in H. exact H. Qed.

(* limits of the property as stated (both variants).  [p'] is a payload of the attacker's choosing
   written with its own FNV-1a: it reads back as a valid entry *)
Theorem c11_refuted_forged_checksum : forall v lenient name p' nbs rest, wf_entry (mkW name p' nbs) ->
  entry_read v lenient (enc_entry name p' nbs ++ rest) = ROk (meta_for name p' nbs) p'.
Proof. intros v lenient name p' nbs rest. exact (entry_read_wf v lenient (mkW name p' nbs) rest). Qed.

Theorem c11_refuted_topic_reassigned : forall v, ~ C11_owner_full v.
Proof.
  (* the entry Block::write stores for topic "c" differs from the one for topic "a" in byte 2 alone *)
  intros v H. pose (e c := mkW [c] [] 0).
  assert (Hwf : wf_entry (e 97) /\ wf_entry (e 99)).
  { unfold wf_entry, e, bytes_ok. cbn [we_name we_payload we_nbs length].
    repeat split; try lia; try reflexivity; repeat constructor. }
  assert (E : m_name (meta_w (e 99)) = we_name (e 97)); [|discriminate E].
  apply (H _ (enc_w (e 99) ++ []) false _ []).
  - apply Hwf.
  - exists [32; 0], 97, 99, (skipn 3 (enc_w (e 97))). repeat split; try discriminate; vm_compute; reflexivity.
  - apply entry_read_wf, Hwf.
Qed.

(* outside the two mechanisms of KnownClass V0 reads what V1 reads, so it has V1's guarantee *)
Theorem c11_outside_known : forall lenient bs, ~ KnownClass bs ->
  match entry_read V0 lenient bs with
  | RErr => True
  | ROk m p => consistent_read bs m p
  | RUb _ | RPastEnd _ => False
  end.
Proof. intros lenient bs Hk. rewrite (entry_read_outside_known lenient bs Hk). apply entry_fixed_total. Qed.

(* V1: no undefined outcome, whatever the file holds *)
Theorem c11_fixed_entry_total : forall lenient bs,
  match entry_read V1 lenient bs with
  | RErr => True
  | ROk m p => consistent_read bs m p
  | RUb _ | RPastEnd _ => False
  end.
Proof. exact entry_fixed_total. Qed.

Theorem c11_fixed_full : C11_full V1.
Proof.
  intros lenient fsz B file. unfold scan_file. destruct (N.of_nat (length file) <? fsz); [exact I|].
  generalize (S (N.to_nat (fsz / B))) as fuel, 0 as boff. intros fuel. revert file.
  induction fuel as [|f IH]; intros file boff; cbn [scan_file_loop]; [exact I|].
  destruct (fsz <? boff + B); [exact I|].
  destruct (all_zero (firstn 8 file)); [apply IH|].
  pose proof (decode_hdr_checked (firstn 256 file)) as T.
  destruct (decode_hdr V1 (firstn 256 file)) as [| | | | |md]; [apply IH|destruct T|destruct T|destruct T|apply IH|].
  rewrite file_stop_of_clean by apply scan_fixed_clean.
  destruct (sc_used _ =? 0); [exact I|apply IH].
Qed.

Theorem c11_checked_refines_unchecked : forall hdr m, decode_hdr V1 hdr = HMeta m -> decode_hdr V0 hdr = HMeta m.
Proof. intros hdr m E. pose proof (decode_hdr_checked hdr) as T. rewrite E in T. apply T. Qed.

(* the acceptor the check runs over the implementation's observations *)
Theorem c11_acceptor_means : forall app o,
  c11_ok app o = true <->
  o_clean o = true /\
  forall topic ids x, In (topic, ids) (o_delivered o) -> In x ids ->
    exists pid, x = Some pid /\ In pid (appended_of app topic).
Proof.
  intros app o. unfold c11_ok. rewrite andb_true_iff, forallb_forall. apply and_iff_compat_l. split.
  - intros Hall topic ids x Hin Hx.
    specialize (Hall (topic, ids) Hin). cbn [fst snd] in Hall. rewrite forallb_forall in Hall.
    specialize (Hall x Hx). destruct x as [pid|]; [|discriminate].
    exists pid. split; [reflexivity|now apply ListP.existsb_eqb_in].
  - intros Hall (topic, ids) Hin. apply forallb_forall. intros x Hx.
    destruct (Hall topic ids x Hin Hx) as (pid & -> & Hp). now apply ListP.existsb_eqb_in.
Qed.

(* non-vacuity: a two-block file image written by the encoder is recovered in full by both
   variants, and the stream of topic "ab" is its two payloads *)
Example c11_witness :
  let e1 := enc_entry w_name w_payload 512 in
  let e2 := enc_entry w_name [9; 9] 512 in
  let file := (e1 ++ zeros (512 - length e1)) ++ (e2 ++ zeros (512 - length e2)) in
  map (fun v => topic_stream w_name (fs_blocks (scan_file v false 1024 512 file))) [V0; V1]
  = [[w_payload; [9; 9]]; [w_payload; [9; 9]]].
Proof. vm_compute. reflexivity. Qed.

Check c11_hdr_roundtrip : forall m, wf_meta m -> decode_hdr V0 (encode_hdr m) = HMeta m.
Check c11_hdr_roundtrip_fixed : forall m, wf_meta m -> utf8_ok (m_name m) = true ->
  decode_hdr V1 (encode_hdr m) = HMeta m.
Check fnv1a_single_byte_detected : forall pre b b' post,
  Forall (fun x => x < 256) (pre ++ b :: post) -> b' < 256 -> b <> b' ->
  checksum64 (pre ++ b :: post) <> checksum64 (pre ++ b' :: post).
Check c11_payload_only_damage_detected :
  forall v lenient fsz B es name pre b b' post nbs rest fuel pos off limit,
  Forall wf_entry es -> wf_entry (mkW name (pre ++ b :: post) nbs) -> b' < 256 -> b <> b' ->
  let damaged := encode_hdr (meta_for name (pre ++ b :: post) nbs) ++ (pre ++ b' :: post) ++ rest in
  let r := scan_loop fuel v lenient fsz B (enc_ws es ++ damaged) pos off limit in
  (exists k, sc_entries r = firstn k (map we_payload es)) /\ clean_stop (sc_stop r).
Check c11_zeroed_suffix_safe :
  forall v lenient fsz B es tail fuel pos off limit,
  Forall wf_entry es -> le_num (firstn 2 tail) = 0 ->
  let r := scan_loop fuel v lenient fsz B (enc_ws es ++ tail) pos off limit in
  (exists k, sc_entries r = firstn k (map we_payload es)) /\ clean_stop (sc_stop r).
Check c11_scan_complete :
  forall v lenient fsz B es tail fuel pos off limit,
  Forall wf_entry es -> le_num (firstn 2 tail) = 0 -> (length es < fuel)%nat ->
  pos + N.of_nat (length (enc_ws es)) + hdr_size <= fsz ->
  off + N.of_nat (length (enc_ws es)) < limit ->
  let r := scan_loop fuel v lenient fsz B (enc_ws es ++ tail) pos off limit in
  sc_entries r = map we_payload es /\ sc_used r = off + N.of_nat (length (enc_ws es)) /\
  sc_limit r = limit /\ sc_stop r = StErr.
Check c11_refuted_short_root : exists hdr, length hdr = 256%nat /\ decode_hdr V0 hdr = HShortRoot.
Check c11_refuted_misaligned_root : exists hdr, one_byte_diff (firstn 256 w_entry) hdr /\
  decode_hdr V0 hdr = HMisaligned /\ decode_hdr V1 hdr = HInvalid.
Check c11_refuted_oob_name : exists hdr1 hdr2, length hdr1 = 256%nat /\ length hdr2 = 256%nat /\
  decode_hdr V0 hdr1 = HOob /\ decode_hdr V0 hdr2 = HOob /\
  one_byte_diff (firstn 256 w_entry) hdr1.
Check c11_refuted_inline_len : exists hdr m, one_byte_diff (firstn 256 w_entry) hdr /\
  decode_hdr V0 hdr = HMeta m /\ length (m_name m) = 20%nat /\ decode_hdr V1 hdr = HInvalid.
Check c11_refuted_read_size_past_file : exists bs m, entry_read V0 false bs = RPastEnd m /\
  entry_read V1 false bs = RErr.
Check c11_full_refuted : ~ C11_full V0.
Check c11_refuted_forged_checksum : forall v lenient name p' nbs rest, wf_entry (mkW name p' nbs) ->
  entry_read v lenient (enc_entry name p' nbs ++ rest) = ROk (meta_for name p' nbs) p'.
Check c11_refuted_topic_reassigned : forall v, ~ C11_owner_full v.
Check c11_outside_known : forall lenient bs, ~ KnownClass bs ->
  match entry_read V0 lenient bs with
  | RErr => True
  | ROk m p => consistent_read bs m p
  | RUb _ | RPastEnd _ => False
  end.
Check c11_fixed_entry_total : forall lenient bs,
  match entry_read V1 lenient bs with
  | RErr => True
  | ROk m p => consistent_read bs m p
  | RUb _ | RPastEnd _ => False
  end.
Check c11_fixed_full : C11_full V1.
Check c11_checked_refines_unchecked : forall hdr m, decode_hdr V1 hdr = HMeta m -> decode_hdr V0 hdr = HMeta m.
Check c11_acceptor_means : forall app o,
  c11_ok app o = true <->
  o_clean o = true /\
  forall topic ids x, In (topic, ids) (o_delivered o) -> In x ids ->
    exists pid, x = Some pid /\ In pid (appended_of app topic).
Print Assumptions c11_hdr_roundtrip.
Print Assumptions c11_hdr_roundtrip_fixed.
Print Assumptions fnv1a_single_byte_detected.
Print Assumptions c11_payload_only_damage_detected.
Print Assumptions c11_zeroed_suffix_safe.
Print Assumptions c11_scan_complete.
Print Assumptions c11_refuted_short_root.
Print Assumptions c11_refuted_misaligned_root.
Print Assumptions c11_refuted_oob_name.
Print Assumptions c11_refuted_inline_len.
Print Assumptions c11_refuted_read_size_past_file.
Print Assumptions c11_full_refuted.
Print Assumptions c11_refuted_forged_checksum.
Print Assumptions c11_refuted_topic_reassigned.
Print Assumptions c11_outside_known.
Print Assumptions c11_fixed_entry_total.
Print Assumptions c11_fixed_full.
Print Assumptions c11_checked_refines_unchecked.
Print Assumptions c11_acceptor_means.
Print Assumptions c11_witness.
