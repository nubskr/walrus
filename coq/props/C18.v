(* C18 — cluster metadata keeps an immutable, contiguous segment history.
   Model: model/Meta.v (metadata.rs apply, with the RwLock poison flag and both overflow
   behaviours), model/Bincode.v (command decoding).
   [apply oc], [mrun oc], [mexec oc] are the RolloverTopic arm with plain `+=`, the code before
   fix 15a0232; [apply_fx], [mrun_fx], [mexec_fx] are the arm with checked_add, the code of /repo.

   Inputs are arbitrary byte strings (list N): decodable commands of any kind, duplicates,
   unknown topics and undecodable bytes are all covered by the quantifier.
   [oc] = overflow checks (true: dev profile, false: release profile, wrapping).
   The length hypothesis excludes only sequences of 2^64 - 1 or more commands (the only
   way `current_segment += 1` can overflow). *)
From W Require Import model.Base model.Map model.Bincode model.Meta proofs.MapP proofs.MetaP.

Theorem c18_inv_init : forall e, inv e 0 m_init.
Proof. split; cbn; auto. Qed.

(* the invariant is kept by every input that does not overflow a cumulative count; the step
   extends every topic's history without changing any existing entry, and does not panic *)
Theorem c18_inv_step : forall e oc n s bs,
  inv e n s -> n + 2 < two64 -> (e = true \/ oc = true -> no_ovf_in s bs) ->
  exists s' r, apply oc s bs = (s', r) /\ apply false s bs = (s', r) /\
               inv e (n + 1) s' /\ cluster_ext (m_cl s) (m_cl s') = true /\ is_panic r = false.
Proof.
  intros e oc n s bs Hi Hn Ho. apply inv_ginv in Hi. destruct Hi as [Hi Hc].
  destruct (step_input e oc s bs Hi (fun c => cur_le_fits n s c Hc Hn) Ho) as [E (Hi' & Hx & Hp & Hb)].
  exists (fst (apply oc s bs)), (snd (apply oc s bs)). rewrite <- E, <- surjective_pairing.
  split; [reflexivity|]. split; [reflexivity|]. split; [|split; assumption].
  apply inv_ginv. split; [exact Hi'|now apply Hb].
Qed.

Theorem c18_inv_meaning : forall e n s, inv e n s -> m_poisoned s = false /\ cluster_ok e (m_cl s) = true.
Proof. intros e n s H. apply inv_ginv in H. destruct H as [H _]. split; [apply H|now apply ginv_cluster_ok]. Qed.

(* EVERY sequence, wrapping build of the arm before the fix: no panic; segments numbered 1..current
   with one leader each; leader of the open segment = topic leader; sealed = 1..current-1; nothing
   already recorded ever changes; the cumulative offset equals the sum of the sealed counts modulo 2^64 *)
Theorem c18_all_sequences : forall inputs,
  N.of_nat (length inputs) + 1 < two64 ->
  trace_okb false empty_cluster (mrun false m_init inputs) = true.
Proof. intros inputs H. now apply (run_apply false inputs m_init (ginv_init false) (room_init _ H)). Qed.

(* immutability between any two points of any run of that build *)
Theorem c18_sealed_immutable : forall pre suf,
  N.of_nat (length (pre ++ suf)) + 1 < two64 ->
  cluster_ext (m_cl (mexec false m_init pre)) (m_cl (mexec false m_init (pre ++ suf))) = true.
Proof.
  intros pre suf H. destruct (run_apply false (pre ++ suf) m_init (ginv_init false) (room_init _ H)) as (_ & _ & X).
  - discriminate.
  - apply (X pre suf eq_refl).
Qed.

(* the defect that fix 15a0232 repaired: a cumulative count reaching 2^64 *)
Theorem c18_refuted_sum_overflow :
  exists inputs,
    N.of_nat (length inputs) + 1 < two64 /\ sum_overflow inputs = true /\
    map snd (mrun true m_init inputs) = [MOk b_created; MOk b_rolled; MPanic PSum] /\
    m_poisoned (mexec true m_init inputs) = true /\
    visible (mexec true m_init inputs) = empty_cluster /\
    map snd (mrun false m_init inputs) = [MOk b_created; MOk b_rolled; MOk b_rolled] /\
    cluster_ok true (m_cl (mexec false m_init inputs)) = false /\
    cluster_ok false (m_cl (mexec false m_init inputs)) = true.
Proof. exists c18_witness. vm_compute. repeat split; reflexivity. Qed.

Theorem c18_full_refuted : ~ C18_full.
Proof.
  intros H. specialize (H false c18_witness). assert (X : N.of_nat (length c18_witness) + 1 < two64) by (vm_compute; reflexivity).
  specialize (H X). vm_compute in H. discriminate.
Qed.

(* outside the known class the property holds at full strength, for both build profiles
   (which then behave identically): exact sum, no panic, lock never poisoned *)
Theorem c18_outside_known : forall oc inputs,
  N.of_nat (length inputs) + 1 < two64 -> sum_overflow inputs = false ->
  mrun oc m_init inputs = mrun false m_init inputs /\
  trace_okb true empty_cluster (mrun oc m_init inputs) = true.
Proof. exact outside_known. Qed.

(* the checked build panics at the sum exactly when the sum does not fit in a u64 *)
Theorem c18_known_class_exact : forall e n s bs,
  inv e n s -> n + 2 < two64 -> (is_psum (snd (apply true s bs)) = false <-> no_ovf_in s bs).
Proof. intros e n s bs Hi _. apply psum_iff_input, Hi. Qed.

(* the code of /repo (fix 15a0232; model: apply_fx): the property holds at full strength
   for EVERY sequence, both build profiles, no class excluded, no bound on the length *)
Theorem c18_fixed_all_sequences : forall inputs,
  trace_okb true empty_cluster (mrun_fx m_init inputs) = true.
Proof. intros inputs. apply (run_fx inputs m_init (ginv_init true)). Qed.

Theorem c18_fixed_sealed_immutable : forall pre suf,
  cluster_ext (m_cl (mexec_fx m_init pre)) (m_cl (mexec_fx m_init (pre ++ suf))) = true.
Proof. intros pre suf. destruct (run_fx (pre ++ suf) m_init (ginv_init true)) as [_ X]. apply (X pre suf eq_refl). Qed.

(* the two arms agree outside the known class *)
Theorem c18_fixed_agrees : forall oc n s bs,
  inv true n s -> n + 2 < two64 -> no_ovf_in s bs -> apply_fx s bs = apply oc s bs.
Proof.
  intros oc n s bs Hi Hn Ho. apply inv_ginv in Hi. destruct Hi as [_ Hc]. unfold apply_fx, apply, no_ovf_in in *.
  destruct (dec_cmd bs) as [[c rest]|]; [|reflexivity]. destruct (m_poisoned s); [reflexivity|].
  pose proof (cur_le_fits n s c Hc Hn) as Hf.
  destruct (apply_cmd_fx_cases s c) as [(_ & _ & ->)|[X _]]; [|now destruct X].
  symmetry. now apply apply_cmd_fits.
Qed.

Theorem c18_topic_ok_meaning : forall t, topic_ok true t = true ->
  (forall k, (exists v, lookup N.compare k (t_leaders t) = Some v) <-> 1 <= k <= t_cur t) /\
  lookup N.compare (t_cur t) (t_leaders t) = Some (t_leader t) /\
  (forall k, (exists v, lookup N.compare k (t_sealed t) = Some v) <-> 1 <= k < t_cur t) /\
  NoDup (keys (t_leaders t)) /\ NoDup (keys (t_sealed t)) /\
  t_last t = sum_vals (t_sealed t).
Proof.
  intros t Ht. apply topic_ok_spec in Ht. destruct (tinv_sorted true t Ht) as [S1 S2].
  destruct Ht as [H1 H2 H3 H4 H5].
  split; [|split; [exact H3|split; [|split; [|split]]]].
  - intros k. rewrite (keys_are_lookup _ _ _ k H2). clear -H1. lia.
  - intros k. rewrite (keys_are_lookup _ _ _ k H4). clear -H1. lia.
  - apply (sorted_NoDup N_cmp_ok). exact S2.
  - apply (sorted_NoDup N_cmp_ok). exact S1.
  - symmetry. exact H5.
Qed.

Theorem c18_topic_ext_meaning : forall t t', topic_ext t t' = true ->
  (forall k v, In (k, v) (t_sealed t) -> lookup N.compare k (t_sealed t') = Some v) /\
  (forall k v, In (k, v) (t_leaders t) -> lookup N.compare k (t_leaders t') = Some v) /\
  t_cur t <= t_cur t'.
Proof. intros t t'. rewrite topic_ext_spec, !sub_map_spec. tauto. Qed.

(* non-vacuity: create, two rollovers with different leaders, a duplicate create, a rollover
   of an unknown topic, garbage bytes — accepted, and the final state is the expected one *)
Example c18_witness_ok :
  let inputs := [enc_cmd (CreateTopic [116] 1); enc_cmd (RolloverTopic [116] 2 5);
                 enc_cmd (CreateTopic [116] 9); enc_cmd (RolloverTopic [117] 1 1); [255; 0];
                 enc_cmd (RolloverTopic [116] 3 18446744073709551610)] in
  trace_okb true empty_cluster (mrun true m_init inputs) = true /\
  c_topics (m_cl (mexec true m_init inputs)) =
    [([116], mkTopic 3 3 18446744073709551615 [(1, 5); (2, 18446744073709551610)] [(1, 1); (2, 2); (3, 3)])].
Proof. vm_compute. split; reflexivity. Qed.

Check c18_inv_init : forall e, inv e 0 m_init.
Check c18_inv_step : forall e oc n s bs,
  inv e n s -> n + 2 < two64 -> (e = true \/ oc = true -> no_ovf_in s bs) ->
  exists s' r, apply oc s bs = (s', r) /\ apply false s bs = (s', r) /\
               inv e (n + 1) s' /\ cluster_ext (m_cl s) (m_cl s') = true /\ is_panic r = false.
Check c18_all_sequences : forall inputs,
  N.of_nat (length inputs) + 1 < two64 ->
  trace_okb false empty_cluster (mrun false m_init inputs) = true.
Check c18_sealed_immutable : forall pre suf,
  N.of_nat (length (pre ++ suf)) + 1 < two64 ->
  cluster_ext (m_cl (mexec false m_init pre)) (m_cl (mexec false m_init (pre ++ suf))) = true.
Check c18_outside_known : forall oc inputs,
  N.of_nat (length inputs) + 1 < two64 -> sum_overflow inputs = false ->
  mrun oc m_init inputs = mrun false m_init inputs /\
  trace_okb true empty_cluster (mrun oc m_init inputs) = true.
Check c18_full_refuted : ~ C18_full.
Check c18_fixed_all_sequences : forall inputs,
  trace_okb true empty_cluster (mrun_fx m_init inputs) = true.
Print Assumptions c18_inv_init.
Print Assumptions c18_inv_step.
Print Assumptions c18_inv_meaning.
Print Assumptions c18_all_sequences.
Print Assumptions c18_sealed_immutable.
Print Assumptions c18_refuted_sum_overflow.
Print Assumptions c18_full_refuted.
Print Assumptions c18_outside_known.
Print Assumptions c18_known_class_exact.
Print Assumptions c18_fixed_all_sequences.
Print Assumptions c18_fixed_sealed_immutable.
Print Assumptions c18_fixed_agrees.
Print Assumptions c18_topic_ok_meaning.
Print Assumptions c18_topic_ext_meaning.
