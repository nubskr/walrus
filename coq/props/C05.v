(* C05 — concurrent producers and consumers: exactly-once, ordered delivery.
   Statements; model in model/Conc.v, acceptor in spec/ConcSpec.v, proofs in
   proofs/Conc*.v.  [run_schedule v fx progs sched]: the thread programs [progs] interleaved at
   segment granularity as the thread-id list [sched] says; [fx = false] is the code BEFORE fix 4c905dc (modelled:
   it documents the defects), [fx = true] the code of /repo, which has that fix. *)
From W Require Import model.Base model.Engine model.EngineCfg model.Conc spec.ConcSpec
  proofs.EngineWF proofs.ConcInv proofs.ConcStep proofs.ConcBridge proofs.ConcMain
  proofs.ConcInvF proofs.ConcMainF proofs.ConcFamilies props.C01.

(* the property for all programs and schedules: every schedule of every set of thread programs
   (distinct payload ids), run to the end, is accepted with [drained = false]: what was delivered is
   whole, delivered once, in order and batches unbroken; that every acknowledged entry is delivered
   (clause all of spec/ConcSpec.v) is not asked here, nor proved in general anywhere: only the
   evaluated witnesses below judge with [drained = true], through [verdict] *)
Definition run_accepted (v : env) (fx : bool) (progs : list (list call)) (sched : list nat) : Prop :=
  let ro := run_schedule v fx progs sched in
  ro_blocked ro = None -> threads_done (ro_cs ro) = true ->
  c05_run_ok progs (cresults (ro_cs ro)) false = true.
Definition C05_full (fx : bool) : Prop :=
  forall (c : Cfg) (m : mode) (be : backend) progs sched,
    NoDup (offered_pids progs) ->
    run_accepted {| v_cfg := c; v_mode := m; v_backend := be |} fx progs sched.

Definition t1 : topic := {| t_id := 1; t_nlen := 2 |}.
Definition e (p l : N) : entry := {| e_pid := p; e_len := l |}.
Definition v0 : env := {| v_cfg := small_cfg; v_mode := Strict; v_backend := Fd |}.
Definition sch (l : list N) : list nat := map N.to_nat l.
Definition rep (n x : N) : list N := repeat x (N.to_nat n).
(* (every call returned, accepted with the final drain counted, mechanism flags) *)
Definition verdict (fx : bool) (progs : list (list call)) (sched : list nat) : bool * bool * kflags :=
  let ro := run_schedule v0 fx progs sched in
  (threads_done (ro_cs ro) && match ro_blocked ro with None => true | Some _ => false end,
   c05_run_ok progs (cresults (ro_cs ro)) true, ro_k ro).
Definition flags (a b c : bool) : kflags := {| k_two_readers := a; k_seal_in_read := b; k_seal_in_bread := c |}.
Definition o (p l : N) : result := REntry {| o_pid := p; o_skip := 0; o_len := l |}.
Definition oo (p l : N) : out := {| o_pid := p; o_skip := 0; o_len := l |}.

(* The last thread of every witness is the drain: it runs after all others have finished. *)

(* K1: two consuming read_next calls both take the tail snapshot (offset 0) before either
   commits: both return entry 0. *)
Definition k1_progs := [[CAppend t1 (e 0 100); CAppend t1 (e 1 100)]; [CRead t1 true]; [CRead t1 true];
                        [CRead t1 true; CRead t1 true]].
Definition k1_sched := sch (rep 6 0 ++ [1;1;2;2] ++ rep 5 1 ++ rep 5 2 ++ rep 20 3).
Theorem c05_refuted_two_readers :
  NoDup (offered_pids k1_progs) /\
  verdict false k1_progs k1_sched = (true, false, flags true false false) /\
  cresults (ro_cs (run_schedule v0 false k1_progs k1_sched)) =
    [[ROk; ROk]; [o 0 100]; [o 0 100]; [o 1 100; RNone]].
Proof. split; [repeat constructor; cbn; intuition discriminate|]. vm_compute. auto. Qed.

(* K2b: ONE consumer, ONE producer.  The reader holds a writer snapshot of block 1 (offset 0);
   the producer's 4th append seals block 1 (the chain push copies the still uncommitted tail
   offset 0 into the sealed cursor); the reader commits tail offset 1256.  The next read_next
   takes the sealed path at offset 0: entry 0 again. *)
Definition a4 := [CAppend t1 (e 0 1000); CAppend t1 (e 1 1000); CAppend t1 (e 2 1000); CAppend t1 (e 3 1000)].
Definition k2_progs := [a4; [CRead t1 true; CRead t1 true; CRead t1 true]; [CRead t1 true; CRead t1 true; CRead t1 true]].
Definition k2b_sched := sch (rep 9 0 ++ [1;1;1] ++ rep 5 0 ++ rep 30 1 ++ rep 30 2).
Theorem c05_refuted_seal_before_commit :
  verdict false k2_progs k2b_sched = (true, false, flags false true false) /\
  cresults (ro_cs (run_schedule v0 false k2_progs k2b_sched)) =
    [[ROk; ROk; ROk; ROk]; [o 0 1000; o 0 1000; o 1 1000]; [o 2 1000; o 3 1000; RNone]].
Proof. vm_compute. auto. Qed.

(* K2a: ONE consumer, ONE producer.  The block is sealed between the reader's tail snapshot
   and its writer snapshot: the snapshot is the NEW block, read from offset 0 — entry 3 is
   delivered before entries 0..2. *)
Definition k2a_sched := sch (rep 9 0 ++ [1;1] ++ rep 5 0 ++ rep 30 1 ++ rep 30 2).
Theorem c05_refuted_seal_before_writer_snapshot :
  verdict false k2_progs k2a_sched = (true, false, flags false true false) /\
  cresults (ro_cs (run_schedule v0 false k2_progs k2a_sched)) =
    [[ROk; ROk; ROk; ROk]; [o 3 1000; o 0 1000; o 1 1000]; [o 2 1000; RNone; RNone]].
Proof. vm_compute. auto. Qed.

(* K3: a consuming batch read takes its writer snapshot (block 1, 3 entries) BEFORE the column
   lock; the block is sealed meanwhile; under the lock the same range is planned as a sealed
   range and as the tail: every entry twice in ONE result. *)
Definition k3_progs := [a4; [CBatchRead t1 u64_max true; CBatchRead t1 u64_max true]; [CRead t1 true]].
Definition k3_sched := sch (rep 9 0 ++ [1] ++ rep 5 0 ++ rep 30 1 ++ rep 30 2).
Theorem c05_refuted_stale_writer_snapshot :
  verdict false k3_progs k3_sched = (true, false, flags false false true) /\
  cresults (ro_cs (run_schedule v0 false k3_progs k3_sched)) =
    [[ROk; ROk; ROk; ROk];
     [REntries [oo 0 1000; oo 1 1000; oo 2 1000; oo 0 1000; oo 1 1000; oo 2 1000]; REntries [oo 3 1000]]; [RNone]].
Proof. vm_compute. auto. Qed.

(* K3 with a multi-block batch: the sealed copy's [used] covers an entry of the batch that is
   not written yet; the stale tail range moves the cursor past the sealed block: entry 2 is
   never delivered (and 0, 1 twice). *)
Definition k3b_progs := [[CAppend t1 (e 0 1000); CAppend t1 (e 1 1000); CBatch t1 [e 2 1000; e 3 1000; e 4 1000]];
                         [CBatchRead t1 u64_max true; CBatchRead t1 u64_max true]; [CRead t1 true; CRead t1 true]].
Definition k3b_sched := sch (rep 6 0 ++ [1] ++ [0;0;0] ++ [1;1;1] ++ rep 30 0 ++ rep 30 1 ++ rep 30 2).
Theorem c05_refuted_stale_snapshot_loses_entry :
  NoDup (offered_pids k3b_progs) /\
  verdict false k3b_progs k3b_sched = (true, false, flags false false true) /\
  cresults (ro_cs (run_schedule v0 false k3b_progs k3b_sched)) =
    [[ROk; ROk; ROk]; [REntries [oo 0 1000; oo 1 1000; oo 0 1000; oo 1 1000]; REntries [oo 3 1000; oo 4 1000]]; [RNone; RNone]].
Proof. split; [repeat constructor; cbn; intuition discriminate|]. vm_compute. auto. Qed.

(* not a violation: a multi-block batch whose sealed prefix is visible before the batch is
   written.  A read_next that reaches the unwritten entry returns None; nothing is lost,
   duplicated or reordered. *)
Definition pb_progs := [[CAppend t1 (e 0 1000); CAppend t1 (e 1 1000); CBatch t1 [e 2 1000; e 3 1000; e 4 1000]];
                        [CRead t1 true; CRead t1 true; CRead t1 true; CRead t1 true; CRead t1 true]; [CRead t1 true; CRead t1 true]].
Definition pb_sched := sch (rep 9 0 ++ rep 10 1 ++ rep 3 0 ++ rep 30 1 ++ rep 30 2).
Example c05_sealed_prefix_visible_is_harmless :
  verdict false pb_progs pb_sched = (true, true, flags false false false) /\
  cresults (ro_cs (run_schedule v0 false pb_progs pb_sched)) =
    [[ROk; ROk; ROk]; [o 0 1000; o 1 1000; RNone; o 2 1000; o 3 1000]; [o 4 1000; RNone]].
Proof. vm_compute. auto. Qed.

(* with fix 4c905dc (fx = true) every witness schedule is accepted *)
Theorem c05_fixed_witnesses_accepted :
  snd (fst (verdict true k1_progs k1_sched)) = true /\
  snd (fst (verdict true k2_progs k2b_sched)) = true /\
  snd (fst (verdict true k2_progs k2a_sched)) = true /\
  snd (fst (verdict true k3_progs k3_sched)) = true /\
  snd (fst (verdict true k3b_progs k3b_sched)) = true.
Proof. vm_compute. auto. Qed.

(* The positive result for the pre-fix code.
   EVERY schedule (any number of threads, any interleaving at segment granularity, block
   rotations included) of programs made of single appends and consuming read_next calls, with
   at most one consuming thread per topic, code before the fix (fx = false): if no block of a topic is sealed while
   that topic's consumer is between its tail snapshot and its commit (the mechanism monitor's
   seal-in-read flag stays clear) and every call has returned, the results are accepted:
   every delivered entry is a whole acknowledged entry, none is delivered twice, and each
   producer's entries are delivered in the order it appended them.
   "partial": batch appends, batch reads, peeks and several consumers per topic are outside this
   theorem (they are inside the model, the refutations and the differential check); the full
   statement is C05_full above, false for fx = false (refutations above). *)
Theorem c05_single_consumer_outside_known_partial :
  forall (c : Cfg) (m : mode) (be : backend) (progs : list (list call)) (sched : list nat),
    cfg_ok c -> simple_progs progs -> single_consumer progs -> NoDup (offered_pids progs) ->
    let ro := run_schedule {| v_cfg := c; v_mode := m; v_backend := be |} false progs sched in
    k_seal_in_read (ro_k ro) = false -> threads_done (ro_cs ro) = true ->
    c05_run_ok progs (cresults (ro_cs ro)) false = true.
Proof. intros c m be progs sched. exact (single_consumer_outside_known c m be progs sched). Qed.

(* along every such run the delivered entries of a topic are exactly a prefix of the topic's
   append order (the invariant the theorem rests on, proofs/ConcInv.v: iv_del, iv_own) *)
Theorem c05_invariant_every_schedule :
  forall (c : Cfg) (m : mode) (be : backend) (progs : list (list call)) (sched : list nat),
    cfg_ok c -> simple_progs progs -> single_consumer progs -> NoDup (offered_pids progs) ->
    let ro := run_schedule {| v_cfg := c; v_mode := m; v_backend := be |} false progs sched in
    k_seal_in_read (ro_k ro) = false -> INV c progs (ro_cs ro).
Proof. intros c m be progs sched. exact (inv_outside_known c m be progs sched). Qed.

(* what an accepting verdict means, per topic *)
Theorem c05_acceptor_means : forall apps dels drained t, c05_topic_ok apps dels drained t = true ->
  (forall o, In o (delivered dels t) ->
     o_skip o = 0 /\ exists e, In e (acked apps t) /\ e_pid e = o_pid o /\ e_len e = o_len o) /\
  NoDup (map o_pid (delivered dels t)) /\
  (drained = true -> forall e, In e (acked apps t) -> In (e_pid e) (map o_pid (delivered dels t))).
Proof. exact c05_topic_ok_means. Qed.

(* non-vacuity: two producers and one consumer on one topic, a block rotation in the middle,
   threads switched at almost every step; the flag stays clear, everything is delivered once,
   per-producer order kept (drain counted) *)
Definition nv_progs := [[CAppend t1 (e 0 1000); CAppend t1 (e 1 1000); CAppend t1 (e 2 1000)];
                        [CAppend t1 (e 10 1600); CAppend t1 (e 11 300)];
                        [CRead t1 true; CRead t1 true; CRead t1 true; CRead t1 true; CRead t1 true; CRead t1 true; CRead t1 true]].
Definition nv_sched := sch ([2;2;2;2;2;0;2;1;2;1;1;0;1;2;0;0;0;0;2;0;2;0;0;1;2;2;0;0;2;2;2;2;2;1] ++ rep 60 2).
Lemma nv_single_consumer : single_consumer nv_progs.
Proof.
  assert (H : forall i t, consumes (nth i nv_progs []) t -> i = 2%nat).
  { intros i t (t' & ck & Hin & _). destruct i as [|[|[|i]]]; cbn in Hin; try reflexivity;
      repeat (destruct Hin as [Hin|Hin]; [discriminate|]); try contradiction; destruct i; contradiction. }
  intros t i j Hi Hj. now rewrite (H i t Hi), (H j t Hj).
Qed.
Example c05_witness :
  simple_progs nv_progs /\ NoDup (offered_pids nv_progs) /\ single_consumer nv_progs /\
  verdict false nv_progs nv_sched = (true, true, flags false false false) /\
  existsb (fun s => match snd s with S_w_seal_post => true | _ => false end)
          (ro_steps (run_schedule v0 false nv_progs nv_sched)) = true /\
  cresults (ro_cs (run_schedule v0 false nv_progs nv_sched)) =
    [[ROk; ROk; ROk]; [ROk; ROk]; [RNone; RNone; o 10 1600; o 0 1000; o 1 1000; o 11 300; o 2 1000]].
Proof.
  split; [repeat constructor|]. split; [repeat constructor; cbn; intuition discriminate|].
  split; [exact nv_single_consumer|]. vm_compute. auto.
Qed.

Lemma small_cfg_ok' : cfg_ok small_cfg.
Proof. exact small_cfg_ok. Qed.

(* the theorem at the constants of this source tree (regenerated on every run) *)
Theorem c05_real : forall m be progs sched,
  simple_progs progs -> single_consumer progs -> NoDup (offered_pids progs) ->
  let ro := run_schedule {| v_cfg := real_cfg; v_mode := m; v_backend := be |} false progs sched in
  k_seal_in_read (ro_k ro) = false -> threads_done (ro_cs ro) = true ->
  c05_run_ok progs (cresults (ro_cs ro)) false = true.
Proof. intros m be progs sched. exact (single_consumer_outside_known real_cfg m be progs sched real_cfg_ok). Qed.

(* The code of /repo (fix 4c905dc applied: fx = true).
   EVERY schedule — no hypothesis on the interleaving, the monitor flags may be raised — of programs
   made of single appends and consuming read_next calls, ANY number of producer and consumer threads
   on any number of topics (several consumers per topic included), any Cfg with cfg_ok, both modes:
   once every call has returned, the results are accepted: every delivered entry is a whole
   acknowledged entry, no entry is delivered twice over all consumers, and in what one consumer
   thread received the entries of one producer thread appear in the order that producer appended them.
   Proof: proofs/ConcInvF.v, ConcStep.v, ConcBridge.v, ConcMainF.v — a writer snapshot held by a read_next is either
   still a prefix of the writer block, or empty, or its block id is at most the last id in the chain;
   the last two are what the fix's checks at the commit detect (retry), the first together with
   "tail position unchanged" (the third check) makes the commit the delivery of the first unread
   entry; deliveries are recorded in a ghost log (thread, out) per topic in commit order.
   "partial": batch appends, batch reads and peeks are outside this theorem (inside the model, the
   witness theorems and the differential check); C05_full true is a Definition, not a theorem. *)
Theorem c05_fixed_every_schedule_partial :
  forall (c : Cfg) (m : mode) (be : backend) (progs : list (list call)) (sched : list nat),
    cfg_ok c -> simple_progs progs -> NoDup (offered_pids progs) ->
    let ro := run_schedule {| v_cfg := c; v_mode := m; v_backend := be |} true progs sched in
    threads_done (ro_cs ro) = true ->
    c05_run_ok progs (cresults (ro_cs ro)) false = true.
Proof. intros c m be progs sched Hc Hs. exact (fixed_every_schedule c m be progs sched Hc (simple_callP_progs _ Hs)). Qed.

(* the one-consumer-per-topic instance (the hypothesis is not needed) *)
Corollary c05_single_consumer_fixed_partial :
  forall (c : Cfg) (m : mode) (be : backend) (progs : list (list call)) (sched : list nat),
    cfg_ok c -> simple_progs progs -> single_consumer progs -> NoDup (offered_pids progs) ->
    let ro := run_schedule {| v_cfg := c; v_mode := m; v_backend := be |} true progs sched in
    threads_done (ro_cs ro) = true ->
    c05_run_ok progs (cresults (ro_cs ro)) false = true.
Proof. intros c m be progs sched Hc Hs _ Hnd. exact (fixed_every_schedule c m be progs sched Hc (simple_callP_progs _ Hs) Hnd). Qed.

Theorem c05_fixed_invariant_every_schedule :
  forall (c : Cfg) (m : mode) (be : backend) (progs : list (list call)) (sched : list nat),
    cfg_ok c -> simple_progs progs -> NoDup (offered_pids progs) ->
    exists L, INVF c progs (ro_cs (run_schedule {| v_cfg := c; v_mode := m; v_backend := be |} true progs sched)) L.
Proof. intros c m be progs sched Hc Hs. exact (invF_every_schedule c m be progs sched Hc (simple_callP_progs _ Hs)). Qed.

Theorem c05_fixed_real : forall m be progs sched,
  simple_progs progs -> NoDup (offered_pids progs) ->
  let ro := run_schedule {| v_cfg := real_cfg; v_mode := m; v_backend := be |} true progs sched in
  threads_done (ro_cs ro) = true ->
  c05_run_ok progs (cresults (ro_cs ro)) false = true.
Proof. intros m be progs sched Hs. exact (fixed_every_schedule real_cfg m be progs sched real_cfg_ok (simple_callP_progs _ Hs)). Qed.

(* non-vacuity: the pre-fix witness schedules are instances (simple programs, distinct ids, every
   call returned); the monitor flags ARE raised on them, and the fixed code's results are accepted
   (drain counted): two consumers in the window / a rotation inside one consumer's window *)
Example c05_fixed_witness :
  simple_progs k1_progs /\ NoDup (offered_pids k1_progs) /\
  verdict true k1_progs k1_sched = (true, true, flags true false false) /\
  simple_progs k2_progs /\ NoDup (offered_pids k2_progs) /\
  verdict true k2_progs k2b_sched = (true, true, flags false true false) /\
  cresults (ro_cs (run_schedule v0 true k2_progs k2b_sched)) =
    [[ROk; ROk; ROk; ROk]; [o 0 1000; o 1 1000; o 2 1000]; [o 3 1000; RNone; RNone]].
Proof.
  split; [repeat constructor|]. split; [repeat constructor; cbn; intuition discriminate|]. split; [vm_compute; reflexivity|].
  split; [repeat constructor|]. split; [repeat constructor; cbn; intuition discriminate|]. vm_compute. auto.
Qed.

(* The same with peeks: programs of single appends and read_next calls, consuming or not.
   [simple_progsP]: every call is CAppend _ _ or CRead _ ck for any ck.  Peeks deliver nothing (the
   acceptor ignores what they return) but they do run through the shared cursor: they step over
   exhausted sealed blocks, take tail and writer snapshots and go through the fix's checks. *)
Theorem c05_fixed_with_peeks_partial :
  forall (c : Cfg) (m : mode) (be : backend) (progs : list (list call)) (sched : list nat),
    cfg_ok c -> simple_progsP progs -> NoDup (offered_pids progs) ->
    let ro := run_schedule {| v_cfg := c; v_mode := m; v_backend := be |} true progs sched in
    threads_done (ro_cs ro) = true ->
    c05_run_ok progs (cresults (ro_cs ro)) false = true.
Proof. intros c m be progs sched. exact (fixed_every_schedule c m be progs sched). Qed.

(* non-vacuity: a peeking thread interleaved with a producer that rotates and a consumer *)
Definition pk_progs := [a4; [CRead t1 false; CRead t1 true; CRead t1 false; CRead t1 true];
                        [CRead t1 false; CRead t1 false; CRead t1 true]; [CRead t1 true; CRead t1 true; CRead t1 true]].
Definition pk_sched := sch (rep 9 0 ++ [1;1;2;2;1;2] ++ rep 5 0 ++ [1;2;1;2;1;2;1;2;1;2;1;2] ++ rep 40 1 ++ rep 40 2 ++ rep 40 3).
Example c05_fixed_peeks_witness :
  simple_progsP pk_progs /\ NoDup (offered_pids pk_progs) /\
  fst (verdict true pk_progs pk_sched) = (true, true) /\
  existsb (fun r => match r with REntry _ => true | _ => false end)
          (nth 2 (cresults (ro_cs (run_schedule v0 true pk_progs pk_sched))) []) = true.
Proof. split; [repeat constructor|]. split; [repeat constructor; cbn; intuition discriminate|]. vm_compute. auto. Qed.

(* Batch appends and batch reads.
   Not covered by the theorems above.  What is proved for them (fixed code, fx = true) is
   exhaustive for CONCRETE thread programs: [explore_graph] (proofs/ConcExplore.v) walks every state
   the model can reach from the one a serial prologue leaves, and [explore_graph_sound] turns its
   answer into a statement over ALL schedules (lists of thread ids of any length).  The general statements are
   not proved: [C05_fixed_with_batches], [C05_fixed_all_calls] below are Definitions. *)
(* [every_schedule_after progs pre]: every schedule that starts with the serial prologue [pre], run on
   the fixed model with the small geometry, is accepted once every call has returned.  The families
   (proofs/ConcFamilies.v; topic 1, entries of 1000 bytes, p2 = two single appends then a batch of three that
   crosses the block boundary, brm = consuming batch read without byte limit): bf1 p2 against three read_next;
   bf2 four single appends (the fourth rotates) against two batch reads and a read_next; bf3 p2 against the
   same; bf4 two batch writers on one topic and a consumer; bf6 one batch over three blocks against a
   consumer; bf9 p2 against a batch-reading and a read_next consumer; bf10 p2 against two batch readers. *)
Theorem c05_fixed_batches_every_schedule_bounded :
  every_schedule_after bf1 pre6 /\ every_schedule_after bf2 pre9 /\ every_schedule_after bf3 pre6 /\
  every_schedule_after bf4 [] /\ every_schedule_after bf6 [] /\
  every_schedule_after bf9 pre6 /\ every_schedule_after bf10 pre6.
Proof. exact batches_every_schedule_bounded. Qed.

(* not vacuous: a complete schedule of each family in which the consumers receive batch entries *)
Example c05_fixed_batches_witness :
  (let ro := run_schedule v0 true bf1 (pre6 ++ sch (rep 40 0 ++ rep 40 1)) in
     threads_done (ro_cs ro) = true /\ nth 1 (cresults (ro_cs ro)) [] = [o 0 1000; o 1 1000; o 2 1000]) /\
  (let ro := run_schedule v0 true bf3 (pre6 ++ sch (rep 40 0 ++ rep 40 1)) in
     threads_done (ro_cs ro) = true /\
     nth 1 (cresults (ro_cs ro)) [] = [REntries [oo 0 1000; oo 1 1000; oo 2 1000; oo 3 1000; oo 4 1000]; REntries []; RNone]) /\
  (let ro := run_schedule v0 true bf4 (sch ([0;1] ++ rep 40 0 ++ rep 40 1 ++ rep 40 2)) in
     threads_done (ro_cs ro) = true /\
     cresults (ro_cs ro) = [[ROk]; [RErr EWouldBlock]; [o 0 1000; o 1 1000]]).
Proof. vm_compute. auto. Qed.

(* not proved for the code with the fix: batch appends in arbitrary programs ... *)
Definition batch_call (cl : call) : bool :=
  match cl with CAppend _ _ | CRead _ _ | CBatch _ _ => true | CBatchRead _ _ _ => false end.
Definition C05_fixed_with_batches : Prop :=
  forall c m be progs sched, cfg_ok c ->
    Forall (Forall (fun cl => batch_call cl = true)) progs -> NoDup (offered_pids progs) ->
    let ro := run_schedule {| v_cfg := c; v_mode := m; v_backend := be |} true progs sched in
    threads_done (ro_cs ro) = true -> c05_run_ok progs (cresults (ro_cs ro)) false = true.
(* ... and all four call kinds (adds batch reads) *)
Definition C05_fixed_all_calls : Prop :=
  forall c m be progs sched, cfg_ok c -> NoDup (offered_pids progs) ->
    let ro := run_schedule {| v_cfg := c; v_mode := m; v_backend := be |} true progs sched in
    threads_done (ro_cs ro) = true -> c05_run_ok progs (cresults (ro_cs ro)) false = true.

Check c05_fixed_with_peeks_partial :
  forall c m be progs sched, cfg_ok c -> simple_progsP progs -> NoDup (offered_pids progs) ->
    let ro := run_schedule {| v_cfg := c; v_mode := m; v_backend := be |} true progs sched in
    threads_done (ro_cs ro) = true -> c05_run_ok progs (cresults (ro_cs ro)) false = true.
Check c05_fixed_batches_every_schedule_bounded.
Print Assumptions c05_fixed_batches_every_schedule_bounded.
Check c05_fixed_every_schedule_partial :
  forall (c : Cfg) (m : mode) (be : backend) (progs : list (list call)) (sched : list nat),
    cfg_ok c -> simple_progs progs -> NoDup (offered_pids progs) ->
    let ro := run_schedule {| v_cfg := c; v_mode := m; v_backend := be |} true progs sched in
    threads_done (ro_cs ro) = true ->
    c05_run_ok progs (cresults (ro_cs ro)) false = true.
Print Assumptions c05_fixed_every_schedule_partial.
Print Assumptions c05_single_consumer_fixed_partial.
Print Assumptions c05_fixed_invariant_every_schedule.
Print Assumptions c05_fixed_real.
Print Assumptions c05_fixed_with_peeks_partial.
Check c05_single_consumer_outside_known_partial :
  forall (c : Cfg) (m : mode) (be : backend) (progs : list (list call)) (sched : list nat),
    cfg_ok c -> simple_progs progs -> single_consumer progs -> NoDup (offered_pids progs) ->
    let ro := run_schedule {| v_cfg := c; v_mode := m; v_backend := be |} false progs sched in
    k_seal_in_read (ro_k ro) = false -> threads_done (ro_cs ro) = true ->
    c05_run_ok progs (cresults (ro_cs ro)) false = true.
Print Assumptions c05_single_consumer_outside_known_partial.
Print Assumptions c05_invariant_every_schedule.
Print Assumptions c05_acceptor_means.
Print Assumptions c05_real.
Check c05_refuted_two_readers.
Print Assumptions c05_refuted_two_readers.
Print Assumptions c05_refuted_seal_before_commit.
Print Assumptions c05_refuted_seal_before_writer_snapshot.
Print Assumptions c05_refuted_stale_writer_snapshot.
Print Assumptions c05_refuted_stale_snapshot_loses_entry.
Print Assumptions c05_fixed_witnesses_accepted.
