(* C07 — acknowledged appends survive a process crash at any point.
   Crash model: completed writes persist; a crash image between two entry writes is a
   well-formed file image (dwf), so the recovery theorem of C06 applies to it verbatim.
   The whole-history statement (every crash image of every operation after any history with
   restarts outside block-id drift recovers to acknowledged ++ prefix of in-flight) is
   c07_every_crash_image_outside_known; the append theorems before it are its instances, the batch theorems
   say more: exactly the first j entries.  Per run: crash-point enumeration on the real crate (exit before
   the k-th I/O event, fresh process reopens) with the extracted acceptor c07_ok, whose meaning is
   c07_acceptor_means. *)
From W Require Import model.Base model.Engine spec.Queue spec.Crash proofs.EngineWF proofs.EngineInv proofs.EngineW proofs.EngineMain proofs.EngineRec proofs.EngineDisk proofs.CrashP proofs.EngineCrash.
From W Require Import model.EngineCfg proofs.EngineC06 proofs.EngineCrashA proofs.EngineCrashR.

Theorem c07_acceptor_means : forall acked inflight rec,
  c07_ok acked inflight rec = true <->
  exists k, (k <= length inflight)%nat /\ outs_are rec (acked ++ firstn k inflight) = true.
Proof.
  intros acked inflight rec. unfold c07_ok. split.
  - intros H. apply andb_prop in H. destruct H as (H & H3). apply andb_prop in H. destruct H as (H1 & H2).
    exists (length rec - length acked)%nat. split; [lia|exact H3].
  - intros (k & Hk & Ho). pose proof (outs_are_length _ _ Ho) as Hl.
    rewrite app_length, firstn_length in Hl.
    replace (length rec - length acked)%nat with k by lia.
    rewrite Ho. replace (length acked <=? length rec)%nat with true by lia.
    replace (k <=? length inflight)%nat with true by lia. reflexivity.
Qed.

(* the recovery scan of ANY well-formed image (Forall dwf), from any accumulator, flags nothing and finds every
   topic's entries; a crash image is such an image *)
Theorem c07_recovery_of_any_crash_image_partial : forall c, 0 < c_hdr c -> 0 < c_block c -> forall nfiles f disk next_id acc,
  Forall (dwf c) disk ->
  let '(acc', id') := scan_files c nfiles f disk next_id acc in
  rc_flag acc' = rc_flag acc /\
  forall t, chain_ents (rc_get (rc_chains acc') t) = chain_ents (rc_get (rc_chains acc) t) ++ files_ents t nfiles f disk.
Proof. exact scan_files_complete. Qed.

(* a crash BETWEEN two operations of any history WITH restarts outside block-id drift (any mode) loses nothing:
   the streams do not depend on readers, so un-hydrated readers left by earlier restarts do not matter *)
Theorem c07_crash_between_operations_after_restarts : forall (c : Cfg) (m : mode) (be : backend) (ops : list op),
  cfg_ok c -> outside_known (env_of c m be) init ops = true ->
  N.of_nat (length (offered_all ops)) <= u64_max -> sum_len (offered_all ops) <= u64_max ->
  forall t, stream (get_ts (reopen c (exec (env_of c m be) init ops)) t) = stream (get_ts (exec (env_of c m be) init ops) t).
Proof.
  intros c m be ops Hc Hout HB HBb t. destruct (GM_from_init c m be ops Hc Hout HB HBb) as (_ & Hd & _).
  apply (reopen_stream c _ Hc Hd).
Qed.

(* in particular between two operations of any admissible restart-free history (every append
   acknowledged so far has completed its write, nothing is in flight): the fresh process rebuilds
   every topic's stream exactly.  The I/O events the model collapses into one step are decided by the
   crash-point enumeration. *)
Theorem c07_crash_between_operations_partial : forall (c : Cfg) (m : mode) (be : backend) (ops : list op),
  cfg_ok c -> Forall (op_ok c) ops ->
  N.of_nat (length (offered_all ops)) <= u64_max -> sum_len (offered_all ops) <= u64_max ->
  forall t, stream (get_ts (reopen c (exec (env_of c m be) init ops)) t) = stream (get_ts (exec (env_of c m be) init ops) t).
Proof.
  intros c m be ops Hc Hok. exact (c07_crash_between_operations_after_restarts c m be ops Hc (op_ok_outside_known c _ ops init Hok)).
Qed.

(* crash points INSIDE a batch append.  After ANY admissible restart-free history (any mode), for every
   batch [es] whose entries and topic name are admissible (batch_ok: the plan the next operation would
   carry out) and every j: the fresh process on the image left by the first j entry writes of the batch
   (model: batch_crash — first block allocated, rotations and allocations of the plan done, j entries
   written, nothing published) rebuilds, for the batch's topic, the acknowledged stream followed by
   EXACTLY the first j entries of the batch, and every other topic's stream unchanged: acknowledged
   appends survive, only a prefix of the in-flight batch can appear, nothing else. *)
Theorem c07_crash_inside_batch : forall (c : Cfg) (m : mode) (be : backend) (ops : list op) (t : topic) (es : list entry) (j : nat),
  cfg_ok c -> Forall (op_ok c) ops ->
  N.of_nat (length (offered_all ops)) <= u64_max -> sum_len (offered_all ops) <= u64_max ->
  batch_ok c t es ->
  let s := exec (env_of c m be) init ops in
  forall t0, stream (get_ts (batch_crash c s t es j) t0) =
             if t0 =? t_id t then stream (get_ts s (t_id t)) ++ firstn j es else stream (get_ts s t0).
Proof.
  intros c m be ops t es j Hc Hok HB HBb.
  exact (GM_batch_crash c _ _ _ _ t es j Hc (GM_from_init c m be ops Hc (op_ok_outside_known c _ ops init Hok) HB HBb)).
Qed.

Theorem c07_crash_inside_batch_after_restarts : forall (c : Cfg) (m : mode) (be : backend) (ops : list op) (t : topic) (es : list entry) (j : nat),
  cfg_ok c -> outside_known (env_of c m be) init ops = true ->
  N.of_nat (length (offered_all ops)) <= u64_max -> sum_len (offered_all ops) <= u64_max ->
  batch_ok c t es ->
  let s := exec (env_of c m be) init ops in
  forall t0, stream (get_ts (batch_crash c s t es j) t0) =
             if t0 =? t_id t then stream (get_ts s (t_id t)) ++ firstn j es else stream (get_ts s t0).
Proof. intros c m be ops t es j Hc Hout HB HBb. exact (GM_batch_crash c _ _ _ _ t es j Hc (GM_from_init c m be ops Hc Hout HB HBb)). Qed.

(* the same in the boolean form the check applies to implementation crash runs, after any history with
   restarts outside drift *)
Theorem c07_crash_inside_batch_accepted_after_restarts : forall (c : Cfg) (m : mode) (be : backend) (ops : list op) (t : topic) (es : list entry) (j : nat),
  cfg_ok c -> outside_known (env_of c m be) init ops = true ->
  N.of_nat (length (offered_all ops)) <= u64_max -> sum_len (offered_all ops) <= u64_max ->
  batch_ok c t es ->
  let s := exec (env_of c m be) init ops in
  c07_ok (stream_of s (t_id t)) es (map out_of (stream_of (batch_crash c s t es j) (t_id t))) = true /\
  forall t0, t0 <> t_id t -> stream_of (batch_crash c s t es j) t0 = stream_of s t0.
Proof.
  intros c m be ops t es j Hc Hout HB HBb Hbok. cbn zeta.
  pose proof (GM_batch_crash c _ _ _ _ t es j Hc (GM_from_init c m be ops Hc Hout HB HBb) Hbok) as H.
  split.
  - apply c07_acceptor_means. exists (Nat.min j (length es)). split; [apply Nat.le_min_r|].
    rewrite !stream_of_stream, (H (t_id t)), N.eqb_refl, firstn_min. apply outs_are_map.
  - intros t0 Hne. rewrite !stream_of_stream, (H t0). now rewrite (proj2 (N.eqb_neq _ _) Hne).
Qed.

Theorem c07_crash_inside_batch_accepted : forall (c : Cfg) (m : mode) (be : backend) (ops : list op) (t : topic) (es : list entry) (j : nat),
  cfg_ok c -> Forall (op_ok c) ops ->
  N.of_nat (length (offered_all ops)) <= u64_max -> sum_len (offered_all ops) <= u64_max ->
  batch_ok c t es ->
  let s := exec (env_of c m be) init ops in
  c07_ok (stream_of s (t_id t)) es (map out_of (stream_of (batch_crash c s t es j) (t_id t))) = true /\
  forall t0, t0 <> t_id t -> stream_of (batch_crash c s t es j) t0 = stream_of s t0.
Proof.
  intros c m be ops t es j Hc Hok. exact (c07_crash_inside_batch_accepted_after_restarts c m be ops t es j Hc (op_ok_outside_known c _ ops init Hok)).
Qed.

(* crash points inside a SINGLE append.  An append is one positional write (header + payload); what it
   does before that write — sealing the full block (a flush of bytes already written), allocating the
   next block (extending the allocator, possibly creating and sizing a fresh file: zero bytes = a
   never-written block for recovery) — changes nothing recovery reads (invariant DIs: never-written
   blocks contribute nothing; the model collapses these I/O events into the append step).  So the
   crash images of an append are the restart of the state before it and of the state after it:
   the acknowledged stream, possibly followed by the entry in flight; other topics unchanged. *)
Theorem c07_crash_inside_append : forall (c : Cfg) (m : mode) (be : backend) (ops : list op) (t : topic) (e : entry),
  cfg_ok c -> Forall (op_ok c) ops ->
  N.of_nat (length (offered_all ops)) + 1 <= u64_max -> sum_len (offered_all ops) + e_len e <= u64_max ->
  let s := exec (env_of c m be) init ops in
  let s' := fst (step (env_of c m be) s (OAppend t e)) in
  forall image, image = reopen c s \/ image = reopen c s' ->
    (exists k, (k <= 1)%nat /\ stream (get_ts image (t_id t)) = stream (get_ts s (t_id t)) ++ firstn k [e]) /\
    forall t0, t0 <> t_id t -> stream (get_ts image t0) = stream (get_ts s t0).
Proof.
  intros c m be ops t e Hc Hok. exact (crash_inside_append_after_restarts c m be ops t e Hc (op_ok_outside_known c _ ops init Hok)).
Qed.

Definition tq0 : topic := {| t_id := 1; t_nlen := 2 |}.
Definition eq0_ (p l : N) : entry := {| e_pid := p; e_len := l |}.

Theorem c07_crash_inside_append_after_restarts : forall (c : Cfg) (m : mode) (be : backend) (ops : list op) (t : topic) (e : entry),
  cfg_ok c -> outside_known (env_of c m be) init ops = true ->
  N.of_nat (length (offered_all ops)) + 1 <= u64_max -> sum_len (offered_all ops) + e_len e <= u64_max ->
  let s := exec (env_of c m be) init ops in
  let s' := fst (step (env_of c m be) s (OAppend t e)) in
  forall image, image = reopen c s \/ image = reopen c s' ->
    (exists k, (k <= 1)%nat /\ stream (get_ts image (t_id t)) = stream (get_ts s (t_id t)) ++ firstn k [e]) /\
    forall t0, t0 <> t_id t -> stream (get_ts image t0) = stream (get_ts s t0).
Proof. exact crash_inside_append_after_restarts. Qed.

(* non-vacuity: a history with a restart (outside drift), then an append *)
Example c07_witness_after_restart :
  outside_known (env_of small_cfg Strict Fd) init [OAppend tq0 (eq0_ 0 3000); OReopen; OAppend tq0 (eq0_ 1 3000)] = true.
Proof. vm_compute. reflexivity. Qed.

(* non-vacuity: a history with a rotation, then a three-entry batch (the second entry rotates) crashing
   after its second write: exactly the first two entries are recovered behind the acknowledged ones *)
Definition tq : topic := {| t_id := 1; t_nlen := 2 |}.
Definition eq_ (p l : N) : entry := {| e_pid := p; e_len := l |}.
Example c07_witness_inside_batch :
  let ops := [OAppend tq (eq_ 0 3000); OAppend tq (eq_ 1 3000); ORead tq true] in
  let es := [eq_ 2 500; eq_ 3 3000; eq_ 4 10] in
  Forall (op_ok small_cfg) ops /\ name_ok small_cfg tq = true /\
  stream_of (batch_crash small_cfg (exec (env_of small_cfg Strict Fd) init ops) tq es 2) 1
  = [eq_ 0 3000; eq_ 1 3000; eq_ 2 500; eq_ 3 3000].
Proof. split; [repeat constructor|]. vm_compute. split; reflexivity. Qed.

Check c07_acceptor_means : forall acked inflight rec,
  c07_ok acked inflight rec = true <->
  exists k, (k <= length inflight)%nat /\ outs_are rec (acked ++ firstn k inflight) = true.
Print Assumptions c07_acceptor_means.
Print Assumptions c07_recovery_of_any_crash_image_partial.
Print Assumptions c07_crash_between_operations_partial.
Check c07_crash_inside_batch : forall (c : Cfg) (m : mode) (be : backend) (ops : list op) (t : topic) (es : list entry) (j : nat),
  cfg_ok c -> Forall (op_ok c) ops ->
  N.of_nat (length (offered_all ops)) <= u64_max -> sum_len (offered_all ops) <= u64_max ->
  batch_ok c t es ->
  let s := exec (env_of c m be) init ops in
  forall t0, stream (get_ts (batch_crash c s t es j) t0) =
             if t0 =? t_id t then stream (get_ts s (t_id t)) ++ firstn j es else stream (get_ts s t0).
Print Assumptions c07_crash_inside_batch.
Print Assumptions c07_crash_inside_batch_accepted.
Print Assumptions c07_crash_inside_append.
Print Assumptions c07_crash_inside_batch_after_restarts.
Check c07_crash_inside_append_after_restarts : forall (c : Cfg) (m : mode) (be : backend) (ops : list op) (t : topic) (e : entry),
  cfg_ok c -> outside_known (env_of c m be) init ops = true ->
  N.of_nat (length (offered_all ops)) + 1 <= u64_max -> sum_len (offered_all ops) + e_len e <= u64_max ->
  let s := exec (env_of c m be) init ops in
  let s' := fst (step (env_of c m be) s (OAppend t e)) in
  forall image, image = reopen c s \/ image = reopen c s' ->
    (exists k, (k <= 1)%nat /\ stream (get_ts image (t_id t)) = stream (get_ts s (t_id t)) ++ firstn k [e]) /\
    forall t0, t0 <> t_id t -> stream (get_ts image t0) = stream (get_ts s t0).
Print Assumptions c07_crash_inside_append_after_restarts.
Print Assumptions c07_crash_between_operations_after_restarts.
Check c07_crash_inside_batch_accepted_after_restarts : forall (c : Cfg) (m : mode) (be : backend) (ops : list op) (t : topic) (es : list entry) (j : nat),
  cfg_ok c -> outside_known (env_of c m be) init ops = true ->
  N.of_nat (length (offered_all ops)) <= u64_max -> sum_len (offered_all ops) <= u64_max ->
  batch_ok c t es ->
  let s := exec (env_of c m be) init ops in
  c07_ok (stream_of s (t_id t)) es (map out_of (stream_of (batch_crash c s t es j) (t_id t))) = true /\
  forall t0, t0 <> t_id t -> stream_of (batch_crash c s t es j) t0 = stream_of s t0.
Print Assumptions c07_crash_inside_batch_accepted_after_restarts.

(* C07 in ONE statement at model level: every crash image (crash_image: nothing happened / everything
   happened / the first j entry writes of an admissible batch happened) of EVERY operation after ANY
   history with restarts outside block-id drift, any mode, any backend: every topic holds exactly its
   acknowledged stream followed by a prefix of what the operation had in flight for it.
   (The I/O events an operation performs besides its entry writes and the index rename — sealing
   flushes, block allocation, file creation — are collapsed by the model; that they change nothing
   recovery reads is what the crash-point enumeration on the real crate decides per run.) *)
Theorem c07_every_crash_image_outside_known : forall (c : Cfg) (m : mode) (be : backend) (ops : list op) (o : op), cfg_ok c ->
  outside_known (env_of c m be) init ops = true ->
  N.of_nat (length (offered_all ops)) + N.of_nat (length (offered o)) <= u64_max ->
  sum_len (offered_all ops) + sum_len (offered o) <= u64_max ->
  let v := env_of c m be in
  let s := exec v init ops in
  forall image, crash_image c v s o image ->
  forall t0, exists k, (k <= length (inflight o t0))%nat /\
                       stream (get_ts image t0) = stream (get_ts s t0) ++ firstn k (inflight o t0).
Proof. exact c07_every_crash_image. Qed.

Example c07_crash_images_exist :
  let v := env_of small_cfg Strict Fd in
  let s := exec v init [OAppend tq0 (eq0_ 0 3000); OReopen] in
  crash_image small_cfg v s (OBatch tq0 [eq0_ 1 500; eq0_ 2 3000]) (batch_crash small_cfg s tq0 [eq0_ 1 500; eq0_ 2 3000] 1) /\
  crash_image small_cfg v s (OAppend tq0 (eq0_ 1 10)) (reopen small_cfg (fst (step v s (OAppend tq0 (eq0_ 1 10))))).
Proof. split; [apply CI_batch; split; [reflexivity|repeat constructor; vm_compute; discriminate]|apply CI_after; exact I]. Qed.

Check c07_every_crash_image_outside_known : forall (c : Cfg) (m : mode) (be : backend) (ops : list op) (o : op), cfg_ok c ->
  outside_known (env_of c m be) init ops = true ->
  N.of_nat (length (offered_all ops)) + N.of_nat (length (offered o)) <= u64_max ->
  sum_len (offered_all ops) + sum_len (offered o) <= u64_max ->
  let v := env_of c m be in
  let s := exec v init ops in
  forall image, crash_image c v s o image ->
  forall t0, exists k, (k <= length (inflight o t0))%nat /\
                       stream (get_ts image t0) = stream (get_ts s t0) ++ firstn k (inflight o t0).
Print Assumptions c07_every_crash_image_outside_known.

(* ... and in the boolean form: the extracted acceptor the check applies to implementation crash runs
   accepts every crash image of the model *)
Theorem c07_every_crash_image_accepted_outside_known : forall (c : Cfg) (m : mode) (be : backend) (ops : list op) (o : op), cfg_ok c ->
  outside_known (env_of c m be) init ops = true ->
  N.of_nat (length (offered_all ops)) + N.of_nat (length (offered o)) <= u64_max ->
  sum_len (offered_all ops) + sum_len (offered o) <= u64_max ->
  let v := env_of c m be in
  let s := exec v init ops in
  forall image, crash_image c v s o image ->
  forall t0, c07_ok (stream_of s t0) (inflight o t0) (map out_of (stream_of image t0)) = true.
Proof.
  intros c m be ops o Hc Hout HB HBb. cbn zeta. intros image Hci t0.
  destruct (c07_every_crash_image c m be ops o Hc Hout HB HBb image Hci t0) as (k & Hk & Hs).
  apply c07_acceptor_means. exists k. split; [exact Hk|].
  rewrite !stream_of_stream, Hs. apply outs_are_map.
Qed.
Check c07_every_crash_image_accepted_outside_known : forall (c : Cfg) (m : mode) (be : backend) (ops : list op) (o : op), cfg_ok c ->
  outside_known (env_of c m be) init ops = true ->
  N.of_nat (length (offered_all ops)) + N.of_nat (length (offered o)) <= u64_max ->
  sum_len (offered_all ops) + sum_len (offered o) <= u64_max ->
  let v := env_of c m be in
  let s := exec v init ops in
  forall image, crash_image c v s o image ->
  forall t0, c07_ok (stream_of s t0) (inflight o t0) (map out_of (stream_of image t0)) = true.
Print Assumptions c07_every_crash_image_accepted_outside_known.
