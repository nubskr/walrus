(* C04 — rejected or failed appends leave no trace; batches are all-or-nothing.
   Proved for the fault-free engine model: (1) the rejections that depend only on the arguments
   leave every topic's stream, unread entries and count untouched (at most the topic's writer
   and its first, empty block are created); (2) along every history in which accepted and rejected
   appends/batches of every kind (too many entries, over the byte limit, oversize entry, topic
   name that does not fit the header) and empty batches (accepted, appending nothing) are
   interleaved with reads and counts, the queue acceptors — whose ledger ignores every operation
   that returned an error and adds a successful batch as ONE contiguous run — accept the trace: a
   rejected operation is invisible to every later read and count, a successful batch is delivered
   contiguously; (3) one batch step: Ok = the stream grew by exactly the batch, contiguously; Err =
   stream and unread unchanged.
   Not proved here: the same across restarts (props/C06.v: c06_full_outside_known) and injected
   I/O failures (decided per run by single-fault enumeration through the I/O event seam). *)
From W Require Import model.Base model.Engine model.EngineCfg spec.Queue
  proofs.EngineWF proofs.EngineInv proofs.EngineW proofs.EngineMain props.C01.

(* an append refused for its arguments (oversize entry, topic name that does not fit the header)
   returns the state that [ensure_writer] left: at most the topic's writer with its first, empty block
   has been created; every topic's stream, unread entries and count are what they were, in any state
   satisfying the engine invariant.  (A batch starts with the same [ensure_writer], so the first
   conjunct speaks of it too; no clause here says that a refused batch returns this state.) *)
Theorem c04_argument_rejections_change_nothing : forall c s g B Bb t, cfg_ok c -> Rel c s g B Bb ->
  Rel c (fst (ensure_writer c s t)) g B Bb /\
  (forall e k, appendable c t (e_len e) = Some k -> append c s t e = (fst (ensure_writer c s t), RErr k)).
Proof.
  intros c s g B Bb t Hc Hrel. split; [now apply ensure_rel|].
  intros e k H. unfold append. destruct (ensure_writer c s t) as [s1 w]. now rewrite H.
Qed.

Theorem c04_rejected_ops_invisible : forall (c : Cfg) (m : mode) (be : backend) (ops : list op),
  cfg_ok c -> Forall (op_ok c) ops ->
  N.of_nat (length (offered_all ops)) <= u64_max -> sum_len (offered_all ops) <= u64_max ->
  c01_ok (trace (env_of c m be) init ops) = true /\ c15_ok (trace (env_of c m be) init ops) = true.
Proof. intros c m be ops Hc Ho H1 H2. destruct (engine_from_init c m be ops Hc Ho H1 H2) as (A & B & _). split; assumption. Qed.

Theorem c04_batch_all_or_nothing : forall c be s t es, cfg_ok c -> GInv c s -> batch_ok c t es ->
  cnt (get_ts s (t_id t)) + N.of_nat (length es) <= u64_max ->
  exists s' r, batch c be s t es = (s', r) /\ GInv c s' /\ others_same s s' (t_id t) /\
    ((r = ROk /\ stream (get_ts s' (t_id t)) = stream (get_ts s (t_id t)) ++ es /\
      unread c (get_ts s' (t_id t)) = unread c (get_ts s (t_id t)) ++ es) \/
     (r = RErr EInvalidInput /\ stream (get_ts s' (t_id t)) = stream (get_ts s (t_id t)) /\
      unread c (get_ts s' (t_id t)) = unread c (get_ts s (t_id t)))).
Proof.
  intros c be s t es Hc Hg (Hname & Hsz) Hcntb. pose proof Hc as (_ & _ & Hba & _ & _ & Hhb).
  rewrite (batch_put c be s t es Hc). set (over := _ || _). destruct (put_wrote c s t over es Hc) as (s' & r & es' & Eb & Hw & Hres).
  specialize (Hres (ti_poison _ _ _ (proj2 Hg (t_id t)))).
  destruct (wrote_spec c s t es' s' Hc Hg Hw) as (Hg' & Hoth & Hst & Hun).
  { destruct Hres as [(-> & _)|(-> & _)]; [exact Hcntb|cbn; lia]. }
  exists s', r. split; [exact Eb|]. split; [exact Hg'|]. split; [exact Hoth|].
  destruct Hres as [(-> & ->)|(-> & [->|(k & Hk & _)])].
  - left. auto.
  - right. rewrite app_nil_r in Hst, Hun. auto.
  - rewrite (appendable_ok c t (max_len es) Hc Hname (max_len_le c es Hsz ltac:(lia))) in Hk. discriminate.
Qed.

(* non-vacuity: every rejection cause interleaved with successful operations and reads *)
Definition tlong : topic := {| t_id := 7; t_nlen := 217 |}.
Example c04_witness :
  let ops := [OAppend t1 (e 0 100); OAppend t1 (e 1 20000); OBatch t1 [e 2 5; e 3 20000]; OBatch tlong [e 4 1];
              OAppend tlong (e 5 1); OBatch t1 []; OBatch t1 (repeat (e 6 0) 2001); OBatch t1 [e 7 3000; e 8 3000];
              OCount t1; OBatchRead t1 18446744073709551615 true None; ORead tlong true; OCount tlong] in
  Forall (op_ok small_cfg) ops /\
  map snd (trace (env_of small_cfg Strict Fd) init ops) =
    [ROk; RErr EInvalidInput; RErr EInvalidInput; RErr EInvalidData; RErr EInvalidData; ROk; RErr EInvalidInput; ROk;
     RNum 3; REntries [out_of (e 0 100); out_of (e 7 3000); out_of (e 8 3000)]; RNone; RNum 0].
Proof. split; [repeat constructor|vm_compute; reflexivity]. Qed.

Check c04_rejected_ops_invisible : forall (c : Cfg) (m : mode) (be : backend) (ops : list op),
  cfg_ok c -> Forall (op_ok c) ops ->
  N.of_nat (length (offered_all ops)) <= u64_max -> sum_len (offered_all ops) <= u64_max ->
  c01_ok (trace (env_of c m be) init ops) = true /\ c15_ok (trace (env_of c m be) init ops) = true.
Print Assumptions c04_argument_rejections_change_nothing.
Print Assumptions c04_rejected_ops_invisible.
Print Assumptions c04_batch_all_or_nothing.
