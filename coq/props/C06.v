(* C06 — restarting an instance is invisible to producers and consumers.
   Proved here: the recovery half (for every well-formed file image — any number of files, blocks
   of any extent, never-written blocks anywhere — the startup scan rebuilds, for every topic,
   exactly the entries its blocks hold, in file order, and flags nothing); that the disk image
   reflects the streams along every restart-free history; and the whole-history statement for
   histories with any number of restarts outside block-id drift: c06_full_outside_known
   (StrictlyAtOnce: accepted by c01_ok and c15_ok) and c06_alo_outside_known (any mode: c06alo_ok).
   C06_full itself is refuted under block-id drift (c06_full_refuted).  Per run: the
   correspondence run + the extracted queue acceptors over implementation traces with restarts
   + a metamorphic run (same history with and without its restarts: same delivered stream, same
   final counts). *)
From W Require Import model.Base model.Engine model.EngineCfg spec.Queue
  proofs.EngineWF proofs.EngineInv proofs.EngineMain proofs.EngineRec proofs.EngineDisk proofs.EnginePos
  proofs.EngineNorm proofs.AloAccP proofs.EngineRestart proofs.EngineReopen proofs.EngineC06 proofs.EngineGen proofs.EngineSinceR props.C01.

(* restarts anywhere in a history ([op_ok] excludes nothing but OReopen, so [op_ok_r] holds of every operation);
   StrictlyAtOnce: the trace with the restart events left in is accepted by the same queue acceptors (they
   ignore OReopen) *)
Definition op_ok_r (c : Cfg) (o : op) : Prop := match o with OReopen => True | _ => op_ok c o end.
Definition C06_full : Prop := forall (c : Cfg) (be : backend) (ops : list op),
  cfg_ok c -> Forall (op_ok_r c) ops ->
  c01_ok (trace (env_of c Strict be) init ops) = true /\ c15_ok (trace (env_of c Strict be) init ops) = true.

Theorem c06_recovery_complete_partial : forall c, 0 < c_hdr c -> 0 < c_block c -> forall nfiles f disk next_id acc,
  Forall (dwf c) disk ->
  let '(acc', id') := scan_files c nfiles f disk next_id acc in
  rc_flag acc' = rc_flag acc /\
  forall t, chain_ents (rc_get (rc_chains acc') t) = chain_ents (rc_get (rc_chains acc) t) ++ files_ents t nfiles f disk.
Proof. exact scan_files_complete. Qed.

(* the on-disk image the engine model maintains reflects the topics' streams along EVERY
   restart-free history (invariant DIs, proofs/EngineDisk.v: well-formed blocks,
   one image per block key, files in allocation order, per-topic entries = the topic's stream),
   hence a restart at the end of any such history — equally a process crash between two
   operations, which leaves the same image — rebuilds every topic's stream exactly: nothing
   lost, nothing duplicated, nothing reordered, no foreign entry.  (Rejected operations,
   oversize entries, multi-unit blocks, never-written blocks and file roll-overs included.)
   The consumer's position after the restart and histories with more than one restart:
   c06_restart_preserves_cursor and c06_full_outside_known below. *)
Theorem c06_restart_rebuilds_streams_partial : forall (c : Cfg) (m : mode) (be : backend) (ops : list op),
  cfg_ok c -> Forall (op_ok c) ops ->
  N.of_nat (length (offered_all ops)) <= u64_max -> sum_len (offered_all ops) <= u64_max ->
  forall t, stream (get_ts (reopen c (exec (env_of c m be) init ops)) t) = stream (get_ts (exec (env_of c m be) init ops) t).
Proof. exact restart_rebuilds_streams. Qed.

(* non-vacuity and regression witnesses (for fixes 6016445, a9c79b9, 0e1f235 of /repo): a never-written first
   block in front of other topics' blocks, a multi-unit block with entries behind the large one, a
   sealed-position cursor behind a block that had been sealed empty *)
Definition t2 : topic := {| t_id := 2; t_nlen := 2 |}.
Definition t3 : topic := {| t_id := 3; t_nlen := 2 |}.
Example c06_witness_zero_block_and_multiunit :
  map snd (trace (env_of small_cfg Strict Mmap) init
     [OBatch t1 []; OAppend t2 (e 0 100); OAppend t3 (e 2 5000); OAppend t3 (e 3 10); OAppend t2 (e 4 3000);
      OReopen; OCount t2; OCount t3; OBatchRead t2 100000 true None; OBatchRead t3 100000 true None; OReopen;
      ORead t2 true; OCount t3])
  = [ROk; ROk; ROk; ROk; ROk; ROk; RNum 2; RNum 2; REntries [out_of (e 0 100); out_of (e 4 3000)];
     REntries [out_of (e 2 5000); out_of (e 3 10)]; ROk; RNone; RNum 0].
Proof. vm_compute. reflexivity. Qed.
Example c06_witness_sealed_position_after_empty_block :
  map snd (trace (env_of small_cfg Strict Fd) init
     [OAppend t1 (e 0 5000); OAppend t1 (e 1 2000); OAppend t1 (e 2 2000); ORead t1 true; OReopen; OCount t1;
      ORead t1 true; ORead t1 true; ORead t1 true])
  = [ROk; ROk; ROk; REntry (out_of (e 0 5000)); ROk; RNum 2; REntry (out_of (e 1 2000)); REntry (out_of (e 2 2000)); RNone].
Proof. vm_compute. reflexivity. Qed.

(* The known class, as a boolean of the model state at the moment of a restart:
     id_drift c s   (model/Engine.v)      a restart would renumber some written block
   outside_known v s ops evaluates it at every OReopen of the run.  (A persisted tail position naming a
   block that a restart does not rebuild, [stale_tail], would be a second class: everything delivered again
   by read_next, unread entries skipped by batch_read.  No reachable state has one, c06_no_stale_position
   below: a provisional tail position is persisted only on a writer block that holds entries (fix 5104140
   of /repo); the predicate stale_tail_b is extracted and evaluated by the check as a regression
   guard.)  C06_full restricted to such histories, within the two u64 budgets: *)
Theorem c06_full_outside_known : forall (c : Cfg) (be : backend) (ops : list op),
  cfg_ok c -> Forall (op_ok_r c) ops ->
  N.of_nat (length (offered_all ops)) <= u64_max -> sum_len (offered_all ops) <= u64_max ->
  outside_known (env_of c Strict be) init ops = true ->
  c01_ok (trace (env_of c Strict be) init ops) = true /\ c15_ok (trace (env_of c Strict be) init ops) = true.
Proof. intros c be ops Hc _ HB HBb Ho. exact (restart_from_init c be ops Hc Ho HB HBb). Qed.

(* the invariant behind it, along every such history (any number of restarts): per topic, with the
   pending hydration carried out in either read path's flavour [x], the per-topic invariant TInv,
   the POSITION INVARIANT P3 and PG (the persisted position denotes exactly the unread entries)
   and agreement with the queue ledger; plus the disk invariants *)
Theorem c06_invariant_with_restarts : forall (c : Cfg) (be : backend) (ops : list op),
  cfg_ok c -> N.of_nat (length (offered_all ops)) <= u64_max -> sum_len (offered_all ops) <= u64_max ->
  outside_known (env_of c Strict be) init ops = true ->
  exists B' Bb', G c (exec (env_of c Strict be) init ops) (ledger_run [] (trace (env_of c Strict be) init ops)) B' Bb' /\
                 PG c (exec (env_of c Strict be) init ops).
Proof. intros c be ops Hc HB HBb Ho. destruct (G_from_init c be ops Hc HB HBb Ho) as (HG & Hpg). eauto. Qed.

(* Strict: no state reached by a history with any number of restarts outside block-id drift has a
   stale persisted position: every persisted tail position names a block that holds entries *)
Theorem c06_no_stale_position : forall (c : Cfg) (be : backend) (ops : list op),
  cfg_ok c -> N.of_nat (length (offered_all ops)) <= u64_max -> sum_len (offered_all ops) <= u64_max ->
  outside_known (env_of c Strict be) init ops = true ->
  forall t p, ts_index (get_ts (exec (env_of c Strict be) init ops) t) = Some p ->
              stale_p (memne (get_ts (exec (env_of c Strict be) init ops) t)) p = false.
Proof. intros c be ops Hc HB HBb Ho. now apply (PG_nonstale c), (G_from_init c be ops Hc HB HBb Ho). Qed.

(* a restart at the end of such a history: per topic the stream, the unread entries (whichever
   read path hydrates first, [x]/[y]) and the reported count are what they were *)
Theorem c06_restart_preserves_cursor : forall (c : Cfg) (be : backend) (ops : list op), cfg_ok c ->
  outside_known (env_of c Strict be) init (ops ++ [OReopen]) = true ->
  N.of_nat (length (offered_all ops)) <= u64_max -> sum_len (offered_all ops) <= u64_max ->
  let s := exec (env_of c Strict be) init ops in
  forall t x y,
    stream (get_ts (reopen c s) t) = stream (get_ts s t) /\
    unread c (nrm x (get_ts (reopen c s) t)) = unread c (nrm y (get_ts s t)) /\
    cnt (get_ts (reopen c s) t) = cnt (get_ts s t) /\
    cnt (get_ts (reopen c s) t) = N.of_nat (length (unread c (nrm x (get_ts (reopen c s) t)))).
Proof.
  intros c be ops Hc Hout HB HBb. cbn zeta.
  destruct (outside_known_split _ ops init Hout) as (Hout1 & Hk). cbn [env_of v_cfg] in Hk.
  destruct (G_from_init c be ops Hc HB HBb Hout1) as (HG & Hpg).
  exact (G_same_ledger c _ _ _ _ _ _ _ HG (proj1 (G_reopen_pg c _ _ _ _ Hc HG Hpg Hk))).
Qed.

(* ANY consistency mode (AtLeastOnce{n} in particular; StrictlyAtOnce too): every history of appends,
   batches, read_next, batch reads, counts and ANY NUMBER of restarts outside block-id drift is accepted
   by the extracted AtLeastOnce acceptor c06alo_ok (spec/Queue.v): no entry is lost, nothing is
   reordered; after a restart a suffix of what was already delivered may be delivered again.
   Behind it (proofs/EngineGen.v, EngineGenR.v, AloAccP.v): the invariant GM of raw states with a
   ledger whose l_del is the consumer's true position; every non-restart step satisfies the
   exactly-once step condition w.r.t. that ledger; a restart moves positions BACK to the persisted
   ones, never forward (GM_reopen, RB); such ledger runs are accepted (alo_accepts). *)
Theorem c06_alo_outside_known : forall (c : Cfg) (m : mode) (be : backend) (ops : list op),
  cfg_ok c -> Forall (op_ok_r c) ops ->
  N.of_nat (length (offered_all ops)) <= u64_max -> sum_len (offered_all ops) <= u64_max ->
  outside_known (env_of c m be) init ops = true ->
  c06alo_ok (trace (env_of c m be) init ops) = true.
Proof.
  intros c m be ops Hc _ HB HBb Ho. apply alo_accepts_init.
  exact (proj2 (GM_history c m be Hc ops init [] 0 0 (GM_init c (proj1 (proj2 Hc))) Ho HB HBb)).
Qed.

(* non-vacuity: AtLeastOnce{3}, two restarts, entries delivered again after each (e 3; then e 3 and e 4,
   by a batch read): accepted by c06alo_ok, rejected by the exactly-once acceptor c01_ok *)
Example c06_alo_witness :
  let ops := [OAppend t1 (e 0 10); OAppend t1 (e 1 10); OAppend t1 (e 2 10); OAppend t1 (e 3 10); OAppend t1 (e 4 10);
              ORead t1 true; ORead t1 true; ORead t1 true; ORead t1 true; OReopen; ORead t1 true; ORead t1 true;
              OReopen; OBatchRead t1 100000 true None; OAppend t1 (e 5 10); ORead t1 true; ORead t1 true] in
  outside_known (env_of small_cfg (ALO 3) Fd) init ops = true /\
  map snd (trace (env_of small_cfg (ALO 3) Fd) init ops)
  = [ROk; ROk; ROk; ROk; ROk; REntry (out_of (e 0 10)); REntry (out_of (e 1 10)); REntry (out_of (e 2 10));
     REntry (out_of (e 3 10)); ROk; REntry (out_of (e 3 10)); REntry (out_of (e 4 10)); ROk;
     REntries [out_of (e 3 10); out_of (e 4 10)]; ROk; REntry (out_of (e 5 10)); RNone] /\
  c06alo_ok (trace (env_of small_cfg (ALO 3) Fd) init ops) = true /\
  c01_ok (trace (env_of small_cfg (ALO 3) Fd) init ops) = false.
Proof. vm_compute. repeat split; reflexivity. Qed.

(* C06_full itself is FALSE for the model (and the code): block-id drift *)
Definition t4 : topic := {| t_id := 4; t_nlen := 2 |}.
Definition t5 : topic := {| t_id := 5; t_nlen := 2 |}.
Definition t6 : topic := {| t_id := 6; t_nlen := 2 |}.
Definition t7 : topic := {| t_id := 7; t_nlen := 2 |}.
Definition t8 : topic := {| t_id := 8; t_nlen := 2 |}.
(* corpus/C06/iddrift.case *)
Definition drift_ops : list op :=
  [OAppend t1 (e 0 10); OAppend t2 (e 1 10); OAppend t3 (e 2 10); OAppend t4 (e 3 10); OAppend t5 (e 4 10);
   OAppend t6 (e 5 10); OAppend t7 (e 6 10); OAppend t8 (e 7 5000); OAppend t8 (e 8 100); ORead t8 true; OCount t8].
(* corpus/C06/staletail.case (regression witness for fix 5104140): both entries consumed; after a
   restart a rejected append creates an empty writer block, an empty poll; next restart *)
Definition stale_ops : list op :=
  [OAppend t1 (e 0 10); OAppend t1 (e 1 10); ORead t1 true; ORead t1 true; OReopen; OAppend t1 (e 2 20000); ORead t1 true].

Theorem c06_refuted_id_drift :
  id_drift small_cfg (exec (env_of small_cfg Strict Fd) init drift_ops) = true /\
  stale_tail (exec (env_of small_cfg Strict Fd) init drift_ops) = false /\
  map snd (trace (env_of small_cfg Strict Fd) init (drift_ops ++ [OReopen; OCount t8; ORead t8 true]))
  = [ROk; ROk; ROk; ROk; ROk; ROk; ROk; ROk; ROk; REntry (out_of (e 7 5000)); RNum 1; ROk; RNum 2; REntry (out_of (e 7 5000))] /\
  c01_ok (trace (env_of small_cfg Strict Fd) init (drift_ops ++ [OReopen; OCount t8; ORead t8 true])) = false /\
  c15_ok (trace (env_of small_cfg Strict Fd) init (drift_ops ++ [OReopen; OCount t8; ORead t8 true])) = false.
Proof. vm_compute. repeat split; reflexivity. Qed.

(* regression witnesses for fix 5104140: the empty poll persists no position on the empty block; after the
   restart nothing is delivered again ... *)
Example c06_stale_tail_repaired :
  stale_tail (exec (env_of small_cfg Strict Fd) init stale_ops) = false /\
  map snd (trace (env_of small_cfg Strict Fd) init (stale_ops ++ [OReopen; OCount t1; ORead t1 true; ORead t1 true; ORead t1 true]))
  = [ROk; ROk; REntry (out_of (e 0 10)); REntry (out_of (e 1 10)); ROk; RErr EInvalidInput; RNone; ROk; RNum 0;
     RNone; RNone; RNone] /\
  outside_known (env_of small_cfg Strict Fd) init (stale_ops ++ [OReopen; OCount t1; ORead t1 true]) = true.
Proof. vm_compute. repeat split; reflexivity. Qed.

(* ... and the batch-read flavour loses no entry *)
Example c06_stale_tail_batch_read_repaired :
  let ops := [OAppend t1 (e 0 20000); ORead t1 true; OAppend t1 (e 1 5000)] in
  stale_tail (exec (env_of small_cfg Strict Fd) init ops) = false /\
  map snd (trace (env_of small_cfg Strict Fd) init (ops ++ [OReopen; OCount t1; OBatchRead t1 100000 true None; ORead t1 true; OCount t1]))
  = [RErr EInvalidInput; RNone; ROk; ROk; RNum 1; REntries [out_of (e 1 5000)]; RNone; RNum 0].
Proof. vm_compute. split; reflexivity. Qed.

Theorem c06_full_refuted : ~ C06_full.
Proof.
  intros H. specialize (H small_cfg Fd (drift_ops ++ [OReopen; OCount t8; ORead t8 true]) small_cfg_ok).
  assert (Hok : Forall (op_ok_r small_cfg) (drift_ops ++ [OReopen; OCount t8; ORead t8 true])) by (repeat constructor).
  destruct (H Hok) as (H1 & _). destruct c06_refuted_id_drift as (_ & _ & _ & H2 & _). congruence.
Qed.

(* non-vacuity of the hypothesis: histories with two restarts each that stay outside the known class *)
Example c06_outside_known_witness :
  outside_known (env_of small_cfg Strict Mmap) init
     [OBatch t1 []; OAppend t2 (e 0 100); OAppend t3 (e 2 5000); OAppend t3 (e 3 10); OAppend t2 (e 4 3000);
      OReopen; OCount t2; OCount t3; OBatchRead t2 100000 true None; OBatchRead t3 100000 true None; OReopen;
      ORead t2 true; OCount t3] = true /\
  outside_known (env_of small_cfg Strict Fd) init
     [OAppend t1 (e 0 5000); OAppend t1 (e 1 2000); OAppend t1 (e 2 2000); ORead t1 true; OReopen; OCount t1;
      ORead t1 true; OAppend t1 (e 3 7); OReopen; ORead t1 true; ORead t1 true; ORead t1 true] = true /\
  outside_known (env_of small_cfg Strict Fd) init (drift_ops ++ [OReopen]) = false.
Proof. vm_compute. repeat split; reflexivity. Qed.

Check c06_recovery_complete_partial : forall c, 0 < c_hdr c -> 0 < c_block c -> forall nfiles f disk next_id acc,
  Forall (dwf c) disk ->
  let '(acc', id') := scan_files c nfiles f disk next_id acc in
  rc_flag acc' = rc_flag acc /\
  forall t, chain_ents (rc_get (rc_chains acc') t) = chain_ents (rc_get (rc_chains acc) t) ++ files_ents t nfiles f disk.
Print Assumptions c06_recovery_complete_partial.
Check c06_restart_rebuilds_streams_partial : forall (c : Cfg) (m : mode) (be : backend) (ops : list op),
  cfg_ok c -> Forall (op_ok c) ops ->
  N.of_nat (length (offered_all ops)) <= u64_max -> sum_len (offered_all ops) <= u64_max ->
  forall t, stream (get_ts (reopen c (exec (env_of c m be) init ops)) t) = stream (get_ts (exec (env_of c m be) init ops) t).
Print Assumptions c06_restart_rebuilds_streams_partial.
Check c06_full_outside_known : forall (c : Cfg) (be : backend) (ops : list op),
  cfg_ok c -> Forall (op_ok_r c) ops ->
  N.of_nat (length (offered_all ops)) <= u64_max -> sum_len (offered_all ops) <= u64_max ->
  outside_known (env_of c Strict be) init ops = true ->
  c01_ok (trace (env_of c Strict be) init ops) = true /\ c15_ok (trace (env_of c Strict be) init ops) = true.
Print Assumptions c06_full_outside_known.
Check c06_invariant_with_restarts : forall (c : Cfg) (be : backend) (ops : list op),
  cfg_ok c -> N.of_nat (length (offered_all ops)) <= u64_max -> sum_len (offered_all ops) <= u64_max ->
  outside_known (env_of c Strict be) init ops = true ->
  exists B' Bb', G c (exec (env_of c Strict be) init ops) (ledger_run [] (trace (env_of c Strict be) init ops)) B' Bb' /\
                 PG c (exec (env_of c Strict be) init ops).
Print Assumptions c06_invariant_with_restarts.
Check c06_no_stale_position : forall (c : Cfg) (be : backend) (ops : list op),
  cfg_ok c -> N.of_nat (length (offered_all ops)) <= u64_max -> sum_len (offered_all ops) <= u64_max ->
  outside_known (env_of c Strict be) init ops = true ->
  forall t p, ts_index (get_ts (exec (env_of c Strict be) init ops) t) = Some p ->
              stale_p (memne (get_ts (exec (env_of c Strict be) init ops) t)) p = false.
Print Assumptions c06_no_stale_position.
Check c06_restart_preserves_cursor : forall (c : Cfg) (be : backend) (ops : list op), cfg_ok c ->
  outside_known (env_of c Strict be) init (ops ++ [OReopen]) = true ->
  N.of_nat (length (offered_all ops)) <= u64_max -> sum_len (offered_all ops) <= u64_max ->
  let s := exec (env_of c Strict be) init ops in
  forall t x y,
    stream (get_ts (reopen c s) t) = stream (get_ts s t) /\
    unread c (nrm x (get_ts (reopen c s) t)) = unread c (nrm y (get_ts s t)) /\
    cnt (get_ts (reopen c s) t) = cnt (get_ts s t) /\
    cnt (get_ts (reopen c s) t) = N.of_nat (length (unread c (nrm x (get_ts (reopen c s) t)))).
Print Assumptions c06_restart_preserves_cursor.
Check c06_full_refuted : ~ C06_full.
Print Assumptions c06_full_refuted.
Print Assumptions c06_refuted_id_drift.
Check c06_alo_outside_known : forall (c : Cfg) (m : mode) (be : backend) (ops : list op),
  cfg_ok c -> Forall (op_ok_r c) ops ->
  N.of_nat (length (offered_all ops)) <= u64_max -> sum_len (offered_all ops) <= u64_max ->
  outside_known (env_of c m be) init ops = true ->
  c06alo_ok (trace (env_of c m be) init ops) = true.
Print Assumptions c06_alo_outside_known.
