(* C14 — a namespace key always maps to a private directory inside the data dir. *)
From W Require Import gen.Consts model.Base model.Fnv model.Sanitize proofs.SanitizeP.

(* every key (any list of scalar values, in fact any list of numbers) yields one path
   component that is non-empty, not "." or "..", and free of '/' and NUL *)
Theorem c14_component_safe : forall key : str, safe_component (sanitize key) = true.
Proof.
  intros key. unfold sanitize. destruct (all_us (map san_char key) || is_dot_component (map san_char key)) eqn:E.
  - apply fallback_safe.
  - apply orb_false_elim in E. destruct E as [Eu Ed].
    rewrite safe_component_eq.
    rewrite Ed, map_san_ok. destruct (map san_char key); [discriminate Eu|reflexivity].
Qed.

(* sanitize_v0, the function before "fix: dot-only namespace keys", violates it *)
Theorem c14_pinned_refuted :
  safe_component (sanitize_v0 [ch_dot; ch_dot]) = false /\
  safe_component (sanitize_v0 [ch_dot]) = false /\
  sanitize_v0 [ch_dot; ch_dot] = [ch_dot; ch_dot].
Proof. vm_compute. auto. Qed.

(* the checksum constants of the model are the ones gen/Consts.v reads out of src/wal/config.rs *)
Example c14_fnv_constants_tied : fnv_offset = src_FNV_OFFSET /\ fnv_prime = src_FNV_PRIME.
Proof. split; reflexivity. Qed.

Check c14_component_safe : forall key : str, safe_component (sanitize key) = true.
Print Assumptions c14_component_safe.
Print Assumptions c14_pinned_refuted.
