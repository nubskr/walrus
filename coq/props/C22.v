(* C22 — every acknowledged PUT is delivered by GET exactly once, in order.
   Model: model/Cluster.v (transition system at the code's await points), restricted scheduler
   model/ClusterSys.v (seq_step); acceptor spec/StreamSpec.v; classes spec/ClusterClass.v. *)
From W Require Import model.Base model.Cluster model.ClusterSys
  spec.StreamSpec spec.ClusterClass proofs.ClusterWit proofs.ClusterSeqN2.

(* the property at full strength: every schedule of the cluster transition system *)
Definition C22_full : Prop := forall cfg sched, c22_ok (cl_trace cfg sched) = true.

(* refuted: verdict 4 = a GET answers EMPTY while an acknowledged PUT was never returned *)
Theorem c22_refuted_ack_after_seal_count : exists cfg sched,
  c22_verdict (cl_trace cfg sched) = 4 /\ c23_verdict cfg (cl_trace cfg sched) = 0 /\ k_under (cl_classes cfg sched) = true.
Proof. exists w1_cfg, w1_sched. exact w1_refutes. Qed.

Theorem c22_refuted_reader_lag : exists cfg sched,
  c22_verdict (cl_trace cfg sched) = 4 /\ c23_verdict cfg (cl_trace cfg sched) = 0
  /\ k_lag (cl_classes cfg sched) = true /\ k_under (cl_classes cfg sched) = false.
Proof. exists w3_cfg, w3_sched. exact w3_refutes. Qed.

Theorem c22_refuted_offsets_lost_on_restart : exists cfg sched,
  c22_verdict (cl_trace cfg sched) = 4 /\ c23_verdict cfg (cl_trace cfg sched) = 0 /\ k_reset (cl_classes cfg sched) = true.
Proof. exists w4_cfg, w4_sched. exact w4_refutes. Qed.

Theorem c22_full_refuted : ~ (forall cfg sched, c22_ok (cl_trace cfg sched) = true).
Proof.
  intros H. specialize (H w1_cfg w1_sched). unfold c22_ok in H. rewrite (proj1 w1_refutes) in H. discriminate H.
Qed.

(* two rollovers proposed from the counter of one segment (class k_double) are NOT a defect by
   themselves: such a schedule that both acceptors accept (the second rollover only over-states a
   sealed count) *)
Theorem c22_double_rollover_accepted : exists cfg sched,
  k_double (cl_classes cfg sched) = true /\ c22_verdict (cl_trace cfg sched) = 0 /\ c23_verdict cfg (cl_trace cfg sched) = 0.
Proof. exists w2_cfg, w2_sched. exact w2_double_rollover_accepted. Qed.

(* the lock that repairs C23 does not repair C22 *)
Theorem c22_refuted_under_fence : exists cfg sched, c22_verdict (fenced_trace cfg sched) = 4.
Proof. exists w1_cfg, w1_sched. exact w1_fenced_still_loses. Qed.

(* positive, ALL schedules of the sequential system: one node, operations (client operations,
   lease-loop rounds, monitor rounds) never overlap, apply synchronous with propose, no restart *)
Theorem c22_single_node_sequential_partial : forall cfg sched,
  cf_nodes cfg = 1 -> cf_lead cfg = 1 -> 1 <= cf_thr cfg -> c22_ok (seq_trace cfg sched) = true.
Proof. intros cfg sched _ _ _. apply seq_accepted_any. Qed.

(* the same for ANY configuration — any number of nodes, any placement of the topic leader, any
   threshold, any clients: ALL schedules of the sequential system (operations never overlap,
   every node applies a proposed command before the next event, no restart) satisfy all four
   clauses.  No hypothesis on cfg is needed: an operation sent to a node that does not exist,
   or routed to a leader that is not a node, is answered with an error and writes nothing. *)
Theorem c22_sequential_any_nodes_partial : forall cfg sched, c22_ok (seq_trace cfg sched) = true.
Proof. exact seq_accepted_any. Qed.

(* open on the positive side: the concurrent system outside the known classes (supported only
   by search of the model) *)
Definition C22_outside_known_open : Prop :=
  forall cfg sched, c22_known cfg sched = false -> c22_ok (cl_trace cfg sched) = true.

(* non-vacuity for three nodes: topic led by node 2, threshold 2, PUTs and GETs sent to all three
   nodes (forwarded appends, reads and proposals), two rollovers (leader 2 -> 3 -> 1), the five
   payloads returned in acknowledgement order, then EMPTY; 5 engine writes *)
Example c22_witness_sequential_three_nodes :
  nv3_summary = (0, [CRVal (0, 0); CRVal (0, 1); CRVal (0, 2); CRVal (0, 3); CRVal (0, 4); CREmpty], 2%nat, 5%nat).
Proof. vm_compute. reflexivity. Qed.

(* non-vacuity: the sequential system really delivers (5 PUTs, threshold 2, two rollovers,
   5 values in order, then EMPTY) *)
Example c22_witness_sequential :
  (c22_verdict (seq_trace nv_cfg nv_sched),
   length (filter (fun u => match u with EResp _ _ (CRVal _) => true | _ => false end) (events (seq_trace nv_cfg nv_sched))),
   length (filter (fun u => match u with EL _ _ => true | _ => false end) (events (seq_trace nv_cfg nv_sched))))
  = (0, 5%nat, 2%nat).
Proof. vm_compute. reflexivity. Qed.

Check c22_refuted_ack_after_seal_count : exists cfg sched,
  c22_verdict (cl_trace cfg sched) = 4 /\ c23_verdict cfg (cl_trace cfg sched) = 0 /\ k_under (cl_classes cfg sched) = true.
Check c22_refuted_reader_lag : exists cfg sched,
  c22_verdict (cl_trace cfg sched) = 4 /\ c23_verdict cfg (cl_trace cfg sched) = 0
  /\ k_lag (cl_classes cfg sched) = true /\ k_under (cl_classes cfg sched) = false.
Check c22_refuted_offsets_lost_on_restart : exists cfg sched,
  c22_verdict (cl_trace cfg sched) = 4 /\ c23_verdict cfg (cl_trace cfg sched) = 0 /\ k_reset (cl_classes cfg sched) = true.
Check c22_full_refuted : ~ (forall cfg sched, c22_ok (cl_trace cfg sched) = true).
Check c22_double_rollover_accepted : exists cfg sched,
  k_double (cl_classes cfg sched) = true /\ c22_verdict (cl_trace cfg sched) = 0 /\ c23_verdict cfg (cl_trace cfg sched) = 0.
Check c22_refuted_under_fence : exists cfg sched, c22_verdict (fenced_trace cfg sched) = 4.
Check c22_single_node_sequential_partial : forall cfg sched,
  cf_nodes cfg = 1 -> cf_lead cfg = 1 -> 1 <= cf_thr cfg -> c22_ok (seq_trace cfg sched) = true.
Check c22_sequential_any_nodes_partial : forall cfg sched, c22_ok (seq_trace cfg sched) = true.
Print Assumptions c22_refuted_ack_after_seal_count.
Print Assumptions c22_refuted_reader_lag.
Print Assumptions c22_refuted_offsets_lost_on_restart.
Print Assumptions c22_full_refuted.
Print Assumptions c22_double_rollover_accepted.
Print Assumptions c22_refuted_under_fence.
Print Assumptions c22_single_node_sequential_partial.
Print Assumptions c22_sequential_any_nodes_partial.
