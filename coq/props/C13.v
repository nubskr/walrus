(* C13 — instances with different namespaces are fully isolated (tracker part).
   Model: model/Trk.v; the isolation theorem is isolated_from of proofs/TrkIso.v at the empty
   tracker.  Several instances of one process share the two trackers; their calls are tagged with
   the instance here, the tracker itself does not see the tag ([untag]). *)
From W Require Import model.Base model.Trk proofs.TrkIso.

(* REFUTED: both instances number their blocks from 1 and the block tracker is keyed by the
   id alone (first registration wins).  In the witness each instance on its own abides by the
   whole contract; instance 2's lock/unlock/mark calls are charged to file 10 of instance 1,
   which is requested for deletion although instance 1 never marked any block (and alone
   would never have requested anything).  Idempotent marking does not help. *)
Theorem c13_refuted_block_id_collision : exists (cs : list tcall) (f : N),
  tags_in cs 1 2 = true /\
  contract false (proj 1 cs) /\ contract false (proj 2 cs) /\
  reregistered (untag cs) = true /\
  file_registered_only_by cs f 1 = true /\ registers_in cs f 1 = true /\
  never_marks cs 1 = true /\
  In f (trk_requests false (untag cs)) /\ In f (trk_requests true (untag cs)) /\
  trk_requests false (proj 1 cs) = [].
Proof.
  exists c13_witness_collision, 10.
  (* closed computations on the 23-call trace; both variants request file 10 *)
  assert (R : forall fixed, trk_requests fixed (untag c13_witness_collision) = [10])
    by (intros []; reflexivity).
  rewrite !R. do 7 (split; [reflexivity|]). split; [now left|]. split; [now left|reflexivity].
Qed.

(* If the block ids and files used by instance [a] (predicates pid, pf) are disjoint from
   those of all other instances, then for EVERY interleaving the joint tracker state
   restricted to a's ids and files is a's state when run alone, and the deletion requests for
   a's files are exactly a's own. *)
Theorem c13_tracker_isolated_if_ids_disjoint : forall fixed a pid pf (cs : list tcall),
  sided a pid pf cs ->
  restrict pid pf (fst (trk_run fixed (untag cs))) = fst (trk_run fixed (proj a cs)) /\
  filter pf (trk_requests fixed (untag cs)) = trk_requests fixed (proj a cs).
Proof.
  intros fixed a pid pf cs Sd. apply (isolated_from fixed a pid pf cs trk0 Sd). intros id b [].
Qed.

(* non-vacuity: same shape as the witness but instance 2 numbers its blocks 101, 102 — the
   hypothesis holds, instance 1's file is not requested, instance 2's state is untouched *)
Example c13_witness_disjoint :
  let cs := [(1, CRegister 1 10); (1, CRegFile 10); (1, CAddBlock 10); (1, CLock 1);
             (2, CRegister 101 20); (2, CRegFile 20); (2, CAddBlock 20); (2, CLock 101);
             (1, CUnlock 1); (1, CFull 10); (2, CUnlock 101); (2, CFull 20); (2, CMark 101)] in
  (trk_requests false (untag cs), trk_requests false (proj 1 cs), trk_requests false (proj 2 cs),
   t_files (restrict (fun i => i <? 100) (fun f => f =? 10) (fst (trk_run false (untag cs)))))
  = ([20], [], [20], [(10, {| f_locked := 0; f_ckpt := 0; f_total := 1; f_full := true |})]).
Proof. vm_compute. reflexivity. Qed.

Check c13_refuted_block_id_collision : exists (cs : list tcall) (f : N),
  tags_in cs 1 2 = true /\
  contract false (proj 1 cs) /\ contract false (proj 2 cs) /\
  reregistered (untag cs) = true /\
  file_registered_only_by cs f 1 = true /\ registers_in cs f 1 = true /\
  never_marks cs 1 = true /\
  In f (trk_requests false (untag cs)) /\ In f (trk_requests true (untag cs)) /\
  trk_requests false (proj 1 cs) = [].
Check c13_tracker_isolated_if_ids_disjoint : forall fixed a pid pf (cs : list tcall),
  sided a pid pf cs ->
  restrict pid pf (fst (trk_run fixed (untag cs))) = fst (trk_run fixed (proj a cs)) /\
  filter pf (trk_requests fixed (untag cs)) = trk_requests fixed (proj a cs).
Print Assumptions c13_refuted_block_id_collision.
Print Assumptions c13_tracker_isolated_if_ids_disjoint.
