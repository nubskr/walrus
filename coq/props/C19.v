(* C19 — all nodes apply the same metadata commands in the same order: THE REPOSITORY-OWNED SLICE.
   Consensus itself (openraft) is neither run nor modelled.  What is stated:
   (a) the state-machine adapter MemStateMachine::apply hands the application exactly the Normal
       payloads of the entries it is given, in the order given, each once (up to the first entry the
       application refuses);
   (b) if two nodes are fed prefixes of one committed log — which openraft guarantees only on top
       of a log store that keeps what it acknowledged (store_contract, an explicit premise) — their
       applied command sequences are prefix-comparable;
   (c) the log store of this repository does not meet that contract (C21's witness). *)
From W Require Import model.Base model.RaftStore spec.RaftSpec proofs.RaftStoreP.

Theorem c19_adapter_order :
  forall (St : Type) (app : St -> list N -> St * option (list N)) (es : list (lentry * bool)) (st : smdata St),
  snd (sm_apply app st es) = true ->
  sm_cmds (fst (sm_apply app st es)) = sm_cmds st ++ normals (map fst es)
  /\ sm_last (fst (sm_apply app st es)) = last_ids es (sm_last st).
Proof.
  intros St app es st T. destruct (sm_apply_handed app es st) as (k & _ & I1 & I2).
  destruct (I2 T) as [E I3]. split; [|exact I3]. now rewrite I1, E, firstn_all.
Qed.

Theorem c19_adapter_prefix :
  forall (St : Type) (app : St -> list N -> St * option (list N)) (es : list (lentry * bool)) (st : smdata St),
  exists k, (k <= length es)%nat
    /\ sm_cmds (fst (sm_apply app st es)) = sm_cmds st ++ normals (map fst (firstn k es)).
Proof. intros St app es st. destruct (sm_apply_handed app es st) as (k & Hk & I1 & _). now exists k. Qed.

(* the adapter against the observation-level specification the check runs over implementation output *)
Theorem c19_adapter_meets_spec :
  forall (St : Type) (app : St -> list N -> St * option (list N)) (app_ok : list N -> option (list N)),
  (forall s d, snd (app s d) = app_ok d) ->
  forall es (st : smdata St),
    sm_cmds (fst (sm_apply app st es)) = sm_cmds st ++ fst (fst (fst (apply_spec app_ok es)))
    /\ sm_resp (fst (sm_apply app st es)) = sm_resp st ++ snd (fst (fst (apply_spec app_ok es)))
    /\ sm_last (fst (sm_apply app st es))
       = match snd (fst (apply_spec app_ok es)) with Some l => Some l | None => sm_last st end
    /\ snd (sm_apply app st es) = snd (apply_spec app_ok es).
Proof. exact @sm_apply_meets_spec. Qed.

Theorem c19_prefix_of_common_log :
  forall (St : Type) (app : St -> list N -> St * option (list N)) (s1 s2 : St) (committed es1 es2 : list lentry),
  Prefix es1 committed -> Prefix es2 committed ->
  Comparable (sm_cmds (fst (sm_apply app (sm_init s1) (fed es1))))
             (sm_cmds (fst (sm_apply app (sm_init s2) (fed es2)))).
Proof.
  intros St app s1 s2 committed es1 es2 P1 P2.
  destruct (c19_adapter_prefix St app (fed es1) (sm_init s1)) as (k1 & _ & E1).
  destruct (c19_adapter_prefix St app (fed es2) (sm_init s2)) as (k2 & _ & E2).
  rewrite E1, E2. cbn [sm_init sm_cmds List.app].
  rewrite <- !firstn_map, !fed_fst.
  apply prefix_common with (c := normals committed); now apply prefix_normals_firstn.
Qed.

(* (b) with the contract as a premise.  The store of this repository does not meet it
   (c19_store_contract_refuted), so for this store the statement has no instance; without the premise
   it is c19_prefix_of_common_log. *)
Theorem c19_prefix_given_contract :
  forall (St : Type) (app : St -> list N -> St * option (list N)) (s1 s2 : St) (committed es1 es2 : list lentry),
  store_contract ->
  (store_contract -> Prefix es1 committed /\ Prefix es2 committed) ->
  Comparable (sm_cmds (fst (sm_apply app (sm_init s1) (fed es1))))
             (sm_cmds (fst (sm_apply app (sm_init s2) (fed es2)))).
Proof.
  intros St app s1 s2 committed es1 es2 SC H. destruct (H SC) as [P1 P2].
  now apply c19_prefix_of_common_log with (committed := committed).
Qed.

Theorem c19_store_contract_refuted : ~ store_contract.
Proof. intros H. specialize (H d11_cfg d11_hist eq_refl). vm_compute in H. discriminate. Qed.

(* non-vacuity: blank, normal, membership, a refused command; responders on some entries *)
Example c19_witness :
  let id := fun i => mkLogId 1 1 i in
  let es := [(mkEntry (id 2) (PNormal [97; 98]), true); (mkEntry (id 3) (PMember 2), false);
             (mkEntry (id 4) PBlank, true); (mkEntry (id 5) (PNormal [33; 97]), false);
             (mkEntry (id 6) (PNormal [122]), false)] in
  let r := sm_apply rec_app (sm_init tt) es in
  snd r = false /\ sm_cmds (fst r) = [[97; 98]] /\ sm_resp (fst r) = [(2, [114; 58; 97; 98]); (4, [])]
  /\ sm_last (fst r) = Some (id 5) /\ sm_memb (fst r) = Some (id 3, 2).
Proof. vm_compute. repeat split; reflexivity. Qed.

Check c19_adapter_order :
  forall (St : Type) (app : St -> list N -> St * option (list N)) (es : list (lentry * bool)) (st : smdata St),
  snd (sm_apply app st es) = true ->
  sm_cmds (fst (sm_apply app st es)) = sm_cmds st ++ normals (map fst es)
  /\ sm_last (fst (sm_apply app st es)) = last_ids es (sm_last st).
Check c19_adapter_prefix :
  forall (St : Type) (app : St -> list N -> St * option (list N)) (es : list (lentry * bool)) (st : smdata St),
  exists k, (k <= length es)%nat
    /\ sm_cmds (fst (sm_apply app st es)) = sm_cmds st ++ normals (map fst (firstn k es)).
Check c19_adapter_meets_spec :
  forall (St : Type) (app : St -> list N -> St * option (list N)) (app_ok : list N -> option (list N)),
  (forall s d, snd (app s d) = app_ok d) ->
  forall es (st : smdata St),
    sm_cmds (fst (sm_apply app st es)) = sm_cmds st ++ fst (fst (fst (apply_spec app_ok es)))
    /\ sm_resp (fst (sm_apply app st es)) = sm_resp st ++ snd (fst (fst (apply_spec app_ok es)))
    /\ sm_last (fst (sm_apply app st es))
       = match snd (fst (apply_spec app_ok es)) with Some l => Some l | None => sm_last st end
    /\ snd (sm_apply app st es) = snd (apply_spec app_ok es).
Check c19_prefix_of_common_log :
  forall (St : Type) (app : St -> list N -> St * option (list N)) (s1 s2 : St) (committed es1 es2 : list lentry),
  Prefix es1 committed -> Prefix es2 committed ->
  Comparable (sm_cmds (fst (sm_apply app (sm_init s1) (fed es1))))
             (sm_cmds (fst (sm_apply app (sm_init s2) (fed es2)))).
Check c19_prefix_given_contract :
  forall (St : Type) (app : St -> list N -> St * option (list N)) (s1 s2 : St) (committed es1 es2 : list lentry),
  store_contract ->
  (store_contract -> Prefix es1 committed /\ Prefix es2 committed) ->
  Comparable (sm_cmds (fst (sm_apply app (sm_init s1) (fed es1))))
             (sm_cmds (fst (sm_apply app (sm_init s2) (fed es2)))).
Check c19_store_contract_refuted : ~ store_contract.
Print Assumptions c19_adapter_order.
Print Assumptions c19_adapter_prefix.
Print Assumptions c19_adapter_meets_spec.
Print Assumptions c19_prefix_of_common_log.
Print Assumptions c19_prefix_given_contract.
Print Assumptions c19_store_contract_refuted.
