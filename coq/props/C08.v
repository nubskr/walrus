(* C08 — a batch interrupted by a crash is recovered entirely or not at all.
   The faithful model REFUTES the property: the batch's entries are separate writes and
   recovery accepts every checksum-valid prefix.  Known finding C08-batch-not-crash-atomic
   (design level: the repository's own docs promise only in-process atomicity). *)
From W Require Import model.Base model.Engine spec.Queue spec.Crash proofs.EngineWF proofs.EngineW proofs.EngineMain proofs.EngineDisk proofs.CrashP proofs.EngineCrash proofs.EngineC06 proofs.EngineCrashA proofs.EngineCrashR model.EngineCfg props.C07.

Theorem c08_refuted : exists c s t es j, (j <= length es)%nat /\
    stream_of (batch_crash c s t es j) (t_id t) <> stream_of (batch_crash c s t es 0) (t_id t) /\
    stream_of (batch_crash c s t es j) (t_id t) <> stream_of (batch_crash c s t es (length es)) (t_id t).
Proof.
  exists small_cfg, init, tb, b3, 1%nat. split; [cbn; lia|]. split; vm_compute; discriminate.
Qed.

(* outside the known class (batches of two or more entries): a single-entry batch has only the crash images
   j = 0 (nothing written) and j = 1 (everything written); the statement is this case split and does not look
   inside batch_crash *)
Theorem c08_outside_known : forall c s t e j, (j <= 1)%nat ->
  batch_crash c s t [e] j = batch_crash c s t [e] 0 \/ batch_crash c s t [e] j = batch_crash c s t [e] 1.
Proof. intros c s t e j Hj. destruct j as [|[|j]]; [now left|now right|lia]. Qed.

(* the strongest true statement next to the refutation: after ANY history WITH restarts outside
   block-id drift (any mode), what is recovered of an interrupted admissible batch is ALWAYS a prefix
   of it (never a non-prefix subset, never a reordering, never a foreign entry), behind the intact
   acknowledged stream *)
Theorem c08_only_prefixes_after_restarts : forall (c : Cfg) (m : mode) (be : backend) (ops : list op) (t : topic) (es : list entry) (j : nat),
  cfg_ok c -> outside_known (env_of c m be) init ops = true ->
  N.of_nat (length (offered_all ops)) <= u64_max -> sum_len (offered_all ops) <= u64_max ->
  batch_ok c t es ->
  let s := exec (env_of c m be) init ops in
  exists k, (k <= length es)%nat /\ stream_of (batch_crash c s t es j) (t_id t) = stream_of s (t_id t) ++ firstn k es.
Proof.
  intros c m be ops t es j Hc Hout HB HBb Hbok. cbn zeta. exists (Nat.min j (length es)). split; [apply Nat.le_min_r|].
  rewrite !stream_of_stream, (GM_batch_crash c _ _ _ _ t es j Hc (GM_from_init c m be ops Hc Hout HB HBb) Hbok (t_id t)), N.eqb_refl.
  now rewrite firstn_min.
Qed.

Theorem c08_only_prefixes : forall (c : Cfg) (m : mode) (be : backend) (ops : list op) (t : topic) (es : list entry) (j : nat),
  cfg_ok c -> Forall (op_ok c) ops ->
  N.of_nat (length (offered_all ops)) <= u64_max -> sum_len (offered_all ops) <= u64_max ->
  batch_ok c t es ->
  let s := exec (env_of c m be) init ops in
  exists k, (k <= length es)%nat /\ stream_of (batch_crash c s t es j) (t_id t) = stream_of s (t_id t) ++ firstn k es.
Proof.
  intros c m be ops t es j Hc Hok. exact (c08_only_prefixes_after_restarts c m be ops t es j Hc (op_ok_outside_known c _ ops init Hok)).
Qed.

Theorem c08_acceptor_means : forall acked batch rec,
  c08_ok acked batch rec = true <-> (outs_are rec acked = true \/ outs_are rec (acked ++ batch) = true).
Proof.
  intros acked batch rec. unfold c08_ok. rewrite andb_true_iff, c07_acceptor_means. split.
  - intros ((k & Hk & Ho) & Hl). pose proof (outs_are_length _ _ Ho) as Hlen.
    rewrite app_length, firstn_length in Hlen. apply orb_prop in Hl. destruct Hl as [Hl|Hl].
    + left. assert (k = 0%nat) by lia. subst k. cbn in Ho. now rewrite app_nil_r in Ho.
    + right. assert (k = length batch) by lia. subst k. now rewrite firstn_all in Ho.
  - intros [Ho|Ho]; pose proof (outs_are_length _ _ Ho) as Hlen.
    + split; [exists 0%nat; split; [lia|]; cbn; now rewrite app_nil_r|]. apply orb_true_intro. left. lia.
    + split; [exists (length batch); split; [lia|]; now rewrite firstn_all|]. rewrite app_length in Hlen.
      apply orb_true_intro. right. lia.
Qed.

Check c08_refuted : exists c s t es j, (j <= length es)%nat /\
    stream_of (batch_crash c s t es j) (t_id t) <> stream_of (batch_crash c s t es 0) (t_id t) /\
    stream_of (batch_crash c s t es j) (t_id t) <> stream_of (batch_crash c s t es (length es)) (t_id t).
Print Assumptions c08_refuted.
Print Assumptions c08_outside_known.
Print Assumptions c08_acceptor_means.
Check c08_only_prefixes : forall (c : Cfg) (m : mode) (be : backend) (ops : list op) (t : topic) (es : list entry) (j : nat),
  cfg_ok c -> Forall (op_ok c) ops ->
  N.of_nat (length (offered_all ops)) <= u64_max -> sum_len (offered_all ops) <= u64_max ->
  batch_ok c t es ->
  let s := exec (env_of c m be) init ops in
  exists k, (k <= length es)%nat /\ stream_of (batch_crash c s t es j) (t_id t) = stream_of s (t_id t) ++ firstn k es.
Print Assumptions c08_only_prefixes.
Check c08_only_prefixes_after_restarts : forall (c : Cfg) (m : mode) (be : backend) (ops : list op) (t : topic) (es : list entry) (j : nat),
  cfg_ok c -> outside_known (env_of c m be) init ops = true ->
  N.of_nat (length (offered_all ops)) <= u64_max -> sum_len (offered_all ops) <= u64_max ->
  batch_ok c t es ->
  let s := exec (env_of c m be) init ops in
  exists k, (k <= length es)%nat /\ stream_of (batch_crash c s t es j) (t_id t) = stream_of s (t_id t) ++ firstn k es.
Print Assumptions c08_only_prefixes_after_restarts.
