(* C09 — consumer positions survive crashes with the promised delivery guarantee.
   Stated here: what the per-prefix acceptors c09_strict_one (at gap 0) and c09_alo_one accept (one direction;
   the extracted c09_strict_ok / c09_alo_ok try them on every prefix of the in-flight append, spec/Crash.v);
   for the model, after any history with restarts outside block-id drift: StrictlyAtOnce resumes exactly, any
   mode never skips (crash between two operations and crash inside a consuming read), AtLeastOnce{n} re-delivers
   at most n entries for read_next consumers; and model witnesses.  Per run: crash-point enumeration on the
   real crate (process exit before the k-th I/O event, incl. between the index temp-file write, its
   fsync and the rename) judged by these acceptors. *)
From W Require Import model.Base model.Engine model.EngineCfg spec.Queue spec.Crash proofs.CrashP proofs.EngineWF proofs.EngineInv proofs.EngineMain
  proofs.EngineDisk proofs.EngineNorm proofs.EngineC06 proofs.EngineALO2 proofs.EngineSince proofs.EngineSinceR proofs.EngineCrashA.

Theorem c09_strict_acceptor_means : forall app deliv rec,
  c09_strict_one app deliv rec 0 = true -> outs_are (deliv ++ rec) app = true.
Proof.
  intros app deliv rec. unfold c09_strict_one, suffix_from. intros H. apply andb_prop in H. destruct H as (Hd & H).
  destruct (length rec <=? length app)%nat eqn:El; [|discriminate].
  destruct (outs_are rec (skipn (length app - length rec) app)) eqn:Er; [|discriminate].
  apply andb_prop in H. destruct H as (H1 & H2).
  assert (Hp : (length app - length rec = length deliv)%nat) by lia.
  rewrite Hp in Er. rewrite <- (firstn_skipn (length deliv) app). now apply outs_are_app.
Qed.

Theorem c09_alo_acceptor_means : forall app deliv rec gap bound,
  c09_alo_one app deliv rec gap bound = true ->
  exists p, (p <= length deliv + gap)%nat /\ outs_are rec (skipn p app) = true /\
            outs_are deliv (firstn (length deliv) app) = true /\
            match bound with Some n => (length deliv <= p + n)%nat | None => True end.
Proof.
  intros app deliv rec gap bound. unfold c09_alo_one, suffix_from. intros H. apply andb_prop in H. destruct H as (Hd & H).
  destruct (length rec <=? length app)%nat; [|discriminate].
  destruct (outs_are rec (skipn (length app - length rec) app)) eqn:Er; [|discriminate].
  apply andb_prop in H. destruct H as (H1 & H2).
  exists (length app - length rec)%nat. repeat split; auto; [lia|]. destruct bound; [lia|exact I].
Qed.

(* model witnesses: a crash between operations = a fresh process on the current disk image and
   persisted positions ([OReopen] in the model).  Strict: resumes right behind what was returned,
   from the writer tail and from a sealed block; AtLeastOnce{3}: re-delivers at most 3. *)
Definition tt : topic := {| t_id := 1; t_nlen := 2 |}.
Definition en (p l : N) : entry := {| e_pid := p; e_len := l |}.
Example c09_witness_strict :
  map snd (trace (env_of small_cfg Strict Fd) init
     [OAppend tt (en 0 3000); OAppend tt (en 1 3000); OAppend tt (en 2 10); ORead tt true; OReopen; ORead tt true;
      OBatchRead tt 10 true None; OReopen; ORead tt true])
  = [ROk; ROk; ROk; REntry (out_of (en 0 3000)); ROk; REntry (out_of (en 1 3000)); REntries [out_of (en 2 10)]; ROk; RNone].
Proof. vm_compute. reflexivity. Qed.
Example c09_witness_strict_outside_known :
  outside_known (env_of small_cfg Strict Fd) init
     [OAppend tt (en 0 3000); OAppend tt (en 1 3000); OAppend tt (en 2 10); ORead tt true; OReopen; ORead tt true;
      OBatchRead tt 10 true None; OReopen; ORead tt true] = true.
Proof. vm_compute. reflexivity. Qed.
Example c09_witness_alo :
  map snd (trace (env_of small_cfg (ALO 3) Fd) init
     [OAppend tt (en 0 10); OAppend tt (en 1 10); OAppend tt (en 2 10); OAppend tt (en 3 10); OAppend tt (en 4 10);
      ORead tt true; ORead tt true; ORead tt true; ORead tt true; OReopen; ORead tt true])
  = [ROk; ROk; ROk; ROk; ROk; REntry (out_of (en 0 10)); REntry (out_of (en 1 10)); REntry (out_of (en 2 10));
     REntry (out_of (en 3 10)); ROk; REntry (out_of (en 3 10))].
Proof. vm_compute. reflexivity. Qed.

(* StrictlyAtOnce, crash BETWEEN two operations (the fresh process sees the disk image and the
   persisted positions of that moment = [reopen], as argued for C07), outside the known class
   (block-id drift — see props/C06.v): for every topic the consumer
   resumes immediately behind the last entry whose consuming read had returned.  [g] is the ledger
   of the queue specification over the history so far: l_app = acknowledged appends of the topic,
   l_del = number of entries returned by its consuming reads.  After the restart the stream is l_app,
   what is unread is l_app minus its first l_del entries (whichever read path hydrates the reader,
   [x]), and the reported count is their number: nothing skipped, nothing delivered twice. *)
Theorem c09_strict_between_operations : forall (c : Cfg) (be : backend) (ops : list op), cfg_ok c ->
  outside_known (env_of c Strict be) init (ops ++ [OReopen]) = true ->
  N.of_nat (length (offered_all ops)) <= u64_max -> sum_len (offered_all ops) <= u64_max ->
  let s := exec (env_of c Strict be) init ops in
  let g := ledger_run [] (trace (env_of c Strict be) init ops) in
  forall t x,
    (l_del (lget g t) <= length (l_app (lget g t)))%nat /\
    stream (get_ts (reopen c s) t) = l_app (lget g t) /\
    unread c (nrm x (get_ts (reopen c s) t)) = skipn (l_del (lget g t)) (l_app (lget g t)) /\
    cnt (get_ts (reopen c s) t) = N.of_nat (length (l_app (lget g t)) - l_del (lget g t)).
Proof. exact crash_between_operations_strict. Qed.

(* and the history that goes on after the crash is accepted by the C01/C15 acceptors with the
   crash event simply present: every later consuming read returns exactly the next entries *)
Theorem c09_strict_resumes_exactly : forall (c : Cfg) (be : backend) (ops1 ops2 : list op), cfg_ok c ->
  outside_known (env_of c Strict be) init (ops1 ++ OReopen :: ops2) = true ->
  N.of_nat (length (offered_all (ops1 ++ OReopen :: ops2))) <= u64_max -> sum_len (offered_all (ops1 ++ OReopen :: ops2)) <= u64_max ->
  c01_ok (trace (env_of c Strict be) init (ops1 ++ OReopen :: ops2)) = true /\
  c15_ok (trace (env_of c Strict be) init (ops1 ++ OReopen :: ops2)) = true.
Proof. intros c be ops1 ops2 Hc Ho HB HBb. now apply restart_from_init. Qed.

(* ANY mode — AtLeastOnce{n} in particular —, crash between two operations of a restart-free history,
   outside block-id drift: the persisted position is never AHEAD of the consumer (lagging position
   invariant LG inside GM, proofs/EngineGen.v, along every history), so after the restart the stream is the
   acknowledged stream and what the consumer will be handed starts at position k <= l_del, i.e. at
   or before the first entry it had not been handed: entries may be delivered again, none is skipped.
   (How many: c09_alo_redelivery_bound below, for read_next-only histories.) *)
Theorem c09_alo_never_skips_between_operations : forall (c : Cfg) (m : mode) (be : backend) (ops : list op),
  cfg_ok c -> Forall (op_ok c) ops ->
  N.of_nat (length (offered_all ops)) <= u64_max -> sum_len (offered_all ops) <= u64_max ->
  id_drift c (exec (env_of c m be) init ops) = false ->
  let s := exec (env_of c m be) init ops in
  let g := ledger_run [] (trace (env_of c m be) init ops) in
  forall t x,
    stream (get_ts (reopen c s) t) = l_app (lget g t) /\
    exists k, (k <= l_del (lget g t))%nat /\
              unread c (nrm x (get_ts (reopen c s) t)) = skipn k (l_app (lget g t)).
Proof.
  intros c m be ops Hc Hok HB HBb Hd. cbn zeta. intros t x. destruct (restart_free_outside_ledger c m be ops Hok Hd) as (Ho & <-).
  destruct (crash_between_operations_never_skips_with_restarts c m be ops Hc Ho HB HBb t x) as (Hs & _ & _ & Hk). auto.
Qed.

Example c09_witness_alo_outside_known :
  id_drift small_cfg (exec (env_of small_cfg (ALO 3) Fd) init
     [OAppend tt (en 0 10); OAppend tt (en 1 10); OAppend tt (en 2 10); OAppend tt (en 3 10); OAppend tt (en 4 10);
      ORead tt true; ORead tt true; ORead tt true; ORead tt true]) = false.
Proof. vm_compute. reflexivity. Qed.

(* AtLeastOnce{persist_every = n} (n <= u32::MAX, the type of the field), a history with any number of earlier
   restarts outside block-id drift (boolean outside_known of the history followed by the final restart) whose
   CONSUMING reads are read_next calls (peeking / offset-addressed batch reads allowed; consuming batch
   reads never persist in AtLeastOnce mode and reset the counter, so no bound holds with them), crash
   between two operations: the consumer resumes at position k with k <= l_del (nothing skipped) and
   l_del - k <= n, indeed < max n 1 (at most persist_every entries are delivered again).  The ledger is the
   one maintained along the run and rolled back to the recovered position at every restart ([gm_ledger],
   proofs/EngineSinceR.v), so l_del counts from the last roll-back.  Invariant: the persisted position lags by
   exactly r_since entries and r_since < max n 1 (the clause QN, proofs/EngineSince.v), on the sealed path and
   at the tail (the forced provisional persist resets the counter and, fix 5104140 of /repo, only happens when
   the block holds entries); the counter restarts at 0 after every restart (the persisted position then
   resolves exactly to the recovered cursor), and the restart hands out again exactly the r_since entries of
   lag.  Also: what the consumer had left before the crash (third conjunct) and the entry count the restart
   rebuilds (appended - k). *)
Theorem c09_alo_redelivery_bound_with_restarts : forall (c : Cfg) (n : N) (be : backend) (ops : list op),
  cfg_ok c -> n <= u32_max ->
  forallb rn_only ops = true ->
  outside_known (env_of c (ALO n) be) init (ops ++ [OReopen]) = true ->
  N.of_nat (length (offered_all ops)) <= u64_max -> sum_len (offered_all ops) <= u64_max ->
  let s := exec (env_of c (ALO n) be) init ops in
  let g := gm_ledger (env_of c (ALO n) be) init [] ops in
  forall t x,
    stream (get_ts (reopen c s) t) = l_app (lget g t) /\
    (l_del (lget g t) <= length (l_app (lget g t)))%nat /\
    unread c (nrm x (get_ts s t)) = skipn (l_del (lget g t)) (l_app (lget g t)) /\
    exists k, (k <= l_del (lget g t))%nat /\ N.of_nat (l_del (lget g t) - k) <= n /\
              N.of_nat (l_del (lget g t) - k) < N.max n 1 /\
              unread c (nrm x (get_ts (reopen c s) t)) = skipn k (l_app (lget g t)) /\
              cnt (get_ts (reopen c s) t) = N.of_nat (length (l_app (lget g t)) - k).
Proof.
  intros c n be ops Hc Hn32 Hrn Hout HB HBb. cbn zeta.
  destruct (outside_known_split (env_of c (ALO n) be) ops init Hout) as (Hout1 & Hdrift). cbn [env_of v_cfg] in Hdrift.
  pose proof (GMN_from_init c n be ops Hc Hn32 Hrn Hout1 HB HBb) as HG.
  set (s := exec (env_of c (ALO n) be) init ops) in *. set (g := gm_ledger (env_of c (ALO n) be) init [] ops) in *.
  intros t x. destruct (GM_crash c s g _ _ Hc (GMN_GM _ _ _ _ _ _ HG) Hdrift t x) as (A1 & A2 & A3 & k & A4 & A5 & A6).
  (* the restart hands out again exactly the numbered lag *)
  destruct (reopen_QN c n s g _ _ t x Hc HG Hdrift) as (_ & pre & Hlen & Hpre).
  split; [exact A1|]. split; [exact A2|]. split; [exact A3|]. exists k.
  assert (Hlk : (length (l_app (lget g t)) - k = length pre + (length (l_app (lget g t)) - l_del (lget g t)))%nat)
    by (rewrite <- (skipn_length k), <- A5, Hpre, A3, app_length, skipn_length; reflexivity).
  repeat split; try assumption; lia.
Qed.

(* non-vacuity: AtLeastOnce{3}; 4 consuming reads (position persisted at the 3rd), a restart (entry 3
   is delivered again), then two consuming reads with a batch peek in between and an append: the
   ledger says 5 of 6 delivered; the final restart resumes at 3 (5 - 3 = 2 <= 3 delivered again) and
   rebuilds the count 3 = 6 - 3 *)
Example c09_witness_alo_bound_with_restarts :
  let ops := [OAppend tt (en 0 10); OAppend tt (en 1 10); OAppend tt (en 2 10); OAppend tt (en 3 10); OAppend tt (en 4 10);
              ORead tt true; ORead tt true; ORead tt true; ORead tt true; OReopen; OCount tt;
              ORead tt true; OBatchRead tt 100000 false None; ORead tt true; OAppend tt (en 5 10)] in
  let v := env_of small_cfg (ALO 3) Fd in
  forallb rn_only ops = true /\ outside_known v init (ops ++ [OReopen]) = true /\
  map snd (trace v init (ops ++ [OReopen; OCount tt; ORead tt true]))
  = [ROk; ROk; ROk; ROk; ROk; REntry (out_of (en 0 10)); REntry (out_of (en 1 10)); REntry (out_of (en 2 10)); REntry (out_of (en 3 10));
     ROk; RNum 2; REntry (out_of (en 3 10)); REntries [out_of (en 4 10)]; REntry (out_of (en 4 10)); ROk;
     ROk; RNum 3; REntry (out_of (en 3 10))] /\
  l_del (lget (gm_ledger v init [] ops) 1) = 5%nat /\ length (l_app (lget (gm_ledger v init [] ops) 1)) = 6%nat /\
  unread small_cfg (nrm false (get_ts (reopen small_cfg (exec v init ops)) 1)) = [en 3 10; en 4 10; en 5 10].
Proof. vm_compute. repeat split; reflexivity. Qed.

(* in particular after a restart-free history, no block-id drift at the crash: the ledger is then the plain ledger
   of the queue specification *)
Theorem c09_alo_redelivery_bound : forall (c : Cfg) (n : N) (be : backend) (ops : list op),
  cfg_ok c -> n <= u32_max ->
  Forall (op_ok c) ops -> forallb rn_only ops = true ->
  N.of_nat (length (offered_all ops)) <= u64_max -> sum_len (offered_all ops) <= u64_max ->
  id_drift c (exec (env_of c (ALO n) be) init ops) = false ->
  let s := exec (env_of c (ALO n) be) init ops in
  let g := ledger_run [] (trace (env_of c (ALO n) be) init ops) in
  forall t x,
    stream (get_ts (reopen c s) t) = l_app (lget g t) /\
    exists k, (k <= l_del (lget g t))%nat /\ N.of_nat (l_del (lget g t) - k) <= n /\
              N.of_nat (l_del (lget g t) - k) < N.max n 1 /\
              unread c (nrm x (get_ts (reopen c s) t)) = skipn k (l_app (lget g t)).
Proof.
  intros c n be ops Hc Hn Hok Hrn HB HBb Hd. cbn zeta. intros t x. destruct (restart_free_outside_ledger c _ be ops Hok Hd) as (Ho & <-).
  destruct (c09_alo_redelivery_bound_with_restarts c n be ops Hc Hn Hrn Ho HB HBb t x) as (Hs & _ & _ & k & H1 & H2 & H3 & H4 & _). eauto 6.
Qed.

(* non-vacuity: the AtLeastOnce{3} witness history above is read_next-only, without drift; after its
   4 consuming reads the restart re-delivers exactly one entry (the position was persisted at the 3rd) *)
Example c09_witness_alo_bound :
  let ops := [OAppend tt (en 0 10); OAppend tt (en 1 10); OAppend tt (en 2 10); OAppend tt (en 3 10); OAppend tt (en 4 10);
              ORead tt true; ORead tt true; ORead tt true; ORead tt true] in
  forallb rn_only ops = true /\ id_drift small_cfg (exec (env_of small_cfg (ALO 3) Fd) init ops) = false /\
  l_del (lget (ledger_run [] (trace (env_of small_cfg (ALO 3) Fd) init ops)) 1) = 4%nat /\
  unread small_cfg (nrm false (get_ts (reopen small_cfg (exec (env_of small_cfg (ALO 3) Fd) init ops)) 1)) = [en 3 10; en 4 10].
Proof. vm_compute. repeat split; reflexivity. Qed.

(* StrictlyAtOnce, crash INSIDE a consuming read_next.  The only durable effect of a read is the index
   persist: temp-file write, fsync, rename, directory fsync.  The rename is atomic, so a crash at any of
   these points leaves the OLD or the NEW persisted position and nothing else changed: the crash image
   is [reopen] of the state before the read ([s]) or of the state after it ([s']).  After ANY history
   with restarts outside block-id drift ([outside_known], which needs no extra hypothesis for the state
   after the read: a read does not change drift, id_drift_read):
     old position: every topic, the read's topic included, is exactly where the ledger has it — the
       entry in flight is delivered (again) to a consumer that never saw that read return;
     new position: every other topic exactly where it was, the read's topic right behind the entry in
       flight (or unchanged when nothing was unread).
   Only the read in flight at the crash may go either way; nothing else is delivered twice, nothing is skipped. *)
Theorem c09_strict_crash_inside_read : forall (c : Cfg) (be : backend) (ops : list op) (t : topic), cfg_ok c ->
  N.of_nat (length (offered_all ops)) <= u64_max -> sum_len (offered_all ops) <= u64_max ->
  outside_known (env_of c Strict be) init (ops ++ [OReopen]) = true ->
  let s := exec (env_of c Strict be) init ops in
  let s' := fst (step (env_of c Strict be) s (ORead t true)) in
  let g := ledger_run [] (trace (env_of c Strict be) init ops) in
  let d := l_del (lget g (t_id t)) in
  let A := l_app (lget g (t_id t)) in
  (forall t0 x, stream (get_ts (reopen c s) t0) = l_app (lget g t0) /\
                unread c (nrm x (get_ts (reopen c s) t0)) = skipn (l_del (lget g t0)) (l_app (lget g t0))) /\
  (forall t0 x, stream (get_ts (reopen c s') t0) = l_app (lget g t0) /\
                (t0 <> t_id t -> unread c (nrm x (get_ts (reopen c s') t0)) = skipn (l_del (lget g t0)) (l_app (lget g t0))) /\
                unread c (nrm x (get_ts (reopen c s') (t_id t))) = skipn (if (d <? length A)%nat then S d else d) A).
Proof.
  intros c be ops t Hc HB HBb Hout. cbn zeta.
  destruct (crash_inside_consuming_read_strict c be ops (ORead t true) Hc eq_refl HB HBb Hout)
    as (Hc01 & H1 & H2). cbn zeta in *.
  split; [exact H1|].
  set (g := ledger_run [] (trace (env_of c Strict be) init ops)) in *.
  destruct (step (env_of c Strict be) (exec (env_of c Strict be) init ops) (ORead t true)) as [s1 r]. cbn [fst snd] in *.
  (* the acceptor's verdict on the read in flight says where the new position is *)
  replace (if (l_del (lget g (t_id t)) <? length (l_app (lget g (t_id t))))%nat then S (l_del (lget g (t_id t))) else l_del (lget g (t_id t)))
    with (l_del (lget (ledger_step g (ORead t true) r) (t_id t))); [exact H2|].
  unfold c01_step_ok, remaining in Hc01. destruct r; try discriminate; cbn [ledger_step].
  - destruct (skipn (l_del (lget g (t_id t))) (l_app (lget g (t_id t)))) eqn:Esk; [|discriminate].
    now rewrite (proj2 (Nat.ltb_ge _ _) (skipn_nil_ge _ _ Esk)).
  - destruct (skipn (l_del (lget g (t_id t))) (l_app (lget g (t_id t)))) eqn:Esk; [discriminate|].
    rewrite lget_lset_same. cbn [l_del]. now rewrite (proj2 (Nat.ltb_lt _ _) (skipn_len_lt _ _ _ _ Esk)).
Qed.

(* the same for a consuming batch read (one index persist behind everything it returns): the crash image
   is the old position, or the position behind ALL entries the read returned — "the read in flight may
   go either way, as a whole" (the gap parameter j = its size of the acceptor c09_strict_one) *)
Theorem c09_strict_crash_inside_batch_read : forall (c : Cfg) (be : backend) (ops : list op) (t : topic) (maxb : N), cfg_ok c ->
  N.of_nat (length (offered_all ops)) <= u64_max -> sum_len (offered_all ops) <= u64_max ->
  outside_known (env_of c Strict be) init (ops ++ [OReopen]) = true ->
  let s := exec (env_of c Strict be) init ops in
  let s' := fst (step (env_of c Strict be) s (OBatchRead t maxb true None)) in
  let g := ledger_run [] (trace (env_of c Strict be) init ops) in
  exists os, snd (step (env_of c Strict be) s (OBatchRead t maxb true None)) = REntries os /\
  (forall t0 x, stream (get_ts (reopen c s) t0) = l_app (lget g t0) /\
                unread c (nrm x (get_ts (reopen c s) t0)) = skipn (l_del (lget g t0)) (l_app (lget g t0))) /\
  (forall t0 x, stream (get_ts (reopen c s') t0) = l_app (lget g t0) /\
                (t0 <> t_id t -> unread c (nrm x (get_ts (reopen c s') t0)) = skipn (l_del (lget g t0)) (l_app (lget g t0))) /\
                unread c (nrm x (get_ts (reopen c s') (t_id t))) = skipn (l_del (lget g (t_id t)) + length os) (l_app (lget g (t_id t)))).
Proof.
  intros c be ops t maxb Hc HB HBb Hout. cbn zeta.
  destruct (crash_inside_consuming_read_strict c be ops (OBatchRead t maxb true None) Hc eq_refl HB HBb Hout)
    as (Hc01 & H1 & H2). cbn zeta in *.
  destruct (step (env_of c Strict be) (exec (env_of c Strict be) init ops) (OBatchRead t maxb true None)) as [s1 r]. cbn [fst snd] in *.
  unfold c01_step_ok in Hc01. destruct r; try discriminate. exists os. split; [reflexivity|]. split; [exact H1|].
  cbn [ledger_step] in H2. rewrite lget_lset_same in H2. exact H2.
Qed.

(* non-vacuity: two entries, one consumed, the read of the second in flight at the crash *)
Example c09_witness_crash_inside_read :
  let ops := [OAppend tt (en 0 3000); OAppend tt (en 1 3000); ORead tt true] in
  let s := exec (env_of small_cfg Strict Fd) init ops in
  outside_known (env_of small_cfg Strict Fd) init (ops ++ [OReopen]) = true /\
  unread small_cfg (nrm false (get_ts (reopen small_cfg s) 1)) = [en 1 3000] /\
  unread small_cfg (nrm false (get_ts (reopen small_cfg (fst (step (env_of small_cfg Strict Fd) s (ORead tt true)))) 1)) = [].
Proof. vm_compute. repeat split; reflexivity. Qed.

Check c09_strict_acceptor_means : forall app deliv rec,
  c09_strict_one app deliv rec 0 = true -> outs_are (deliv ++ rec) app = true.
Print Assumptions c09_strict_acceptor_means.
Print Assumptions c09_alo_acceptor_means.
Check c09_strict_between_operations : forall (c : Cfg) (be : backend) (ops : list op), cfg_ok c ->
  outside_known (env_of c Strict be) init (ops ++ [OReopen]) = true ->
  N.of_nat (length (offered_all ops)) <= u64_max -> sum_len (offered_all ops) <= u64_max ->
  let s := exec (env_of c Strict be) init ops in
  let g := ledger_run [] (trace (env_of c Strict be) init ops) in
  forall t x,
    (l_del (lget g t) <= length (l_app (lget g t)))%nat /\
    stream (get_ts (reopen c s) t) = l_app (lget g t) /\
    unread c (nrm x (get_ts (reopen c s) t)) = skipn (l_del (lget g t)) (l_app (lget g t)) /\
    cnt (get_ts (reopen c s) t) = N.of_nat (length (l_app (lget g t)) - l_del (lget g t)).
Print Assumptions c09_strict_between_operations.
Print Assumptions c09_strict_resumes_exactly.
Check c09_alo_never_skips_between_operations : forall (c : Cfg) (m : mode) (be : backend) (ops : list op),
  cfg_ok c -> Forall (op_ok c) ops ->
  N.of_nat (length (offered_all ops)) <= u64_max -> sum_len (offered_all ops) <= u64_max ->
  id_drift c (exec (env_of c m be) init ops) = false ->
  let s := exec (env_of c m be) init ops in
  let g := ledger_run [] (trace (env_of c m be) init ops) in
  forall t x,
    stream (get_ts (reopen c s) t) = l_app (lget g t) /\
    exists k, (k <= l_del (lget g t))%nat /\
              unread c (nrm x (get_ts (reopen c s) t)) = skipn k (l_app (lget g t)).
Print Assumptions c09_alo_never_skips_between_operations.
Check c09_alo_redelivery_bound : forall (c : Cfg) (n : N) (be : backend) (ops : list op),
  cfg_ok c -> n <= u32_max ->
  Forall (op_ok c) ops -> forallb rn_only ops = true ->
  N.of_nat (length (offered_all ops)) <= u64_max -> sum_len (offered_all ops) <= u64_max ->
  id_drift c (exec (env_of c (ALO n) be) init ops) = false ->
  let s := exec (env_of c (ALO n) be) init ops in
  let g := ledger_run [] (trace (env_of c (ALO n) be) init ops) in
  forall t x,
    stream (get_ts (reopen c s) t) = l_app (lget g t) /\
    exists k, (k <= l_del (lget g t))%nat /\ N.of_nat (l_del (lget g t) - k) <= n /\
              N.of_nat (l_del (lget g t) - k) < N.max n 1 /\
              unread c (nrm x (get_ts (reopen c s) t)) = skipn k (l_app (lget g t)).
Print Assumptions c09_alo_redelivery_bound.
Check c09_strict_crash_inside_read : forall (c : Cfg) (be : backend) (ops : list op) (t : topic), cfg_ok c ->
  N.of_nat (length (offered_all ops)) <= u64_max -> sum_len (offered_all ops) <= u64_max ->
  outside_known (env_of c Strict be) init (ops ++ [OReopen]) = true ->
  let s := exec (env_of c Strict be) init ops in
  let s' := fst (step (env_of c Strict be) s (ORead t true)) in
  let g := ledger_run [] (trace (env_of c Strict be) init ops) in
  let d := l_del (lget g (t_id t)) in
  let A := l_app (lget g (t_id t)) in
  (forall t0 x, stream (get_ts (reopen c s) t0) = l_app (lget g t0) /\
                unread c (nrm x (get_ts (reopen c s) t0)) = skipn (l_del (lget g t0)) (l_app (lget g t0))) /\
  (forall t0 x, stream (get_ts (reopen c s') t0) = l_app (lget g t0) /\
                (t0 <> t_id t -> unread c (nrm x (get_ts (reopen c s') t0)) = skipn (l_del (lget g t0)) (l_app (lget g t0))) /\
                unread c (nrm x (get_ts (reopen c s') (t_id t))) = skipn (if (d <? length A)%nat then S d else d) A).
Print Assumptions c09_strict_crash_inside_read.
Print Assumptions c09_strict_crash_inside_batch_read.
Check c09_alo_redelivery_bound_with_restarts : forall (c : Cfg) (n : N) (be : backend) (ops : list op),
  cfg_ok c -> n <= u32_max ->
  forallb rn_only ops = true ->
  outside_known (env_of c (ALO n) be) init (ops ++ [OReopen]) = true ->
  N.of_nat (length (offered_all ops)) <= u64_max -> sum_len (offered_all ops) <= u64_max ->
  let s := exec (env_of c (ALO n) be) init ops in
  let g := gm_ledger (env_of c (ALO n) be) init [] ops in
  forall t x,
    stream (get_ts (reopen c s) t) = l_app (lget g t) /\
    (l_del (lget g t) <= length (l_app (lget g t)))%nat /\
    unread c (nrm x (get_ts s t)) = skipn (l_del (lget g t)) (l_app (lget g t)) /\
    exists k, (k <= l_del (lget g t))%nat /\ N.of_nat (l_del (lget g t) - k) <= n /\
              N.of_nat (l_del (lget g t) - k) < N.max n 1 /\
              unread c (nrm x (get_ts (reopen c s) t)) = skipn k (l_app (lget g t)) /\
              cnt (get_ts (reopen c s) t) = N.of_nat (length (l_app (lget g t)) - k).
Print Assumptions c09_alo_redelivery_bound_with_restarts.

(* ANY mode (AtLeastOnce{n} in particular): crash points INSIDE a consuming read (read_next or batch read)
   after any admissible restart-free history outside block-id drift.  Both crash images (old / new
   persisted position; the rename is atomic) hold the acknowledged stream, and the consumer resumes at
   or before the first entry not handed out, where the entries of the in-flight read count as handed
   out (g'): nothing behind the in-flight read is skipped. *)
Theorem c09_any_mode_crash_inside_consuming_read : forall (c : Cfg) (m : mode) (be : backend) (ops : list op) (o : op),
  cfg_ok c -> Forall (op_ok c) ops -> consuming_read o = true ->
  N.of_nat (length (offered_all ops)) <= u64_max -> sum_len (offered_all ops) <= u64_max ->
  id_drift c (exec (env_of c m be) init ops) = false ->
  let v := env_of c m be in
  let s := exec v init ops in
  let s' := fst (step v s o) in
  let g := ledger_run [] (trace v init ops) in
  let g' := ledger_step g o (snd (step v s o)) in
  forall image, image = reopen c s \/ image = reopen c s' ->
  forall t0 x,
    stream (get_ts image t0) = l_app (lget g t0) /\
    exists k, (k <= l_del (lget g' t0))%nat /\
              unread c (nrm x (get_ts image t0)) = skipn k (l_app (lget g t0)).
Proof.
  intros c m be ops o Hc Hok Hcr HB HBb Hd. cbn zeta. destruct (restart_free_outside_ledger c m be ops Hok Hd) as (Ho & <-).
  exact (crash_inside_consuming_read_with_restarts c m be ops o Hc Hcr Ho HB HBb).
Qed.

Example c09_witness_crash_inside_alo_read :
  consuming_read (OBatchRead tt 4096 true None) = true /\ consuming_read (ORead tt true) = true /\
  id_drift small_cfg (exec (env_of small_cfg (ALO 3) Fd) init
     [OAppend tt (en 0 3000); OAppend tt (en 1 3000); OAppend tt (en 2 10); ORead tt true; ORead tt true]) = false.
Proof. vm_compute. repeat split. Qed.

Check c09_any_mode_crash_inside_consuming_read : forall (c : Cfg) (m : mode) (be : backend) (ops : list op) (o : op),
  cfg_ok c -> Forall (op_ok c) ops -> consuming_read o = true ->
  N.of_nat (length (offered_all ops)) <= u64_max -> sum_len (offered_all ops) <= u64_max ->
  id_drift c (exec (env_of c m be) init ops) = false ->
  let v := env_of c m be in
  let s := exec v init ops in
  let s' := fst (step v s o) in
  let g := ledger_run [] (trace v init ops) in
  let g' := ledger_step g o (snd (step v s o)) in
  forall image, image = reopen c s \/ image = reopen c s' ->
  forall t0 x,
    stream (get_ts image t0) = l_app (lget g t0) /\
    exists k, (k <= l_del (lget g' t0))%nat /\
              unread c (nrm x (get_ts image t0)) = skipn k (l_app (lget g t0)).
Print Assumptions c09_any_mode_crash_inside_consuming_read.

(* ANY mode, crash between two operations of ANY history WITH restarts outside block-id drift (generalises
   c09_alo_never_skips_between_operations, which is about restart-free histories): [gm_ledger] is the ledger
   of the history with the consumer's TRUE position (third conjunct: what the running process would hand out
   next is exactly skipn l_del), rolled back at every earlier restart; the fresh process holds the acknowledged
   stream and resumes at k <= l_del: entries may be delivered again, none is skipped. *)
Theorem c09_any_mode_never_skips_with_restarts : forall (c : Cfg) (m : mode) (be : backend) (ops : list op), cfg_ok c ->
  outside_known (env_of c m be) init (ops ++ [OReopen]) = true ->
  N.of_nat (length (offered_all ops)) <= u64_max -> sum_len (offered_all ops) <= u64_max ->
  let s := exec (env_of c m be) init ops in
  let g := gm_ledger (env_of c m be) init [] ops in
  forall t x,
    stream (get_ts (reopen c s) t) = l_app (lget g t) /\
    (l_del (lget g t) <= length (l_app (lget g t)))%nat /\
    unread c (nrm x (get_ts s t)) = skipn (l_del (lget g t)) (l_app (lget g t)) /\
    exists k, (k <= l_del (lget g t))%nat /\
              unread c (nrm x (get_ts (reopen c s) t)) = skipn k (l_app (lget g t)).
Proof. exact crash_between_operations_never_skips_with_restarts. Qed.

Example c09_witness_never_skips_with_restarts :
  outside_known (env_of small_cfg (ALO 3) Fd) init
     ([OAppend tt (en 0 3000); OAppend tt (en 1 3000); ORead tt true; OReopen; OAppend tt (en 2 10); ORead tt true] ++ [OReopen]) = true.
Proof. vm_compute. reflexivity. Qed.

Check c09_any_mode_never_skips_with_restarts : forall (c : Cfg) (m : mode) (be : backend) (ops : list op), cfg_ok c ->
  outside_known (env_of c m be) init (ops ++ [OReopen]) = true ->
  N.of_nat (length (offered_all ops)) <= u64_max -> sum_len (offered_all ops) <= u64_max ->
  let s := exec (env_of c m be) init ops in
  let g := gm_ledger (env_of c m be) init [] ops in
  forall t x,
    stream (get_ts (reopen c s) t) = l_app (lget g t) /\
    (l_del (lget g t) <= length (l_app (lget g t)))%nat /\
    unread c (nrm x (get_ts s t)) = skipn (l_del (lget g t)) (l_app (lget g t)) /\
    exists k, (k <= l_del (lget g t))%nat /\
              unread c (nrm x (get_ts (reopen c s) t)) = skipn k (l_app (lget g t)).
Print Assumptions c09_any_mode_never_skips_with_restarts.

(* subsumes c09_any_mode_crash_inside_consuming_read; the ledger is gm_ledger *)
Theorem c09_any_mode_crash_inside_consuming_read_with_restarts : forall (c : Cfg) (m : mode) (be : backend) (ops : list op) (o : op), cfg_ok c ->
  consuming_read o = true ->
  outside_known (env_of c m be) init (ops ++ [OReopen]) = true ->
  N.of_nat (length (offered_all ops)) <= u64_max -> sum_len (offered_all ops) <= u64_max ->
  let v := env_of c m be in
  let s := exec v init ops in
  let s' := fst (step v s o) in
  let g := gm_ledger v init [] ops in
  let g' := ledger_step g o (snd (step v s o)) in
  forall image, image = reopen c s \/ image = reopen c s' ->
  forall t0 x,
    stream (get_ts image t0) = l_app (lget g t0) /\
    exists k, (k <= l_del (lget g' t0))%nat /\
              unread c (nrm x (get_ts image t0)) = skipn k (l_app (lget g t0)).
Proof. exact crash_inside_consuming_read_with_restarts. Qed.
Check c09_any_mode_crash_inside_consuming_read_with_restarts : forall (c : Cfg) (m : mode) (be : backend) (ops : list op) (o : op), cfg_ok c ->
  consuming_read o = true ->
  outside_known (env_of c m be) init (ops ++ [OReopen]) = true ->
  N.of_nat (length (offered_all ops)) <= u64_max -> sum_len (offered_all ops) <= u64_max ->
  let v := env_of c m be in
  let s := exec v init ops in
  let s' := fst (step v s o) in
  let g := gm_ledger v init [] ops in
  let g' := ledger_step g o (snd (step v s o)) in
  forall image, image = reopen c s \/ image = reopen c s' ->
  forall t0 x,
    stream (get_ts image t0) = l_app (lget g t0) /\
    exists k, (k <= l_del (lget g' t0))%nat /\
              unread c (nrm x (get_ts image t0)) = skipn k (l_app (lget g t0)).
Print Assumptions c09_any_mode_crash_inside_consuming_read_with_restarts.
