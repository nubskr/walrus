(* C03 — batch reads honour the entry cap and the byte budget and always make progress. *)
From W Require Import model.Base model.Engine model.EngineCfg spec.Queue
  proofs.EngineBasic proofs.EngineWF proofs.EngineMain props.C01.

(* cap and budget: for EVERY state whatsoever (reachable or not), every budget, every mode,
   stateful and offset-addressed reads alike.  The byte total is compared saturated at
   usize::MAX, exactly like the accumulator in the code. *)
Theorem c03_cap_budget : forall c m s t maxb ck start s' os,
  batch_read c m s t maxb ck start = (s', REntries os) ->
  N.of_nat (length os) <= c_max_entries c /\
  (N.min usize_max (sum_out_len os) <= maxb \/ (length os <= 1)%nat).
Proof. exact batch_read_cap_budget. Qed.

(* the cap is the advertised 2000 in both sets of constants the code is compiled with *)
Theorem c03_cap_is_2000 : c_max_entries real_cfg = 2000 /\ c_max_entries small_cfg = 2000.
Proof. split; reflexivity. Qed.

(* progress, together with cap and budget, along every admissible history: the acceptor
   c03_ok checks, at every batch read, |outs| <= cap, bytes <= budget or one entry, and
   "something unconsumed => something returned" against the queue specification *)
Theorem c03_all_sequences : forall (c : Cfg) (m : mode) (be : backend) (ops : list op),
  cfg_ok c -> Forall (op_ok c) ops ->
  N.of_nat (length (offered_all ops)) <= u64_max -> sum_len (offered_all ops) <= u64_max ->
  c03_ok (c_max_entries c) (trace (env_of c m be) init ops) = true.
Proof. intros c m be ops Hc Ho H1 H2. exact (proj2 (proj2 (engine_from_init c m be ops Hc Ho H1 H2))). Qed.

(* non-vacuity: budget 0 with unread data in a sealed block returns one entry *)
Example c03_witness :
  map snd (trace (env_of small_cfg Strict Fd) init
             [OAppend t1 (e 0 3000); OAppend t1 (e 1 3000); OBatchRead t1 0 true None;
              OBatchRead t1 18446744073709551615 true None])
  = [ROk; ROk; REntries [out_of (e 0 3000)]; REntries [out_of (e 1 3000)]].
Proof. vm_compute. reflexivity. Qed.

Check c03_cap_budget : forall c m s t maxb ck start s' os,
  batch_read c m s t maxb ck start = (s', REntries os) ->
  N.of_nat (length os) <= c_max_entries c /\
  (N.min usize_max (sum_out_len os) <= maxb \/ (length os <= 1)%nat).
Check c03_all_sequences : forall (c : Cfg) (m : mode) (be : backend) (ops : list op),
  cfg_ok c -> Forall (op_ok c) ops ->
  N.of_nat (length (offered_all ops)) <= u64_max -> sum_len (offered_all ops) <= u64_max ->
  c03_ok (c_max_entries c) (trace (env_of c m be) init ops) = true.
Print Assumptions c03_cap_budget.
Print Assumptions c03_all_sequences.
