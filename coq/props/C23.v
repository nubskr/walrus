(* C23 — a segment is never written after the node holding it applied its sealing.
   Model: model/Cluster.v, the fenced scheduler of model/ClusterSys.v (fenced_step, a lock the code does
   not have); acceptor spec/StreamSpec.v (c23_scan: each engine write against the replay of the writer's
   applied log prefix); classes spec/ClusterClass.v. *)
From W Require Import model.Base model.Cluster model.ClusterSys
  spec.StreamSpec spec.ClusterClass proofs.ClusterP proofs.ClusterFence proofs.ClusterKnown proofs.ClusterWit.

(* the property at full strength: every schedule; c23_ok = no engine write into a segment that
   is sealed in, or assigned to another node by, the writer's applied metadata *)
Definition C23_full : Prop := forall cfg sched, c23_ok cfg (cl_trace cfg sched) = true.

(* first clause refuted (verdict 1 = written after the writer applied the sealing) *)
Theorem c23_refuted_check_then_write : exists cfg sched,
  c23_verdict cfg (cl_trace cfg sched) = 1 /\ k_ctw (cl_classes cfg sched) = true.
Proof. exists w5_cfg, w5a_sched. exact w5a_refutes. Qed.

Theorem c23_refuted_stale_refresh : exists cfg sched,
  c23_verdict cfg (cl_trace cfg sched) = 1 /\ k_stale (cl_classes cfg sched) = true.
Proof. exists w5_cfg, w5b_sched. exact w5b_refutes. Qed.

Theorem c23_full_refuted : ~ (forall cfg sched, c23_ok cfg (cl_trace cfg sched) = true).
Proof.
  intros H. specialize (H w5_cfg w5a_sched). unfold c23_ok in H. rewrite (proj1 w5a_refutes) in H. discriminate H.
Qed.

(* second clause, ALL schedules (any nodes, threshold, clients, interleaving, restarts): a node
   never writes into a segment that its applied metadata assigns to another node *)
Theorem c23_never_foreign : forall cfg sched, c23_foreign_ok cfg (cl_trace cfg sched) = true.
Proof. exact never_foreign. Qed.

(* the missing lock, ALL schedules of the fenced scheduler: if [metadata read -> lease refresh ->
   lease check -> engine append] (and every other lease refresh) is atomic with respect to
   apply@n and to other refreshes on n, both clauses hold *)
Theorem c23_atomic_fence_partial : forall cfg sched, c23_ok cfg (fenced_trace cfg sched) = true.
Proof. exact fenced_ok. Qed.

(* outside the known class, ALL schedules: if the model's run of a case never appends into a
   segment that is sealed in the writer's metadata at that moment (neither k_ctw nor k_stale is
   raised), the acceptor accepts the whole trace — the two mechanisms are the only ones *)
Theorem c23_outside_known : forall cfg sched,
  c23_known cfg sched = false -> c23_ok cfg (cl_trace cfg sched) = true.
Proof. exact outside_known_c23. Qed.

(* non-vacuity: the fenced scheduler still writes (the check-then-write schedule under the fence:
   verdict 0; continued by twelve more steps of client 1, both PUTs complete with 2 engine writes) *)
Example c23_witness_fenced :
  (c23_verdict w5_cfg (fenced_trace w5_cfg w5a_sched),
   length (filter (fun u => match u with EW _ _ _ _ => true | _ => false end) (events (fenced_trace w5_cfg (w5a_sched ++ rp 12 (EvC 1))))))
  = (0, 2%nat).
Proof. vm_compute. reflexivity. Qed.

Check c23_refuted_check_then_write : exists cfg sched,
  c23_verdict cfg (cl_trace cfg sched) = 1 /\ k_ctw (cl_classes cfg sched) = true.
Check c23_refuted_stale_refresh : exists cfg sched,
  c23_verdict cfg (cl_trace cfg sched) = 1 /\ k_stale (cl_classes cfg sched) = true.
Check c23_full_refuted : ~ (forall cfg sched, c23_ok cfg (cl_trace cfg sched) = true).
Check c23_never_foreign : forall cfg sched, c23_foreign_ok cfg (cl_trace cfg sched) = true.
Check c23_atomic_fence_partial : forall cfg sched, c23_ok cfg (fenced_trace cfg sched) = true.
Check c23_outside_known : forall cfg sched,
  c23_known cfg sched = false -> c23_ok cfg (cl_trace cfg sched) = true.
Print Assumptions c23_refuted_check_then_write.
Print Assumptions c23_refuted_stale_refresh.
Print Assumptions c23_full_refuted.
Print Assumptions c23_never_foreign.
Print Assumptions c23_atomic_fence_partial.
Print Assumptions c23_outside_known.
