(* C25 — segment storage keys map one-to-one to (topic, segment). *)
From W Require Import model.Base model.WalKey proofs.WalKeyP.

Theorem c25_roundtrip : forall (topic : str) (n : N), n < two64 ->
  parse_wal_key (wal_key topic n) = Some (topic, n).
Proof.
  intros topic n Hn. unfold parse_wal_key, wal_key.
  rewrite app_assoc, rsplit_app by apply dec_digits.
  rewrite BytesP.strip_prefix_app, parse_u64_dec by exact Hn. reflexivity.
Qed.

Theorem c25_injective : forall t1 n1 t2 n2, n1 < two64 -> n2 < two64 ->
  wal_key t1 n1 = wal_key t2 n2 -> t1 = t2 /\ n1 = n2.
Proof.
  intros t1 n1 t2 n2 H1 H2 E. pose proof (c25_roundtrip t1 n1 H1) as R1.
  rewrite E, c25_roundtrip in R1 by exact H2. now inversion R1.
Qed.

(* non-vacuity: a topic that itself contains "_s_", "t_" and digits *)
Example c25_witness :
  parse_wal_key (wal_key [116;95;95;115;95;57;95;115;95] 18446744073709551615)
  = Some ([116;95;95;115;95;57;95;115;95], 18446744073709551615).
Proof. vm_compute. reflexivity. Qed.

Check c25_roundtrip : forall (topic : str) (n : N), n < two64 ->
  parse_wal_key (wal_key topic n) = Some (topic, n).
Check c25_injective : forall t1 n1 t2 n2, n1 < two64 -> n2 < two64 ->
  wal_key t1 n1 = wal_key t2 n2 -> t1 = t2 /\ n1 = n2.
Print Assumptions c25_roundtrip.
Print Assumptions c25_injective.
