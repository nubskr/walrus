(* EngineRd.v — the read side of one topic.  First the moves of a reader's cursor over [TInvP] (EngineW.v: the
   invariant without the count clause, which the concurrent model shares): to an entry boundary of a
   sealed block, to a boundary of the writer block behind the chain; each gives the invariant and what
   is unread afterwards.  Then what one segment of a read does to the reader ([moved]): an exhausted block is
   stepped over, the next entry goes, should_persist counts; the concurrent read_next takes these one at a
   time, the sequential one walks ([rn_walk_moved]) and then reads as two legs ([read_next_legs]).  [TInv] adds
   the entry count, in one place ([Read_mk]). *)
From W Require Import model.Base model.Engine proofs.EngineWF proofs.EngineInv proofs.EnginePos proofs.EngineW.

(* the reader of [ts] is replaced by [r'] (and count and persisted position by anything) *)
Lemma TInvP_reader c nid ts r' cnt' idx' :
  TInvP c nid ts ->
  r_chain r' = chain_of ts ->
  r_tail_bid r' < nid ->
  CurOK c (chain_of ts) (r_idx r') (r_off r') ->
  ((r_idx r' < length (chain_of ts))%nat -> forall w, ts_writer ts = Some w -> r_tail_bid r' <> b_id w) ->
  (forall w, ts_writer ts = Some w ->
             okoff c (b_ents w) (if r_tail_bid r' =? b_id w then r_tail_off r' else 0)) ->
  r_hydrated r' = true ->
  TInvP c nid (mk_ts ts r' cnt' idx').
Proof.
  intros Hinv Hc1 Hc2 (Hc3 & Hc4 & Hc5) Hc6 Hc7 Hc8. destruct Hinv.
  constructor; unfold chain_of, w_list, tail_start, mk_ts in *; cbn [reader_of ts_reader ts_writer ts_poisoned ts_unmodelled ts_count ts_index] in *;
    try rewrite Hc1; auto.
  intros Hf. rewrite Hc8 in Hf. discriminate.
Qed.

(* The states a read leaves are [mk_ts ts r' ..] for a reader [r'] that differs from the old one in its
   cursor, its tail position and its counter only.  Two places to move the cursor to: an entry
   boundary of a sealed block (any block, from a cursor that was inside the chain already), and behind the
   chain, the tail position being a boundary of the writer block.  Each gives what is unread afterwards. *)
Lemma cursor_sealed c nid ts r' cnt' ix' i o b :
  TInvP c nid ts -> (r_idx (reader_of ts) < length (chain_of ts))%nat ->
  r_chain r' = chain_of ts -> r_hydrated r' = true ->
  r_tail_bid r' = r_tail_bid (reader_of ts) -> r_tail_off r' = r_tail_off (reader_of ts) ->
  r_idx r' = i -> r_off r' = o ->
  nth_error (chain_of ts) i = Some b -> okoff c (b_ents b) o ->
  let ts' := mk_ts ts r' cnt' ix' in
  TInvP c nid ts' /\
  unread c ts' = ents_from c (b_ents b) o ++ chain_ents (skipn (S i) (chain_of ts)) ++ w_ents ts /\
  PosIs ts' {| p_tail := false; p_a := N.of_nat i; p_off := o |}.
Proof.
  intros Hinv Hlt Hc Hh Hb Ho <- <- Hn Hok ts'. pose proof (nth_error_lt _ _ _ Hn) as Hil. split; [|split].
  - apply (TInvP_reader c nid ts r' cnt' ix' Hinv Hc).
    + rewrite Hb. exact (tp_tail_lt _ _ _ Hinv).
    + split; [apply Nat.lt_le_incl, Hil|]. split; [intros E; rewrite E in Hil; destruct (Nat.lt_irrefl _ Hil)|].
      intros b' Hb'. rewrite Hn in Hb'. injection Hb' as <-. exact Hok.
    + intros _ w Hw. rewrite Hb. exact (tp_sealed_tail _ _ _ Hinv Hlt w Hw).
    + rewrite Hb, Ho. exact (tp_tail _ _ _ Hinv).
    + exact Hh.
  - unfold ts'. rewrite unread_mk, Hc. destruct (skipn_nth_error _ _ _ Hn) as (rr & Hs). now rewrite Hs, (skipn_S_of _ _ _ _ Hs).
  - unfold PosIs, ts'. cbn [p_tail p_a p_off]. rewrite reader_of_mk, chain_of_mk, Hc. split; [reflexivity|]. split; [exact Hil|reflexivity].
Qed.

Lemma cursor_tail c nid ts r' cnt' ix' w o :
  TInvP c nid ts -> ts_writer ts = Some w ->
  r_chain r' = chain_of ts -> r_hydrated r' = true ->
  r_idx r' = length (chain_of ts) -> r_off r' = 0 ->
  r_tail_bid r' = b_id w -> r_tail_off r' = o -> okoff c (b_ents w) o ->
  let ts' := mk_ts ts r' cnt' ix' in
  TInvP c nid ts' /\ unread c ts' = ents_from c (b_ents w) o /\
  (b_ents w <> [] -> PosIs ts' {| p_tail := true; p_a := b_id w; p_off := o |}).
Proof.
  intros Hinv Hw Hc Hh Hi Ho Hb Hbo Hok ts'. split; [|split].
  - apply (TInvP_reader c nid ts r' cnt' ix' Hinv Hc).
    + rewrite Hb. apply (writer_ok c nid ts w Hinv Hw).
    + rewrite Hi, Ho. split; [apply Nat.le_refl|]. split; [reflexivity|]. intros b' Hb'. destruct (nth_error_len_none _ _ Hb').
    + rewrite Hi. intros E. destruct (Nat.lt_irrefl _ E).
    + intros w' Hw'. rewrite Hw in Hw'. injection Hw' as <-. now rewrite Hb, N.eqb_refl, Hbo.
    + exact Hh.
  - unfold ts'. rewrite unread_mk, Hc, Hi, skipn_all, Hw, Hb, N.eqb_refl, Hbo. reflexivity.
  - intros Hne. exists w. split; [exact Hw|]. unfold ts'.
    rewrite tail_start_mk, reader_of_mk, chain_of_mk, Hb, Hbo, N.eqb_refl, Hc. repeat split; assumption.
Qed.

(* with the cursor inside the chain the reader's place in the writer block is its front (the left side is
   EngineBR.tail_unread written out) *)
Lemma tail_from_front c nid ts : TInvP c nid ts -> (r_idx (reader_of ts) < length (chain_of ts))%nat ->
  match ts_writer ts with Some w => ents_from c (b_ents w) (tail_start ts w) | None => [] end = w_ents ts.
Proof.
  intros H Hl. unfold w_ents, tail_start. destruct (ts_writer ts) as [w|] eqn:Ew; [|reflexivity].
  rewrite (proj2 (N.eqb_neq _ _) (tp_sealed_tail _ _ _ H Hl w Ew)). apply ents_from_0.
Qed.

(* What is unread behind a cursor into the sealed chain, [W] being all of the writer block and [WT] what is unread of it
   once the cursor is behind the chain: at the front of the next block.  The match is EngineBR.UR written out
   ([UR c chain W WT (S i) 0]). *)
Lemma cursor_next c chain (W WT : list entry) i b rest :
  skipn i chain = b :: rest -> ((i < length chain)%nat -> WT = W) ->
  match rest with b1 :: r1 => ents_from c (b_ents b1) 0 ++ chain_ents r1 ++ W | [] => WT end = chain_ents rest ++ W.
Proof.
  intros Hs HWT. destruct rest as [|b1 r1]; [exact (HWT (skipn_len_lt _ _ _ _ Hs))|]. cbn [chain_ents flat_map]. now rewrite ents_from_0, <- app_assoc.
Qed.

(* The reader of [ts] is replaced by [r'], hydrated and over the same chain, and [dd] leaves the front
   of what is unread: EngineInv.Read without the entry count, which the concurrent model settles in a later segment. *)
Definition moved (c : Cfg) (nid : N) (ts : tstate) (r' : reader) (dd : list entry) : Prop :=
  TInvP c nid (with_reader ts r') /\ unread c ts = dd ++ unread c (with_reader ts r') /\
  r_hydrated r' = true /\ r_chain r' = chain_of ts.

Lemma moved_trans c nid ts r1 r2 d1 d2 :
  moved c nid ts r1 d1 -> moved c nid (with_reader ts r1) r2 d2 -> moved c nid ts r2 (d1 ++ d2).
Proof.
  intros (_ & B & _ & D) (A' & B' & C' & D'). split; [exact A'|]. split; [now rewrite B, B', app_assoc|]. split; [exact C'|exact (eq_trans D' D)].
Qed.

(* count and index do not matter to [TInvP] once the reader is hydrated *)
Lemma moved_inv c nid ts r' dd cnt' ix' : moved c nid ts r' dd -> TInvP c nid (mk_ts ts r' cnt' ix').
Proof.
  intros (A & _ & C & _).
  exact (TInvP_reader c nid (with_reader ts r') r' cnt' ix' A eq_refl (tp_tail_lt _ _ _ A) (tp_curok c nid _ A) (tp_sealed_tail _ _ _ A) (tp_tail _ _ _ A) C).
Qed.

(* [r] is the reader of [ts], named so that the lemmas apply to a state whose reader is known up to an
   equation.  A reader that differs in its persist counter or its hydration flag only: *)
Lemma moved_same c nid ts r r' : TInvP c nid ts -> reader_of ts = r ->
  r_chain r' = r_chain r /\ r_idx r' = r_idx r /\ r_off r' = r_off r /\ r_tail_bid r' = r_tail_bid r /\ r_tail_off r' = r_tail_off r ->
  r_hydrated r' = true -> moved c nid ts r' [].
Proof.
  intros Hinv <- (E1 & E2 & E3 & E4 & E5) E6.
  split; [|split; [|split; [exact E6|exact E1]]].
  - apply (TInvP_reader c nid ts r' (ts_count ts) (ts_index ts) Hinv E1); rewrite ?E2, ?E3, ?E4, ?E5;
      [apply (tp_tail_lt _ _ _ Hinv)|apply (tp_curok c nid ts Hinv)|apply (tp_sealed_tail _ _ _ Hinv)|apply (tp_tail _ _ _ Hinv)|exact E6].
  - change (with_reader ts r') with (mk_ts ts r' (ts_count ts) (ts_index ts)). rewrite unread_mk, E1, E2, E3, E4, E5. reflexivity.
Qed.

(* should_persist moves the persist counter only, whatever the reader did before *)
Lemma moved_persisted {c m nid ts r1 dd f r2 q} : should_persist m r1 f = (r2, q) -> moved c nid ts r1 dd -> moved c nid ts r2 dd.
Proof.
  intros Hsp M. pose proof M as (A & _ & D & _). pose proof (should_persist_fields m r1 f) as F. rewrite Hsp in F.
  rewrite <- (app_nil_r dd). apply (moved_trans c nid ts r1 r2 dd [] M), (moved_same c nid _ r1 r2 A eq_refl); [tauto|].
  now rewrite (proj2 (proj2 (proj2 (proj2 (proj2 F))))).
Qed.

(* an exhausted sealed block is stepped over: the next block, or the writer block behind the chain, is unread from its start *)
Lemma moved_adv c (Hh : 0 < c_hdr c) nid ts r b : TInvP c nid ts -> reader_of ts = r -> r_hydrated r = true ->
  nth_error (r_chain r) (r_idx r) = Some b -> b_used b <= r_off r ->
  moved c nid ts (set_cur r (S (r_idx r)) 0) [].
Proof.
  intros Hinv <- Hhy Hnth Hex. set (r := reader_of ts) in *. set (r' := set_cur r (S (r_idx r)) 0).
  assert (Hlt : (r_idx r < length (chain_of ts))%nat) by (eapply nth_error_lt; eauto).
  destruct (skipn_nth_error _ _ _ Hnth) as (rest & Hsk).
  destruct (proj1 (Forall_forall _ _) (tp_chain _ _ _ Hinv) b (nth_error_In _ _ Hnth)) as (Hbu & _).
  assert (Hnil : ents_from c (b_ents b) (r_off r) = []) by (apply ents_from_end; [exact Hh|lia]).
  split; [|split; [|split; [exact Hhy|reflexivity]]].
  - apply (TInvP_reader c nid ts r' (ts_count ts) (ts_index ts) Hinv eq_refl);
      [apply (tp_tail_lt _ _ _ Hinv)| |intros _; exact (tp_sealed_tail _ _ _ Hinv Hlt)|apply (tp_tail _ _ _ Hinv)|exact Hhy].
    split; [exact Hlt|]. split; [reflexivity|intros; apply okoff_0].
  - change (with_reader ts r') with (mk_ts ts r' (ts_count ts) (ts_index ts)). rewrite unread_mk. unfold unread, tail_start. fold r.
    cbn [r' set_cur r_chain r_idx r_off r_tail_bid r_tail_off app].
    rewrite Hsk, (skipn_S_of _ _ _ _ Hsk), Hnil. symmetry.
    apply (cursor_next c _ (w_ents ts) _ _ b rest Hsk). intros _. apply (tail_from_front c nid ts Hinv Hlt).
Qed.

Lemma moved_sealed c (Hh : 0 < c_hdr c) nid ts r b : TInvP c nid ts -> reader_of ts = r -> r_hydrated r = true ->
  nth_error (r_chain r) (r_idx r) = Some b -> r_off r < b_used b ->
  exists e, block_read c b (r_off r) = Some (e, need c e) /\ moved c nid ts (set_cur r (r_idx r) (r_off r + need c e)) [e].
Proof.
  intros Hinv <- Hhy Hnth Hlt.
  assert (Hil : (r_idx (reader_of ts) < length (chain_of ts))%nat) by (eapply nth_error_lt; eauto).
  destruct (skipn_nth_error _ _ _ Hnth) as (rs & Hsk).
  destruct (proj1 (Forall_forall _ _) (tp_chain _ _ _ Hinv) b (nth_error_In _ _ Hnth)) as (Hbu & _).
  destruct (entry_at c Hh _ _ (tp_cur _ _ _ Hinv b Hnth) ltac:(now rewrite <- Hbu)) as (e & re & Eef & Ev & Hok').
  exists e. split; [unfold block_read; now rewrite Ev|].
  set (r1 := set_cur _ _ _).
  destruct (cursor_sealed c nid ts r1 (ts_count ts) (ts_index ts) (r_idx (reader_of ts)) (r_off (reader_of ts) + need c e) b Hinv Hil eq_refl Hhy eq_refl eq_refl eq_refl eq_refl Hnth Hok') as (A & B & _).
  split; [exact A|]. split; [|split; [exact Hhy|reflexivity]].
  rewrite (B : unread c (with_reader ts r1) = _), (ents_from_step c Hh _ _ _ _ Eef). unfold unread, chain_of.
  now rewrite Hsk, Eef, (skipn_S_of _ _ _ _ Hsk).
Qed.

(* the next entry of the writer block goes, read through a snapshot [a] of the block that is still a prefix of it:
   below the snapshot's fill the tail position finds an entry of the snapshot, and the boundary behind it is one
   of the block *)
Lemma moved_snap c (Hh : 0 < c_hdr c) nid ts r w a suf off : TInvP c nid ts -> reader_of ts = r -> r_hydrated r = true ->
  r_idx r = length (r_chain r) ->
  ts_writer ts = Some w -> b_id a = b_id w -> b_ents w = b_ents a ++ suf -> b_used a = sum_need c (b_ents a) ->
  off = (if r_tail_bid r =? b_id a then r_tail_off r else 0) -> off < b_used a ->
  exists e, block_read c a off = Some (e, need c e) /\ moved c nid ts (set_tail r (b_id a) (off + need c e)) [e].
Proof.
  intros Hinv <- Hhy Hidl Hsome Hid Hpre Hau Hoff Hlt. rewrite Hid in Hoff. fold (tail_start ts w) in Hoff.
  pose proof (tp_tail _ _ _ Hinv w Hsome) as Hokw. rewrite <- Hoff in Hokw.
  assert (Hoka : okoff c (b_ents a) off).
  { rewrite Hpre in Hokw. apply (okoff_prefix c Hh _ suf); [exact Hokw|rewrite <- Hau; apply N.lt_le_incl, Hlt]. }
  destruct (entry_at c Hh _ _ Hoka ltac:(now rewrite <- Hau)) as (e & re & Eef & Ev & _).
  assert (Eefw : ents_from c (b_ents w) off = e :: re ++ suf).
  { rewrite Hpre, (ents_from_app c Hh (b_ents a) suf _ Hoka). now rewrite Eef. }
  exists e. split; [unfold block_read; now rewrite Ev|].
  set (r1 := set_tail _ _ _).
  destruct (cursor_tail c nid ts r1 (ts_count ts) (ts_index ts) w (off + need c e) Hinv Hsome eq_refl Hhy Hidl
              (tp_end _ _ _ Hinv Hidl) Hid eq_refl (okoff_step c Hh _ _ _ _ Hokw Eefw)) as (A & B & _).
  split; [exact A|]. split; [|split; [exact Hhy|reflexivity]].
  rewrite (B : unread c (with_reader ts r1) = _), (ents_from_step c Hh _ _ _ _ Eefw). unfold unread. change (r_chain (reader_of ts)) with (chain_of ts) in Hidl.
  now rewrite Hidl, skipn_all, Hsome, <- Hoff.
Qed.

(* rn_walk steps over the exhausted blocks: it stops on an unread entry of the sealed chain or behind the chain *)
Lemma rn_walk_moved c (Hh : 0 < c_hdr c) nid ts : forall rest r, moved c nid ts r [] -> skipn (r_idx r) (r_chain r) = rest ->
  let '(i, o, hit) := rn_walk rest (r_idx r) (r_off r) in
  moved c nid ts (set_cur r i o) [] /\
  match hit with Some b => nth_error (r_chain r) i = Some b /\ o < b_used b | None => i = length (r_chain r) end.
Proof.
  induction rest as [|b rest IH]; intros r M Hsk; cbn [rn_walk].
  - split; [destruct r; exact M|]. apply Nat.le_antisymm; [|exact (skipn_nil_ge _ _ Hsk)].
    exact (tp_idx _ _ _ (proj1 M)).
  - pose proof (nth_error_skipn _ _ _ _ Hsk) as Hn. destruct (b_used b <=? r_off r) eqn:E.
    + pose proof M as (A & _ & Hhy & _).
      pose proof (moved_trans c nid ts r _ [] [] M (moved_adv c Hh nid _ r b A eq_refl Hhy Hn (proj1 (N.leb_le _ _) E))) as M1.
      exact (IH _ M1 (skipn_S_of _ _ _ _ Hsk)).
    + split; [destruct r; exact M|]. split; [exact Hn|exact (proj1 (N.leb_gt _ _) E)].
Qed.

(* a move as a read: over [TInvP] the state after the move, what it has left unread, and the count, which is all
   that [TInv] adds *)
Lemma Read_mk c nid T r' cnt' ix' d L : r_chain r' = chain_of T -> r_hydrated r' = true ->
  let T' := mk_ts T r' cnt' ix' in
  TInvP c nid T' -> unread c T' = L -> unread c T = d ++ L -> cnt T' = N.of_nat (length L) -> Read c nid T d T'.
Proof.
  intros Hc Hh T' HP <- Hu Hcnt. constructor; [exact (TInvP_cnt c nid T' HP Hcnt)|apply stream_mk; exact Hc|reflexivity|exact Hc|exact Hh|exact Hu].
Qed.

Lemma moved_Read c nid ts r' d cnt' ix' : TInv c nid ts -> moved c nid ts r' d ->
  cnt (mk_ts ts r' cnt' ix') + N.of_nat (length d) = cnt ts -> Read c nid ts d (mk_ts ts r' cnt' ix').
Proof.
  intros Hinv M Hc. pose proof M as (_ & B & C & D). pose proof (ti_cnt _ _ _ Hinv) as Hcnt. rewrite B, app_length in Hcnt.
  apply (Read_mk c nid ts r' cnt' ix' d _ D C (moved_inv c nid ts r' d cnt' ix' M) eq_refl B).
  change (unread c (mk_ts ts r' cnt' ix')) with (unread c (with_reader ts r')). lia.
Qed.

Lemma moved_hydrated c nid ts : TInvP c nid ts -> moved c nid ts (set_hydrated (reader_of ts)) [].
Proof. intros HP. apply (moved_same c nid ts _ _ HP eq_refl); repeat split. Qed.

Lemma hydrated_read c nid ts : TInv c nid ts -> Read c nid ts [] (with_reader ts (set_hydrated (reader_of ts))).
Proof.
  intros Hinv. exact (moved_Read c nid ts _ [] (ts_count ts) (ts_index ts) Hinv (moved_hydrated c nid ts (TInv_P _ _ _ Hinv)) (N.add_0_r _)).
Qed.

Lemma legs_quiet c nid m bt ts T0 q0 : Read c nid ts [] T0 -> untouched ts T0 ->
  Leg c nid m bt ts [] false q0 T0 /\ Leg c nid m bt T0 [] false q0 T0.
Proof.
  intros H Hun. split; apply Leg_quiet; [exact H|exact Hun| |split; reflexivity].
  exact (Read_refl c nid T0 (rd_inv _ _ _ _ _ H) (rd_hyd _ _ _ _ _ H)).
Qed.

(* the leg on which one entry goes: the reader of [T] moves over it to [r4], whose cursor is [q]; an unforced
   [should_persist] returns [r5], and [q] is persisted if it said yes *)
Lemma consume_leg c nid m T r4 r5 p q e :
  TInv c nid T -> moved c nid T r4 [e] -> should_persist m r4 false = (r5, p) -> r_since r4 = r_since (reader_of T) ->
  PosIs (with_reader T r4) q ->
  Leg c nid m false T [e] p q (mk_ts T r5 (Some (cnt T - 1)) (if p then Some q else ts_index T)).
Proof.
  intros Hinv M Esp Hs Hq. pose proof (sp_unforced _ _ _ _ Esp) as Hsp. pose proof (ti_cnt _ _ _ Hinv) as Hc.
  rewrite (proj1 (proj2 M)) in Hc. cbn [app length] in Hc.
  constructor.
  - apply (moved_Read c nid T r5 [e] _ _ Hinv (moved_persisted Esp M)). change (cnt T - 1 + 1 = cnt T). lia.
  - now destruct p.
  - intros _. rewrite (sp_since _ _ _ _ _ Esp). exact Hq.
  - unfold Since. change (r_since (reader_of (mk_ts T r5 (Some (cnt T - 1)) (if p then Some q else ts_index T)))) with (r_since r5). rewrite <- Hs.
    destruct p; [exact Hsp|]. destruct Hsp as (n & Hm & H1 & H2). exists n. auto.
Qed.

(* read_next, any mode, as two legs.  The reader hydrates and walks to the next unread entry ([T0]); a
   consuming read that enters the writer block at its front persists that cursor first, forced (the
   provisional position); then one entry goes and an unforced [should_persist] decides. *)
Lemma read_next_legs c m s t ck nid : cfg_ok c ->
  TInv c nid (get_ts s (t_id t)) ->
  let ts := get_ts s (t_id t) in
  let d1 := firstn 1 (unread c ts) in
  exists T1 ts' f q1 p q,
    read_next c m s t ck = (set_ts s (t_id t) ts', answer (ORead t ck) d1) /\
    Leg c nid m false ts [] f q1 T1 /\ Leg c nid m false T1 (if ck then d1 else []) p q ts'.
Proof.
  intros (Hh & _) Hinv. cbv zeta. set (ts := get_ts s (t_id t)) in *. unfold read_next. fold ts.
  pose proof (TInv_P _ _ _ Hinv) as HP.
  rewrite (hydrate_eq _ _ false (ti_hyd _ _ _ Hinv)). set (rh := set_hydrated (reader_of ts)).
  pose proof (rn_walk_moved c Hh nid ts _ rh (moved_hydrated c nid ts HP) eq_refl) as Hw.
  cbv beta iota zeta. destruct (rn_walk _ _ _) as [[i o] hit]. cbv beta iota in Hw. destruct Hw as (M0 & Hhit).
  set (r3 := set_cur rh i o) in *. set (T0 := with_reader ts r3).
  set (q0 := {| p_tail := false; p_a := 0; p_off := 0 |}).
  pose proof (moved_Read c nid ts r3 [] (ts_count ts) (ts_index ts) Hinv M0 (N.add_0_r _)) as H0.
  destruct (legs_quiet c nid m false ts T0 q0 H0 (conj eq_refl eq_refl)) as (L1 & L2).
  pose proof (rd_inv _ _ _ _ _ H0) as Hinv0. pose proof (rd_unread _ _ _ _ _ H0 : _ = unread c T0) as U0.
  (* every read that hands out nothing, or only shows an entry, stores [T0] *)
  assert (Hq0 : forall res, res = answer (ORead t ck) (firstn 1 (unread c ts)) -> (if ck then firstn 1 (unread c ts) else []) = [] ->
            exists T1 ts' f q1 p q,
              (set_ts s (t_id t) T0, res) = (set_ts s (t_id t) ts', answer (ORead t ck) (firstn 1 (unread c ts))) /\
              Leg c nid m false ts [] f q1 T1 /\ Leg c nid m false T1 (if ck then firstn 1 (unread c ts) else []) p q ts').
  { intros res -> Hd. exists T0, T0, false, q0, false, q0. rewrite Hd. auto. }
  destruct hit as [b|].
  - destruct Hhit as (Hn & Hlt).
    destruct (moved_sealed c Hh nid T0 r3 b (TInv_P _ _ _ Hinv0) eq_refl eq_refl Hn Hlt) as (e & Hbr & M1).
    change (r_off r3) with o in Hbr. rewrite Hbr. pose proof (proj1 (proj2 M1)) as U1.
    destruct ck; [|apply Hq0; [now rewrite U0, U1|reflexivity]].
    destruct (should_persist m _ false) as [r5 p] eqn:Esp. rewrite U0, U1. cbn [app firstn answer].
    set (q := {| p_tail := false; p_a := N.of_nat i; p_off := o + need c e |}).
    eexists T0, _, false, q0, p, q. split; [|split; [exact L1|]].
    2:{ apply (consume_leg c nid m T0 _ r5 p q e Hinv0 M1 Esp eq_refl). split; [reflexivity|]. split; [exact (nth_error_lt _ _ _ Hn)|reflexivity]. }
    destruct p; reflexivity.
  - assert (UT : unread c ts = match ts_writer ts with Some w => ents_from c (b_ents w) (tail_start ts w) | None => [] end).
    { rewrite U0. unfold unread. change (r_idx (reader_of T0)) with i. rewrite Hhit, skipn_all. reflexivity. }
    destruct (ts_writer ts) as [w|] eqn:Ew; [|apply Hq0; rewrite UT; [reflexivity|now destruct ck]].
    rewrite (ti_poison _ _ _ Hinv).
    change (if r_tail_bid r3 =? b_id w then r_tail_off r3 else 0) with (tail_start ts w). set (start := tail_start ts w) in *.
    destruct (writer_ok c nid ts w HP Ew) as ((Hwu & _) & _).
    destruct (start <? b_used w) eqn:Elt.
    2:{ replace (ck && (start =? 0) && (0 <? b_used w)) with false by lia.
        rewrite (ents_from_end c Hh) in UT by (rewrite <- Hwu; apply N.ltb_ge; exact Elt).
        apply Hq0; rewrite UT; [reflexivity|now destruct ck]. }
    apply N.ltb_lt in Elt.
    assert (Hne : b_ents w <> []) by (intros E; rewrite E in Hwu; cbn in Hwu; lia).
    (* the entry at [start], read from a state [T1] reached on the first leg, whose reader [r4] is [r3] up to the counter *)
    assert (Hfin : forall r4 ix f q1, r4 = set_since r3 (r_since r4) -> Leg c nid m false ts [] f q1 (mk_ts ts r4 (ts_count ts) ix) ->
              exists e, block_read c w start = Some (e, need c e) /\ firstn 1 (unread c ts) = [e] /\
                forall r6 p, should_persist m (set_tail r4 (b_id w) (start + need c e)) false = (r6, p) ->
                  let q := {| p_tail := true; p_a := b_id w; p_off := start + need c e |} in
                  Leg c nid m false (mk_ts ts r4 (ts_count ts) ix) [e] p q (mk_ts ts r6 (Some (cnt ts - 1)) (if p then Some q else ix))).
    { intros r4 ix f q1 E4 LP. pose proof (lg_read _ _ _ _ _ _ _ _ _ LP) as R1. pose proof (rd_inv _ _ _ _ _ R1) as Hinv1.
      destruct (moved_snap c Hh nid _ r4 w w [] start (TInv_P _ _ _ Hinv1) eq_refl) as (e & Hbr & M1);
        [rewrite E4; reflexivity|rewrite E4; exact Hhit|exact Ew|reflexivity|symmetry; apply app_nil_r|exact Hwu|rewrite E4; reflexivity|exact Elt|].
      exists e. split; [exact Hbr|]. split; [now rewrite (rd_unread _ _ _ _ _ R1), (proj1 (proj2 M1))|].
      intros r6 p Esp q. apply (consume_leg c nid m _ _ r6 p q e Hinv1 M1 Esp eq_refl).
      exists w. split; [exact Ew|]. split; [reflexivity|]. split; [rewrite E4; exact Hhit|]. split; [|exact Hne].
      unfold tail_start. cbn. now rewrite N.eqb_refl. }
    destruct ck; cbn [andb].
    2:{ destruct (Hfin r3 (ts_index ts) false q0 eq_refl L1) as (e & -> & HU & _). apply Hq0; [now rewrite HU|reflexivity]. }
    destruct (start =? 0) eqn:E0; cbn [andb].
    + (* the provisional position (tail, w, 0) is the cursor of the reader that has walked to the front of [w] *)
      replace (0 <? b_used w) with true by lia.
      destruct (should_persist m r3 true) as [r' pf] eqn:Ef.
      destruct (sp_forced _ _ _ _ Ef) as (-> & Hsf). pose proof (sp_since _ _ _ _ _ Ef) as E4.
      set (q1 := {| p_tail := true; p_a := b_id w; p_off := start |}).
      assert (LP : Leg c nid m false ts [] true q1 (mk_ts ts r' (ts_count ts) (Some q1))).
      { constructor.
        - exact (moved_Read c nid ts r' [] _ _ Hinv (moved_persisted Ef M0) (N.add_0_r _)).
        - reflexivity.
        - intros _. exists w. split; [exact Ew|]. split; [reflexivity|]. split; [rewrite E4; exact Hhit|]. split; [rewrite E4; reflexivity|exact Hne].
        - exact Hsf. }
      destruct (Hfin r' (Some q1) true q1 E4 LP) as (e & -> & -> & Hleg).
      destruct (should_persist m _ false) as [r6 p]. cbn [answer].
      eexists _, _, true, q1, p, _. split; [|split; [exact LP|exact (Hleg r6 p eq_refl)]]. destruct p; reflexivity.
    + destruct (Hfin r3 (ts_index ts) false q0 eq_refl L1) as (e & -> & -> & Hleg).
      destruct (should_persist m _ false) as [r6 p]. cbn [answer].
      eexists _, _, false, q0, p, _. split; [|split; [exact L1|exact (Hleg r6 p eq_refl)]]. destruct p; reflexivity.
Qed.
