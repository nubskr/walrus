(* DurableI.v — files replaced by write-temporary / fsync / rename (the read-offset index):
   an invariant between the protocol monitor and the durability state, and its consequences:
   in every power-loss outcome the final name holds one COMPLETE version that was renamed onto
   it (never a torn one), and — when a directory fsync follows the rename before the read is
   acknowledged — a version not older than the acknowledged one.
   The invariant is one clause per pair ([IOne]); a step whose footprint ([dframe]) contains none
   of a pair's names keeps that pair's clause ([ione_dframe]), so each event is argued for the pair
   it names only. *)
From W Require Import model.Base model.Durable proofs.ListP proofs.DurableP proofs.DurableW.

Definition onino (j : N) (y : bool * (N * fop)) : bool := fst (snd y) =? j.
Lemma iops_onino s j : iops s j = filter (onino j) (d_fops s).
Proof. reflexivity. Qed.
(* inode j holds exactly version id; the flag [true] says the write is on disk, so every power-loss outcome
   keeps it *)
Definition isver (fops : list (bool * (N * fop))) (j id : N) : Prop :=
  exists len, filter (onino j) fops = [(true, (j, FWrite 0 len id))].

Lemma isver_fun fops j id id' : isver fops j id -> isver fops j id' -> id = id'.
Proof. intros (l & H) (l' & H'). rewrite H in H'. now inversion H'. Qed.

Lemma onino_sync i j l : filter (onino j) (sync_ino i l) = sync_ino i (filter (onino j) l).
Proof. apply (sync_ino_filter (fun z => fst z =? j)). Qed.

(* version v (0: none) was renamed onto x, the rename is on disk if [need], and every newer
   rename onto x carries a version that is not older *)
Definition renamed_at (s : dstate) (t x : N) (need : bool) (v : N) : Prop :=
  0 < v -> exists newer older b j,
    nops s x = newer ++ (b, DRename t x j) :: older /\ (need = true -> b = true) /\ isver (d_fops s) j v /\
    forall b' j', In (b', DRename t x j') newer -> exists id, isver (d_fops s) j' id /\ v <= id.

(* what the directory log says about final name x: every operation on it is a rename of t onto it, of an
   inode that holds a version and that only x can lead to; [ren] is the newest renamed version, [dur] the
   newest whose rename was followed by a directory fsync *)
Record IStat (s : dstate) (t x ren dur : N) : Prop := {
  is_ren : forall b d, In (b, d) (nops s x) -> exists j id, d = DRename t x j /\ isver (d_fops s) j id /\
           (0 < id /\ id <= ren) /\ forall g, vlook (d_vdir s) g = Some j -> g = x;
  is_last : renamed_at s t x false ren;
  is_dur : renamed_at s t x true dur }.
(* the temporary name: absent when idle, else a private inode holding exactly the version being written *)
Record ITmp (s : dstate) (t ph cur : N) : Prop := {
  it_ph0 : ph = 0 -> vlook (d_vdir s) t = None;
  it_ph : ph <> 0 -> exists j len b, vlook (d_vdir s) t = Some j /\
          filter (onino j) (d_fops s) = [(b, (j, FWrite 0 len cur))] /\ (ph = 2 -> b = true) /\ 0 < cur }.
Record IOne (s : dstate) (r : ist) : Prop := {
  io_ord : i_dur r <= i_ren r /\ i_ren r <= i_cur r;
  io_stat : IStat s (i_tmp r) (i_fin r) (i_ren r) (i_dur r);
  io_tmp : ITmp s (i_tmp r) (i_phase r) (i_cur r) }.

(* [WInv] (GInv of the durability state; WAL names are not pair names) is a hypothesis of the step
   lemma, not a field *)
Record IInv (fixed : bool) (m : dmstate) (s : dstate) : Prop := {
  ii_names : NoDup (map i_tmp (m_idx m) ++ map i_fin (m_idx m));
  ii_each : forall r, In r (m_idx m) -> IOne s r;
  ii_rack : forall x id, In (x, id) (m_racked m) ->
            exists r, In r (m_idx m) /\ i_fin r = x /\ 0 < id /\ id <= (if fixed then i_dur r else i_ren r) }.

Section Names.
  Context (l : list ist) (Hn : NoDup (map i_tmp l ++ map i_fin l)).
  Lemma names_tmp_fin r1 r2 : In r1 l -> In r2 l -> i_tmp r1 <> i_fin r2.
  Proof.
    intros H1 H2 E. destruct (proj1 (NoDup_app_iff _ _) Hn) as (_ & _ & C). apply (C (i_tmp r1)); [now apply in_map|rewrite E; now apply in_map].
  Qed.
  Lemma names_tmp_inj r1 r2 : In r1 l -> In r2 l -> i_tmp r1 = i_tmp r2 -> r1 = r2.
  Proof. destruct (proj1 (NoDup_app_iff _ _) Hn) as (A & _ & _). now apply NoDup_map_inj. Qed.
  Lemma names_fin_inj r1 r2 : In r1 l -> In r2 l -> i_fin r1 = i_fin r2 -> r1 = r2.
  Proof. destruct (proj1 (NoDup_app_iff _ _) Hn) as (_ & B & _). now apply NoDup_map_inj. Qed.
End Names.

Lemma in_upd_idx m g t r' : In r' (upd_idx m g t) -> exists r, In r (m_idx m) /\ r' = (if i_tmp r =? t then g r else r).
Proof. unfold upd_idx. intros H. apply in_map_iff in H as (r & <- & H). now exists r. Qed.
Lemma upd_idx_in m g t r : In r (m_idx m) -> In (if i_tmp r =? t then g r else r) (upd_idx m g t).
Proof. intros H. unfold upd_idx. apply in_map_iff. now exists r. Qed.

Lemma idx_names_split m : map i_tmp (m_idx m) = map fst (idx_names m) /\ map i_fin (m_idx m) = map snd (idx_names m).
Proof. unfold idx_names. rewrite !map_map. split; reflexivity. Qed.

(* The directory-side facts of a pair survive a step whose footprint does not contain the final name:
   its directory operations are the same, and an inode renamed onto x, which only x can lead to, is out
   of reach of the names of ns, so it has kept its file operations and no such name leads to it now. *)
Lemma istat_dframe s s' t x ren dur ns :
  IStat s t x ren dur -> GInv s -> dframe ns s s' -> ~ In x ns -> IStat s' t x ren dur.
Proof.
  intros [Iren Ilast Idur] G [V F Dn O] Hx. specialize (Dn x Hx).
  assert (Hj : forall b j id, In (b, DRename t x j) (nops s x) -> isver (d_fops s) j id ->
               isver (d_fops s') j id /\ forall g, vlook (d_vdir s') g = Some j -> g = x).
  { intros b j id H Hver. destruct (Iren _ _ H) as (j0 & _ & [= <-] & _ & _ & Hvd).
    assert (A : forall g, vlook (d_vdir s') g = Some j -> g = x).
    { intros g Hg. destruct (F _ _ Hg) as [Hg'|(Hn & [Hfr|(a & Ha & Hg')])]; [exact (Hvd _ Hg')| |].
      - apply filter_In in H as (H & _). pose proof (g_dlt _ G _ _ j H eq_refl). lia.
      - rewrite (Hvd _ Hg') in Ha. contradiction. }
    split; [|exact A]. destruct Hver as (len & Hl). exists len. rewrite <- Hl, <- !iops_onino. apply O. intros g Hg E. apply Hx. now rewrite <- (A g E). }
  assert (HR : forall need v, renamed_at s t x need v -> renamed_at s' t x need v).
  { intros need v R H. destruct (R H) as (newer & older & b & j & E & Hb & Hver & Hnew).
    assert (Hd : In (b, DRename t x j) (nops s x)) by (rewrite E; apply in_or_app; right; now left).
    exists newer, older, b, j. rewrite Dn. split; [exact E|]. split; [exact Hb|]. split; [exact (proj1 (Hj _ _ _ Hd Hver))|].
    intros b' j' Hd'. destruct (Hnew _ _ Hd') as (id & Hv' & Hle). exists id. split; [|exact Hle].
    refine (proj1 (Hj b' _ _ _ Hv')). rewrite E. apply in_or_app. now left. }
  constructor; [|exact (HR _ _ Ilast)|exact (HR _ _ Idur)].
  intros b d H. rewrite Dn in H. destruct (Iren _ _ H) as (j & id & -> & Hver & Hid & _).
  destruct (Hj _ _ _ H Hver) as (Hv' & A). now exists j, id.
Qed.

(* a directory fsync puts every rename on disk: the newest renamed version becomes the durable one *)
Lemma renamed_sync_dir s t x need need' v : renamed_at s t x need v -> renamed_at (dstep s ESyncDir) t x need' v.
Proof.
  intros R Hpos. destruct (R Hpos) as (newer & older & b & j & E & _ & Hver & Hnew).
  exists (sync_all newer), (sync_all older), true, j. split; [rewrite nops_sync_dir, E, sync_all_app; reflexivity|]. split; [reflexivity|].
  split; [assumption|]. intros b' j' Hd. apply in_sync_all in Hd as (_ & b2 & Hd). exact (Hnew _ _ Hd).
Qed.

Lemma istat_sync_dir s t x ren dur : IStat s t x ren dur -> IStat (dstep s ESyncDir) t x ren ren.
Proof.
  intros [Iren Ilast _]. constructor; [|exact (renamed_sync_dir _ _ _ _ _ _ Ilast)..].
  intros b d Hd. rewrite nops_sync_dir in Hd. apply in_sync_all in Hd as (_ & b' & Hd). exact (Iren _ _ Hd).
Qed.

Lemma itmp_dframe s s' t ph cur ns : ITmp s t ph cur -> GInv s' -> dframe ns s s' -> ~ In t ns -> ITmp s' t ph cur.
Proof.
  intros [Ip0 Ip] G' [V _ _ O] Ht. constructor; rewrite (V _ Ht); [exact Ip0|].
  intros H. destruct (Ip H) as (j & len & b & A & B & C). exists j, len, b. split; [exact A|]. split; [|exact C].
  rewrite <- B, <- !iops_onino. apply O. intros g Hg E. apply Ht. rewrite <- (V _ Ht) in A. now rewrite <- (g_inj _ G' _ _ _ E A).
Qed.

Lemma ione_dframe s s' r ns : IOne s r -> GInv s -> GInv s' -> dframe ns s s' -> ~ In (i_tmp r) ns -> ~ In (i_fin r) ns -> IOne s' r.
Proof.
  intros [Iord Is It] G G' D Ht Hx.
  constructor; [exact Iord|exact (istat_dframe _ _ _ _ _ _ _ Is G D Hx)|exact (itmp_dframe _ _ _ _ _ _ It G' D Ht)].
Qed.

Lemma names_step fixed m e m' : mstep_rel fixed m e m' ->
  NoDup (map i_tmp (m_idx m) ++ map i_fin (m_idx m)) -> NoDup (map i_tmp (m_idx m') ++ map i_fin (m_idx m')).
Proof.
  intros H. destruct (idx_names_split m') as (-> & ->). rewrite (mstep_idx_names _ _ _ _ H).
  now destruct (idx_names_split m) as (<- & <-).
Qed.

(* an event on names that belong to no pair, and a monitor step that leaves the pairs alone *)
Lemma iinv_foreign fixed m s m' e : IInv fixed m s -> GInv s -> m_idx m' = m_idx m -> m_racked m' = m_racked m ->
  e <> ESyncDir -> (forall g, In g (ev_names e) -> is_idx_name m g = false) -> IInv fixed m' (dstep s e).
Proof.
  intros [In1 Ie Ir] G Ei Er He Hn. constructor; rewrite ?Ei, ?Er; try assumption. intros r Hr.
  apply (ione_dframe s _ r (ev_names e)); auto using ginv_step, dstep_dframe;
    intros Hin; apply Hn in Hin; destruct (is_idx_in _ _ Hr); congruence.
Qed.

(* an event of pair i: the other pairs are out of its reach *)
Lemma iinv_upd_idx fixed m s e g i :
  IInv fixed m s -> GInv s -> In i (m_idx m) -> idx_step i e g -> IOne (dstep s e) (g i) ->
  IInv fixed (with_idx m (upd_idx m g (i_tmp i))) (dstep s e).
Proof.
  intros I G Hi Hs Hgi. pose proof (ii_names _ _ _ I) as Hn. destruct (idx_step_names _ _ _ Hs) as (Hns & He & Hg).
  assert (Hone : forall r, In r (m_idx m) -> i_tmp r = i_tmp i -> r = i) by (intros r Hr; exact (names_tmp_inj _ Hn r i Hr Hi)).
  constructor; cbn [m_idx m_racked with_idx]; [exact (names_step _ _ _ _ (ms_idx fixed _ _ _ _ Hi Hs) Hn)| |].
  - intros r' Hr'. apply in_upd_idx in Hr' as (r & Hr & ->).
    destruct (N.eqb_spec (i_tmp r) (i_tmp i)) as [E|Hne]; [now rewrite (Hone r Hr E)|].
    apply (ione_dframe s _ r (ev_names e)); auto using ginv_step, dstep_dframe, (ii_each _ _ _ I r Hr);
      intros Hin; apply Hns in Hin; destruct Hin as [E|[E|[]]].
    + apply Hne. congruence.
    + exact (names_tmp_fin _ Hn r i Hr Hi (eq_sym E)).
    + exact (names_tmp_fin _ Hn i r Hi Hr E).
    + apply Hne. f_equal. exact (names_fin_inj _ Hn r i Hr Hi (eq_sym E)).
  - intros x id Hx. destruct (ii_rack _ _ _ I _ _ Hx) as (r & Hr & Ex & Hpos & Hle).
    exists (if i_tmp r =? i_tmp i then g r else r). split; [now apply upd_idx_in|].
    destruct (N.eqb_spec (i_tmp r) (i_tmp i)) as [E|Hne]; [|auto]. rewrite (Hone r Hr E) in *.
    split; [rewrite <- Ex; exact (f_equal snd (Hg i))|]. split; [assumption|].
    pose proof (io_ord _ _ (ii_each _ _ _ I i Hi)). destruct Hs, fixed; cbn; lia.
Qed.

(* the inode j of the temporary name t, holding version cur, is renamed onto x *)
Lemma istat_rename s t x ren dur cur j :
  IStat s t x ren dur -> GInv s -> vlook (d_vdir s) t = Some j -> isver (d_fops s) j cur -> 0 < cur -> ren <= cur -> dur <= cur ->
  IStat (mkD (d_next s) ((x, j) :: vdel (vdel (d_vdir s) t) x) (d_fops s) ((false, DRename t x j) :: d_dops s)) t x cur dur.
Proof.
  intros [Iren Ilast Idur] G A Hver Hcur Hren Hdur. set (s' := mkD _ _ _ _).
  assert (En : nops s' x = (false, DRename t x j) :: nops s x).
  { unfold nops. cbn [s' d_dops filter snd touchesb]. now rewrite N.eqb_refl, orb_true_r. }
  assert (Hv : forall g j', vlook (d_vdir s') g = Some j' -> g = x \/ t <> g /\ vlook (d_vdir s) g = Some j').
  { intros g j'. cbn [s' d_vdir]. rewrite vlook_rename. destruct (N.eqb_spec x g); [now left|]. destruct (N.eqb_spec t g); [discriminate|now right]. }
  constructor.
  - intros b d Hd. rewrite En in Hd. destruct Hd as [[= <- <-]|Hd].
    + (* the inode that moves: t was its only name *)
      exists j, cur. do 2 (split; [easy|]). split; [lia|]. intros g Hg.
      destruct (Hv _ _ Hg) as [E|(Hn & Hg')]; [exact E|]. destruct Hn. exact (g_inj _ G _ _ _ A Hg').
    + destruct (Iren _ _ Hd) as (j' & id & -> & Hver' & Hid & Hvd). exists j', id. do 2 (split; [easy|]). split; [lia|]. intros g Hg.
      destruct (Hv _ _ Hg) as [E|(_ & Hg')]; [exact E|exact (Hvd _ Hg')].
  - intros _. exists [], (nops s x), false, j. split; [exact En|]. split; [discriminate|]. split; [assumption|]. intros b' j' [].
  - intros Hpos. destruct (Idur Hpos) as (newer & older & bD & jD & Edd & Hb & HverD & Hnew).
    exists ((false, DRename t x j) :: newer), older, bD, jD. split; [rewrite En, Edd; reflexivity|]. split; [exact Hb|]. split; [assumption|].
    intros b' j' [[= <- <-]|Hd]; [now exists cur|exact (Hnew _ _ Hd)].
Qed.

Lemma iinv_step fixed m s e m' : WInv m s -> IInv fixed m s -> mstep_rel fixed m e m' -> IInv fixed m' (dstep s e).
Proof.
  intros W I H. pose proof (wi_g _ _ W) as G. pose proof (ii_names _ _ _ I) as Hn. pose proof (names_step _ _ _ _ H Hn) as Hn'.
  destruct H as [f ? w' ? Hs|i ? g Hi Hs| |id _ _|i id Hi Hpos Hle].
  - (* a WAL event on f: a WAL file is no pair's *)
    destruct (wal_step_scope _ _ _ _ _ Hs) as (En & He & Ei & Er). apply (iinv_foreign _ m _ _ _ I G Ei Er He).
    rewrite En. intros g [<-|[]]. destruct Hs as [Hx _|? w Hf _ _|? ? ? ? w Hf _ _ _ _|w Hf]; [exact Hx|exact (proj1 (wi_one _ _ W _ _ Hf))..].
  - (* an event of pair i *) apply (iinv_upd_idx _ _ _ _ _ _ I G Hi Hs). pose proof (ii_each _ _ _ I i Hi) as [Iord Is It].
    assert (Hx : ~ In (i_fin i) [i_tmp i]) by (intros [E|[]]; exact (names_tmp_fin _ Hn i i Hi Hi E)).
    (* an event on the temporary name alone leaves the final name's clause as it is *)
    pose proof (istat_dframe s _ _ _ _ _ _ Is G (dstep_dframe s _ (proj1 (proj2 (idx_step_names _ _ _ Hs))))) as Hst.
    destruct Hs as [Ec|len id Eph Hlt|Eph]; (constructor; cbn [i_tmp i_fin i_phase i_cur i_ren i_dur]; [lia| |]).
    + (* ESyncFile *) exact (Hst Hx).
    + (* the one write of the temporary file reaches the disk *)
      destruct (it_ph _ _ _ _ It Ec) as (j & len & b & A & Bf & _ & Hcur).
      constructor; [discriminate|]. intros _. exists j, len, true. cbn [dstep]. rewrite A. cbn [d_vdir d_fops].
      rewrite onino_sync, Bf. cbn [sync_ino map fst snd]. rewrite N.eqb_refl, orb_true_r. auto.
    + (* ETmpWrite *) exact (Hst Hx).
    + (* the temporary name is unbound (phase 0) and gets a fresh inode holding exactly this write *)
      rewrite dstep_tmpwrite, (it_ph0 _ _ _ _ It Eph). constructor; [discriminate|]. intros _. exists (d_next s), len, false.
      cbn [d_vdir d_fops vlook filter]. rewrite N.eqb_refl. split; [reflexivity|]. split; [|split; [discriminate|lia]].
      unfold onino at 1. cbn [fst snd]. rewrite N.eqb_refl. f_equal. apply filter_none, Forall_forall. intros [b [k o]] Hin.
      apply N.eqb_neq. intros E. cbn [fst snd] in E. subst k. exact (N.lt_irrefl _ (g_flt _ G _ _ _ Hin)).
    + (* ERename: the synced temporary inode j moves to the final name *)
      destruct (it_ph _ _ _ _ It) as (j & len & b & A & Bf & C & Hcur); [lia|]. rewrite (C Eph) in Bf. cbn [dstep]. rewrite A.
      apply (istat_rename _ _ _ (i_ren i) _ _ _ Is G A); [now exists len|lia..].
    + (* the temporary name is unbound again *)
      destruct (it_ph _ _ _ _ It) as (j & _ & _ & A & _); [lia|]. cbn [dstep]. rewrite A.
      constructor; [|intros; contradiction]. intros _. cbn [d_vdir]. rewrite vlook_rename.
      destruct (N.eqb_spec (i_fin i) (i_tmp i)) as [E|_]; [|now rewrite N.eqb_refl]. destruct Hx. now left.
  - (* ESyncDir: every rename is on disk now, so the newest renamed version is durable *)
    cbn [m_idx dstep] in *.
    set (g := fun i0 : ist => mkI (i_tmp i0) (i_fin i0) (i_phase i0) (i_cur i0) (i_ren i0) (i_ren i0)) in *.
    constructor; cbn [m_idx m_racked]; [exact Hn'| |].
    + intros r' Hr'. apply in_map_iff in Hr' as (r & <- & Hr). destruct (ii_each _ _ _ I r Hr) as [(_ & Io) Is [Ip0 Ip]].
      constructor; cbn [g i_tmp i_fin i_phase i_cur i_ren i_dur];
        [split; [apply N.le_refl|exact Io]|exact (istat_sync_dir _ _ _ _ _ Is)|constructor; assumption].
    + intros x id Hx. destruct (ii_rack _ _ _ I _ _ Hx) as (r & Hr & Ex & Hpos & Hle).
      exists (g r). split; [now apply in_map|]. split; [exact Ex|]. split; [exact Hpos|].
      pose proof (io_ord _ _ (ii_each _ _ _ I r Hr)). cbn. destruct fixed; lia.
  - (* EAck *) apply (iinv_foreign _ m _ _ _ I G); auto; [discriminate|intros g []].
  - (* EAckRead *) constructor; cbn [m_idx m_racked]; [exact Hn'|exact (ii_each _ _ _ I)|].
    intros x0 id0 [E|Hx]; [|exact (ii_rack _ _ _ I _ _ Hx)]. inversion E; subst x0 id0. now exists i.
Qed.

Lemma iinv_init fixed pairs : pairs_ok pairs = true -> IInv fixed (dm_init pairs) d_init.
Proof.
  intros Hp. constructor; cbn.
  - rewrite 2 map_map. apply nodup_n_NoDup. exact Hp.
  - intros r Hr. apply in_map_iff in Hr as ([t x] & <- & _). cbn.
    constructor; cbn; [lia| |].
    + constructor; cbn; try (intros; contradiction); intros H; destruct (N.lt_irrefl _ H).
    + constructor; cbn; [reflexivity|intros; contradiction].
  - intros x id [].
Qed.

Lemma outcome_version s o x j id :
  isver (d_fops s) j id -> admissible s o -> dlook (o_dops o) x = Some j -> holds_version o x id.
Proof.
  intros (len & H) (Ha & _) Hx. exists j, len. split; [exact Hx|].
  pose proof (adm_filter (fun z : N * fop => fst z =? j) _ _ Ha) as Hf. change (filter _ (d_fops s)) with (filter (onino j) (d_fops s)) in Hf.
  rewrite H in Hf. apply adm_single_true in Hf. unfold ino_ops. now rewrite Hf.
Qed.

(* of the operations on the final name an outcome keeps the newest decides; it is a rename of the pair, and its
   inode holds a version *)
Lemma iinv_old_or_new fixed m s r o : IInv fixed m s -> In r (m_idx m) -> admissible s o ->
  dlook (o_dops o) (i_fin r) = None \/ exists id, holds_version o (i_fin r) id /\ 0 < id /\ id <= i_ren r.
Proof.
  intros I Hr Hadm. pose proof Hadm as (_ & Ad). pose proof (io_stat _ _ (ii_each _ _ _ I r Hr)) as [Iren _ _].
  apply (adm_filter (touchesb (i_fin r))) in Ad. pose proof (dlook_find (o_dops o) (i_fin r)) as Hd.
  destruct (filter (touchesb (i_fin r)) (o_dops o)) as [|d l]; [now left|right].
  destruct (adm_sub _ _ d Ad (or_introl eq_refl)) as (b & Hb). destruct (Iren _ _ Hb) as (j & id & -> & Hv & Hid & _).
  cbn [hd_error dres] in Hd. rewrite N.eqb_refl in Hd. exists id. split; [exact (outcome_version _ _ _ _ _ Hv Hadm Hd)|exact Hid].
Qed.

(* with a directory fsync between rename and acknowledgement: not older than any acknowledged version *)
Lemma iinv_durable m s x id o : IInv true m s -> In (x, id) (m_racked m) -> admissible s o ->
  exists id', holds_version o x id' /\ id <= id'.
Proof.
  intros I Hx Hadm. pose proof Hadm as (_ & Ad). destruct (ii_rack _ _ _ I _ _ Hx) as (r & Hr & <- & Hpos & Hle).
  pose proof (io_stat _ _ (ii_each _ _ _ I r Hr)) as [Iren _ Idur].
  (* cut the log of the final name at the flagged rename of version i_dur r: the outcome keeps that rename, so the
     newest operation on the name it keeps is that rename or a newer one, whose version is not older *)
  destruct Idur as (newer & older & b & jD & E & Hb & Hver & Hnew); [lia|]. rewrite (Hb eq_refl) in E. clear Hb b.
  apply (adm_filter (touchesb (i_fin r))) in Ad. pose proof (dlook_find (o_dops o) (i_fin r)) as Hd.
  unfold nops in E. rewrite E in Ad. apply adm_app_inv in Ad as (o1 & o2' & Eo & A1 & A2). rewrite Eo in Hd.
  inversion A2 as [|b' x' l' o2 A2'|]; subst. destruct o1 as [|d o1]; cbn [app hd_error] in Hd.
  - cbn [dres] in Hd. rewrite N.eqb_refl in Hd. exists (i_dur r). split; [exact (outcome_version _ _ _ _ _ Hver Hadm Hd)|exact Hle].
  - destruct (adm_sub _ _ d A1 (or_introl eq_refl)) as (b & Hb).
    destruct (Iren b d) as (j' & _ & -> & _); [unfold nops; rewrite E; apply in_or_app; now left|].
    destruct (Hnew _ _ Hb) as (id' & Hv' & Hle'). cbn [dres] in Hd. rewrite N.eqb_refl in Hd.
    exists id'. split; [exact (outcome_version _ _ _ _ _ Hv' Hadm Hd)|lia].
Qed.

(* newest version of final name x renamed so far, read off the protocol monitor (0: none) *)
Definition newest_renamed (fixed : bool) (pairs : list (N * N)) (tr : list ev) (x : N) : N :=
  match dmrun fixed (dm_init pairs) tr with
  | Some m => match find (fun i => i_fin i =? x) (m_idx m) with Some r => i_ren r | None => 0 end
  | None => 0
  end.

Lemma dmrun_has_pair fixed pairs tr m t x : dmrun fixed (dm_init pairs) tr = Some m -> In (t, x) pairs ->
  exists r, In r (m_idx m) /\ i_tmp r = t /\ i_fin r = x.
Proof.
  intros H Hin.
  assert (Hn : idx_names m = idx_names (dm_init pairs)).
  { refine (dmrun_ind fixed (fun m1 _ => idx_names m1 = idx_names (dm_init pairs)) _ tr _ d_init _ eq_refl H).
    intros m1 _ e m2 E H1. now rewrite (mstep_idx_names _ _ _ _ H1). }
  assert (Hp : In (t, x) (idx_names m)).
  { rewrite Hn. unfold idx_names, dm_init. cbn. rewrite map_map. cbn. apply in_map_iff. exists (t, x). split; [reflexivity|assumption]. }
  unfold idx_names in Hp. apply in_map_iff in Hp as (r & E & Hr). inversion E. eauto.
Qed.

Lemma newest_renamed_is fixed pairs tr m r : dmrun fixed (dm_init pairs) tr = Some m ->
  NoDup (map i_tmp (m_idx m) ++ map i_fin (m_idx m)) -> In r (m_idx m) -> newest_renamed fixed pairs tr (i_fin r) = i_ren r.
Proof.
  intros E Hn Hr. unfold newest_renamed. rewrite E. destruct (find (fun i => i_fin i =? i_fin r) (m_idx m)) as [r'|] eqn:Ef.
  - destruct (find_eqb _ _ _ _ Ef) as (Hr' & Ex). now rewrite (names_fin_inj _ Hn r' r Hr' Hr Ex).
  - apply (find_none _ _ Ef) in Hr. cbn in Hr. rewrite N.eqb_refl in Hr. discriminate.
Qed.

Lemma proto_inv fixed pairs tr k : proto_ok fixed pairs tr = true ->
  exists m, dmrun fixed (dm_init pairs) (firstn k tr) = Some m /\
            WInv m (drun (firstn k tr)) /\ IInv fixed m (drun (firstn k tr)).
Proof.
  unfold proto_ok. intros H. apply andb_prop in H as (Hp & H). destruct (dmrun fixed (dm_init pairs) tr) as [m'|] eqn:E'; [|discriminate].
  destruct (dmrun_firstn _ _ k _ _ E') as (m & E). exists m. split; [exact E|].
  apply (dmrun_ind fixed (fun m s => WInv m s /\ IInv fixed m s)) with (m := dm_init pairs) (s := d_init) in E; [exact E| |].
  - intros m0 s e m1 (W & I) Hs. split; [exact (winv_step _ _ _ _ _ W Hs)|exact (iinv_step _ _ _ _ _ W I Hs)].
  - split; [apply winv_init|now apply iinv_init].
Qed.

(* the witness of props/C10.v, c10_refuted_index_rename_not_synced.  Without the directory fsync after the
   rename ([proto_ok false]): the read is acknowledged, the rename is lost, the OLD index survives —
   a StrictlyAtOnce consumer reads the entry again *)
Definition refute_pairs : list (N * N) := [(100, 101)].
Definition refute_trace : list ev :=
  [ETmpWrite 100 44 1; ESyncFile 100; ERename 100 101; EAckRead 101 1;
   ETmpWrite 100 44 2; ESyncFile 100; ERename 100 101; EAckRead 101 2].
(* directory log, newest first: rename#2, link#2, rename#1, link#1 — keep only link#1 and rename#1 *)
Definition refute_outcome : outcome := pick_outcome [] [false; false; true; true] (drun refute_trace).

(* and the final name can be absent altogether when no rename ever reached the disk *)
Lemma index_can_be_absent :
  exists o, admissible (drun refute_trace) o /\ version_of o 101 = None.
Proof. exists (pick_outcome [] [] (drun refute_trace)). split; [apply pick_outcome_admissible|vm_compute; reflexivity]. Qed.
