(* EngineP3L.v — a persisted position that may LAG behind the consumer (AtLeastOnce mode, and any
   mode): what lies behind it is what is unread, preceded by entries already delivered ([pre]); it
   is never AHEAD of the consumer ([PLag]: EngineP3.LagAt with [pre] quantified inside, PLag_LagAt).  What lies
   behind a position is a suffix of the whole stream ([Lag_suffix]). *)
From W Require Import model.Base model.Engine proofs.EngineWF proofs.EngineInv proofs.EnginePos proofs.EngineP3.

Definition PLag (c : Cfg) (T : tstate) (p : ppos) : Prop :=
  exists j b pre, nth_error (memne T) j = Some b /\
    (if p_tail p then b_id b = p_a p else p_a p = N.of_nat j /\ (j < length (chain_of T))%nat) /\
    okoff c (b_ents b) (p_off p) /\
    from c (memne T) j (p_off p) = pre ++ unread c T.

Lemma PLag_LagAt c T p : PLag c T p <-> exists pre, LagAt c T p pre.
Proof.
  split.
  - intros (j & b & pre & A). exists pre, j, b. exact A.
  - intros (pre & j & b & A). exists j, b, pre. exact A.
Qed.

Lemma chain_ents_firstn_skipn l j : chain_ents l = chain_ents (firstn j l) ++ chain_ents (skipn j l).
Proof. rewrite <- chain_ents_app. now rewrite firstn_skipn. Qed.

Lemma from_suffix c M j b o : nth_error M j = Some b -> exists k, from c M j o = skipn k (chain_ents M).
Proof.
  intros Hb. unfold from. rewrite (nth_error_split_skipn _ _ _ Hb).
  destruct (ents_from_suffix c (b_ents b) o) as (k & Hkl & Hk). rewrite Hk.
  rewrite (chain_ents_firstn_skipn M j), (nth_error_split_skipn _ _ _ Hb).
  change (chain_ents (b :: skipn (S j) M)) with (b_ents b ++ chain_ents (skipn (S j) M)).
  exists (length (chain_ents (firstn j M)) + k)%nat. rewrite skipn_app_2.
  now rewrite skipn_app_le by exact Hkl.
Qed.

Lemma Lag_suffix c T pre : Lag c T pre -> exists k, pre ++ unread c T = skipn k (stream T).
Proof.
  unfold Lag. destruct (ts_index T) as [p|]; [|intros ->; now exists 0%nat].
  intros (j & b & Hb & _ & _ & <-). rewrite <- chain_ents_memne. exact (from_suffix c _ j b _ Hb).
Qed.
