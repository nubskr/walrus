(* EngineGenR.v — a clean restart in ANY mode re-establishes the invariant GM of EngineGen.v with a
   ledger whose consumer positions moved BACK to the persisted positions (never forward), outside
   block-id drift: the step a ledger run (AloAccP.v) takes at a restart. *)
From W Require Import model.Base model.Engine spec.Queue proofs.EngineWF proofs.EngineInv proofs.AloAccP
  proofs.EngineNorm proofs.EngineReopen proofs.EngineP3L proofs.EngineGen.

(* [l] is the appended stream, [skipn d l] what was unread before the restart, [skipn k l] what is unread after it
   ([k] may lie beyond the end) *)
Lemma skipn_back_to {A} (l : list A) k d : (d <= length l)%nat -> (length (skipn d l) <= length (skipn k l))%nat ->
  skipn (length l - length (skipn k l)) l = skipn k l /\ (length l - length (skipn k l) <= d)%nat.
Proof.
  intros Hd Hlen. rewrite !skipn_length in *. split; [|lia].
  destruct (Nat.le_gt_cases k (length l)) as [Hle|Hgt]; [f_equal; lia|].
  replace (length l - (length l - k))%nat with (length l) by lia. rewrite skipn_all. symmetry. apply skipn_all2. lia.
Qed.

(* one topic across a restart: the consumer resumes at the persisted position, which lags by [pre];
   the ledger is rolled back by as much *)
Lemma TGM_reopen c nid nid' ts ts' l l' B Bb :
  TGM c nid ts l B Bb -> Reopened c nid' ts ts' ->
  l_app l' = l_app l -> l_del l' = (length (l_app l) - length (unread c (nrm false ts')))%nat ->
  TGM c nid' ts' l' B Bb /\ (l_del l' <= l_del l)%nat.
Proof.
  intros (Hsc & Hx) HR Hla Hld.
  destruct (Hx false) as (Hti & Hlg & Hdl & Hs & Hu & Hb1 & Hb2). apply LG_Lag in Hlg. destruct Hlg as (_ & pre & HL).
  destruct (HR nid false pre Hti HL) as (Hsc' & Hst & Hnew). rewrite nrm_stream in Hs.
  (* whichever flavour hydrates, what is unread afterwards is one and the same suffix of the stream: the lag, then
     what was unread before *)
  destruct (Lag_suffix c _ [] (proj1 (proj2 (proj2 (Hnew false))))) as (k & Hk). cbn [app] in Hk. rewrite nrm_stream, Hst, Hs in Hk.
  assert (Hun : forall x, unread c (nrm x ts') = skipn k (l_app l)).
  { intros x. rewrite <- Hk. now rewrite (proj2 (proj2 (proj2 (Hnew x)))), (proj2 (proj2 (proj2 (Hnew false)))). }
  destruct (skipn_back_to (l_app l) k (l_del l) Hdl) as (Hsk & Hle).
  { rewrite <- (Hun false), (proj2 (proj2 (proj2 (Hnew false)))), Hu, app_length. lia. }
  rewrite (Hun false) in Hld. rewrite <- Hld in Hsk, Hle.
  split; [|exact Hle]. split; [exact Hsc'|]. intros x. destruct (Hnew x) as (A1 & A2 & A3 & _).
  split; [exact A1|]. split; [apply LG_Lag; eauto|]. rewrite Hla. split; [rewrite Hld; lia|].
  split; [now rewrite nrm_stream, Hst|]. split; [|split; assumption]. now rewrite Hun.
Qed.

(* a ledger entry rolled back to what is unread after the restart; the flavour [false] is arbitrary: both hydrate to
   the same unread entries (Reopened_Lag) *)
Definition rbl (c : Cfg) (s : st) (q : N * ledger) : N * ledger :=
  (fst q, {| l_app := l_app (snd q);
             l_del := length (l_app (snd q)) - length (unread c (nrm false (get_ts (reopen c s) (fst q)))) |}).

Lemma lget_rbl c s g t :
  lget (map (rbl c s) g) t =
  {| l_app := l_app (lget g t);
     l_del := length (l_app (lget g t)) - length (unread c (nrm false (get_ts (reopen c s) t))) |}.
Proof.
  unfold lget. rewrite (find_map_key (rbl c s) t (fun p => eq_refl)).
  destruct (find (fun p => fst p =? t) g) as [[k l]|] eqn:Ef; cbn [option_map snd].
  - destruct (find_eqb fst _ _ _ Ef) as (_ & Hk). cbn in Hk. subst k. reflexivity.
  - reflexivity.
Qed.

Theorem GM_reopen c s g B Bb : cfg_ok c -> GM c s g B Bb -> id_drift c s = false ->
  GM c (reopen c s) (map (rbl c s) g) B Bb /\ RB g (map (rbl c s) g).
Proof.
  intros Hc (Hn & Hd & Hb & Hl & Hall) Hdrift.
  destruct (reopen_disk c s Hc Hd Hb Hl) as (Hn' & Hd' & Hb' & Hl').
  assert (Htopic : forall t, TGM c (a_next (s_alloc (reopen c s))) (get_ts (reopen c s) t) (lget (map (rbl c s) g) t) B Bb /\
                             (l_del (lget (map (rbl c s) g) t) <= l_del (lget g t))%nat).
  { intros t. rewrite lget_rbl.
    apply (TGM_reopen c _ _ _ _ (lget g t) _ B Bb (Hall t) (reopen_Reopened c s t Hc Hd Hb Hl Hdrift)); reflexivity. }
  split; [|intros t; split; [now rewrite lget_rbl|exact (proj2 (Htopic t))]].
  exact (conj Hn' (conj Hd' (conj Hb' (conj Hl' (fun t => proj1 (Htopic t)))))).
Qed.
