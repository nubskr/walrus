(* EngineIdx.v — in StrictlyAtOnce mode [should_persist] always answers yes and returns the reader it was given. *)
From W Require Import model.Engine.

Lemma sp_strict r f : should_persist Strict r f = (r, true).
Proof. reflexivity. Qed.
