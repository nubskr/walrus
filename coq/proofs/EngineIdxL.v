(* EngineIdxL.v — a counterexample: in AtLeastOnce mode the position a read_next leaves in the index need
   not be the cursor of the reader it leaves behind. *)
From W Require Import model.Base model.Engine proofs.EngineWF proofs.EngineInv proofs.EnginePos.

(* Why a read_next is two legs (EngineBR.read_exact): the two-way conclusion "the persisted position is unchanged or is
   the cursor of the reader the read leaves behind" is FALSE for read_next in mode ALO n with 2 <= n: a fresh topic
   whose writer block holds one entry, consuming read.  The provisional persist writes (tail, 1, 0); the read then
   moves the tail cursor to [need] without persisting. *)
Definition cx_cfg : Cfg :=
  {| c_block := 64; c_bpf := 4; c_max_alloc := 1024; c_hdr := 8; c_max_entries := 10; c_max_bytes := 1000;
     c_small := 128; c_overflow_checks := true |}.
Definition cx_e : entry := {| e_pid := 0; e_len := 1 |}.
Definition cx_w : blk := {| b_id := 1; b_file := 0; b_off := 0; b_limit := 64; b_used := 9; b_ents := [cx_e] |}.
Definition cx_ts : tstate :=
  {| ts_reader := None; ts_writer := Some cx_w; ts_poisoned := false; ts_count := Some 1; ts_index := None;
     ts_unmodelled := false |}.
Definition cx_s : st :=
  {| s_topics := [(1, cx_ts)]; s_alloc := {| a_next := 2; a_file := 0; a_off := 0 |}; s_disk := []; s_files := 0 |}.
Definition cx_t : topic := {| t_id := 1; t_nlen := 1 |}.

Lemma cx_cfg_ok : cfg_ok cx_cfg.
Proof. unfold cfg_ok. repeat split; try reflexivity; vm_compute; discriminate. Qed.

Lemma cx_inv : TInv cx_cfg 2 (get_ts cx_s (t_id cx_t)).
Proof.
  change (get_ts cx_s (t_id cx_t)) with cx_ts.
  constructor.
  - (* ti_poison *) reflexivity.
  - (* ti_unm *) reflexivity.
  - (* ti_chain *) constructor.
  - (* ti_writer *) constructor; [|constructor]. unfold bwf. repeat split; vm_compute; try reflexivity; discriminate.
  - (* ti_nodup *) cbn. repeat constructor. intros [].
  - (* ti_ids *) repeat constructor.
  - (* ti_tail_lt *) vm_compute. reflexivity.
  - (* ti_idx *) vm_compute. lia.
  - (* ti_end *) reflexivity.
  - (* ti_cur *) intros b Hb. vm_compute in Hb. discriminate.
  - (* ti_sealed_tail *) vm_compute. lia.
  - (* ti_tail *) intros w Hw. inversion Hw; subst w. reflexivity.
  - (* ti_hyd *) reflexivity.
  - (* ti_cnt *) reflexivity.
Qed.

Lemma read_next_two_way_false :
  ~ (forall c m s t ck nid, cfg_ok c -> TInv c nid (get_ts s (t_id t)) ->
       let ts := get_ts s (t_id t) in
       exists ts' res, read_next c m s t ck = (set_ts s (t_id t) ts', res) /\
         (ts_index ts' = ts_index ts \/ (exists p, ts_index ts' = Some p /\ PosIs ts' p))).
Proof.
  intros H. destruct (H cx_cfg (ALO 2) cx_s cx_t true 2 cx_cfg_ok cx_inv) as (ts' & res & Heq & Hidx).
  vm_compute in Heq. injection Heq as Hts _. subst ts'.
  destruct Hidx as [Hi|(p & Hp & Hpos)]; [discriminate|].
  injection Hp as <-. destruct Hpos as (w & Hw & _ & _ & Hoff & _).
  injection Hw as <-. vm_compute in Hoff. discriminate.
Qed.
