(* EngineRestartW.v — StrictlyAtOnce: every restart-free operation keeps the invariant G of
   EngineRestart.v, and keeps every persisted position good (PG, with the restart: EngineC06.G_PG_step).  Both
   are instances of EngineRestart.GQ_op; what is proved here is what a Strict operation makes of the position
   clause of its topic in the hydrated world ([strict_topic]). *)
From W Require Import model.Base model.Engine spec.Queue proofs.EngineWF proofs.EngineW proofs.EngineMain
  proofs.EnginePos proofs.EngineGrow proofs.EngineP3 proofs.EngineRestart.

(* one leg of a Strict read: the cursor is persisted, or nothing was consumed and the position stays *)
Lemma P3_leg c nid bt T d b q T' : 0 < c_hdr c -> Leg c nid Strict bt T d b q T' -> P3 c nid T ->
  P3 c nid T' /\ (QPG c nid T -> QPG c nid T').
Proof.
  (* the pattern follows the fields of Leg (EnginePos.v) and, inside, of Read (EngineInv.v) *)
  intros Hh [[Hinv' _ Hw Hc _ Hu] Hi Hp Hs] Hp3.
  assert (Hcne : CNE T') by (unfold CNE; rewrite Hc; exact (proj1 Hp3)).
  destruct b.
  - (* persisted: the position is the cursor *)
    pose proof (posis_PGood c nid T' q Hh Hinv' Hcne (Hp eq_refl)) as Hq.
    split; [split; [exact Hcne|rewrite Hi; now left]|]. intros _ p0 Hp0. rewrite Hi in Hp0. now injection Hp0 as <-.
  - (* not persisted: in Strict mode nothing was consumed *)
    unfold Since in Hs. destruct d as [|e d]; [|destruct Hs as (n & [=] & _)]. cbn [app] in Hu. symmetry in Hu.
    split; [exact (P3_ext c nid T T' Hc Hw Hi Hu Hp3)|].
    intros Hpg p0 Hp0. rewrite Hi in Hp0. exact (PGood_ext c T T' p0 Hc Hw Hu (Hpg p0 Hp0)).
Qed.

(* a Strict operation on a hydrated state: the position clause of its topic, and "every position good" (QPG does not
   look at its id argument; 0 stands for any) *)
Lemma strict_topic c be S o : cfg_ok c -> GInv c S -> op_ok c o ->
  P3 c (a_next (s_alloc S)) (get_ts S (otopic o)) ->
  P3 c (a_next (s_alloc (fst (step (env_of c Strict be) S o)))) (get_ts (fst (step (env_of c Strict be) S o)) (otopic o)) /\
  (QPG c 0 (get_ts S (otopic o)) -> QPG c 0 (get_ts (fst (step (env_of c Strict be) S o)) (otopic o))).
Proof.
  intros Hc Hg Hok HP. pose proof Hc as (Hh & _). pose proof Hg as (Hn & Hti).
  destruct (topic_op c Strict be S o Hc Hg Hok) as [(t & ck & T1 & d & f & q1 & p & q & _ & L1 & L2 & -> & _)|[(es & Hrun & _)|(-> & ->)]]; [| |auto].
  - (* a stateful read: two legs *)
    destruct (P3_leg c _ _ _ _ f q1 T1 Hh L1 HP) as (A1 & B1). destruct (P3_leg c _ _ _ _ p q _ Hh L2 A1) as (A2 & B2). auto.
  - (* a write: the topic grows behind the position *)
    pose proof (TInv_P _ _ _ (Hti (otopic o))) as HT. split; [exact (WRun_P3 c Hh _ _ _ _ _ Hn HT Hrun HP)|].
    intros Hpg p Hp. destruct (WRun_grows c Hh _ _ _ _ _ Hn HT Hrun) as (Hg' & Hes & Hun & Hi). rewrite Hi in Hp.
    exact (PGood_grow c Hh _ _ p es Hg' Hes Hun (Hpg p Hp)).
Qed.

Lemma G_step c be s g B Bb o : cfg_ok c -> G c s g B Bb -> op_ok c o ->
  B + N.of_nat (length (offered o)) <= u64_max -> Bb + sum_len (offered o) <= u64_max ->
  let '(s', r) := step (env_of c Strict be) s o in
  c01_step_ok g o r = true /\ c15_step_ok g o r = true /\
  G c s' (ledger_step g o r) (B + N.of_nat (length (offered o))) (Bb + sum_len (offered o)).
Proof.
  intros Hc HG Hok HB HBb. rewrite (surjective_pairing (step _ s o)).
  apply (GQ_op P3 c Strict be s g B Bb o Hc HG Hok HB HBb (P3_mono c)).
  intros S Hg HP. exact (proj1 (strict_topic c be S o Hc Hg Hok HP)).
Qed.
