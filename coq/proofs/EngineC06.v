(* EngineC06.v — histories WITH clean restarts (StrictlyAtOnce): as long as no restart happens in a state with
   block-id drift ([outside_known]), the model's trace is accepted by the queue-spec acceptors for C01 and C15 —
   restarts are invisible to consumers: nothing lost, nothing delivered twice, nothing reordered, counts exact.
   One step lemma for G /\ PG and every operation, the restart included ([G_PG_step]), then the induction over
   histories ([G_run], with the ledger the acceptors keep). *)
From W Require Import model.Base model.Engine model.EngineKnown spec.Queue proofs.EngineWF proofs.EngineInv proofs.EngineMain proofs.EngineDisk
  proofs.EnginePos proofs.EngineNorm proofs.EngineP3 proofs.EngineRestart proofs.EngineRestartW proofs.EngineReopen.

(* checked along the run: no restart happens in a state with block-id drift *)
Fixpoint outside_known (v : env) (s : st) (ops : list op) : bool :=
  match ops with
  | [] => true
  | o :: r => (match o with OReopen => negb (id_drift (v_cfg v) s) | _ => true end)
              && outside_known v (fst (step v s o)) r
  end.

Lemma op_ok_outside_known c v : forall ops s, Forall (op_ok c) ops -> outside_known v s ops = true.
Proof.
  induction ops as [|o r IH]; intros s H; [reflexivity|]. cbn [outside_known].
  rewrite (IH _ (Forall_inv_tail H)), andb_true_r. pose proof (Forall_inv H) as Ho.
  destruct o; try reflexivity. contradiction.
Qed.

Lemma exec_app v : forall a b s, exec v s (a ++ b) = exec v (exec v s a) b.
Proof. induction a as [|o a IH]; intros b s; cbn [app exec]; [reflexivity|apply IH]. Qed.

Lemma trace_app v : forall a b s, trace v s (a ++ b) = trace v s a ++ trace v (exec v s a) b.
Proof.
  induction a as [|o a IH]; intros b s; cbn [app trace exec]; [reflexivity|].
  destruct (step v s o) as [s' r] eqn:E. cbn [fst app]. now rewrite IH.
Qed.

Lemma offered_all_app a b : offered_all (a ++ b) = offered_all a ++ offered_all b.
Proof. induction a as [|o a IH]; cbn [app offered_all]; [reflexivity|]. now rewrite IH, app_assoc. Qed.

Lemma outside_known_app v : forall a b s, outside_known v s (a ++ b) = outside_known v s a && outside_known v (exec v s a) b.
Proof.
  induction a as [|o a IH]; intros b s; cbn [app outside_known exec]; [reflexivity|]. rewrite IH. now rewrite andb_assoc.
Qed.

Lemma outside_known_snoc v s ops : outside_known v s ops = true -> id_drift (v_cfg v) (exec v s ops) = false ->
  outside_known v s (ops ++ [OReopen]) = true.
Proof. intros H1 H2. rewrite outside_known_app, H1. cbn [outside_known]. now rewrite H2. Qed.

Lemma outside_known_split v ops1 s0 : outside_known v s0 (ops1 ++ [OReopen]) = true ->
  outside_known v s0 ops1 = true /\ id_drift (v_cfg v) (exec v s0 ops1) = false.
Proof.
  rewrite outside_known_app. cbn [outside_known]. rewrite andb_true_r, andb_true_iff, negb_true_iff. auto.
Qed.

Lemma op_reopen_or_ok c o : o = OReopen \/ op_ok c o.
Proof. destruct o; cbn; auto. Qed.

(* G /\ PG is GQ at the conjunction of the two clauses; every operation keeps it, a restart outside block-id
   drift included *)
Lemma G_PG_step c be s g B Bb o : cfg_ok c -> G c s g B Bb -> PG c s ->
  (match o with OReopen => id_drift c s = false | _ => True end) ->
  B + N.of_nat (length (offered o)) <= u64_max -> Bb + sum_len (offered o) <= u64_max ->
  c01_step_ok g o (snd (step (env_of c Strict be) s o)) = true /\
  c15_step_ok g o (snd (step (env_of c Strict be) s o)) = true /\
  G c (fst (step (env_of c Strict be) s o)) (ledger_step g o (snd (step (env_of c Strict be) s o)))
    (B + N.of_nat (length (offered o))) (Bb + sum_len (offered o)) /\
  PG c (fst (step (env_of c Strict be) s o)).
Proof.
  intros Hc HG Hpg Hk HB HBb.
  destruct (op_reopen_or_ok c o) as [->|Hok].
  - cbn [step env_of v_cfg fst snd ledger_step offered length sum_len fold_right N.of_nat].
    split; [reflexivity|]. split; [reflexivity|].
    rewrite !N.add_0_r. now apply G_reopen_pg.
  - pose proof (proj2 (GQ_and P3 QPG c s g B Bb) (conj HG (proj1 (PG_JR c s) Hpg))) as HG2.
    destruct (GQ_op _ c Strict be s g B Bb o Hc HG2 Hok HB HBb) as (A1 & A2 & A3).
    + intros nid nid' T Hle (H1 & H2). split; [exact (P3_mono c _ _ T Hle H1)|exact H2].
    + intros S Hg (HP & HQ). destruct (strict_topic c be S o Hc Hg Hok HP) as (B1 & B2). exact (conj B1 (B2 HQ)).
    + apply GQ_and in A3. destruct A3 as (A3 & A4). apply PG_JR in A4. auto.
Qed.

(* the ledger the queue specification keeps along a trace *)
Fixpoint ledger_run (g : lg) (tr : list (op * result)) : lg :=
  match tr with [] => g | (o, r) :: rest => ledger_run (ledger_step g o r) rest end.

Lemma ledger_run_app : forall x y g, ledger_run g (x ++ y) = ledger_run (ledger_run g x) y.
Proof. induction x as [|[o r] x IH]; intros y g; cbn [app ledger_run]; [reflexivity|apply IH]. Qed.

Lemma c01_ok_from_app : forall x y g, c01_ok_from g (x ++ y) = c01_ok_from g x && c01_ok_from (ledger_run g x) y.
Proof.
  induction x as [|[o r] x IH]; intros y g; cbn [app c01_ok_from ledger_run]; [reflexivity|]. rewrite IH. now rewrite andb_assoc.
Qed.

Theorem G_run c be : cfg_ok c -> forall ops s g B Bb,
  G c s g B Bb -> PG c s -> outside_known (env_of c Strict be) s ops = true ->
  B + N.of_nat (length (offered_all ops)) <= u64_max -> Bb + sum_len (offered_all ops) <= u64_max ->
  c01_ok_from g (trace (env_of c Strict be) s ops) = true /\
  c15_ok_from g (trace (env_of c Strict be) s ops) = true /\
  G c (exec (env_of c Strict be) s ops) (ledger_run g (trace (env_of c Strict be) s ops))
    (B + N.of_nat (length (offered_all ops))) (Bb + sum_len (offered_all ops)) /\
  PG c (exec (env_of c Strict be) s ops).
Proof.
  intros Hc. induction ops as [|o r IH]; intros s g B Bb HG Hpg Hout HB HBb.
  { cbn [exec trace offered_all length sum_len fold_right ledger_run]. rewrite !N.add_0_r. auto. }
  cbn [outside_known] in Hout. apply andb_true_iff in Hout. destruct Hout as (Ho & Hout).
  cbn [offered_all] in *. rewrite app_length, Nat2N.inj_add, sum_len_app, !N.add_assoc in *.
  assert (Hk : match o with OReopen => id_drift c s = false | _ => True end).
  { destruct o; try exact I. cbn [env_of v_cfg] in Ho. now apply negb_true_iff in Ho. }
  pose proof (G_PG_step c be s g B Bb o Hc HG Hpg Hk ltac:(lia) ltac:(lia)) as Hstep.
  cbn [exec trace]. destruct (step (env_of c Strict be) s o) as [s' res]. cbn [fst snd] in *.
  destruct Hstep as (H1 & H2 & HG' & Hpg').
  destruct (IH s' _ _ _ HG' Hpg' Hout HB HBb) as (I1 & I2 & I3).
  cbn [c01_ok_from c15_ok_from ledger_run]. rewrite H1, H2, I1, I2. auto.
Qed.

Theorem restart_refines_queue c be : cfg_ok c -> forall ops s g B Bb,
  G c s g B Bb -> PG c s -> outside_known (env_of c Strict be) s ops = true ->
  B + N.of_nat (length (offered_all ops)) <= u64_max -> Bb + sum_len (offered_all ops) <= u64_max ->
  c01_ok_from g (trace (env_of c Strict be) s ops) = true /\
  c15_ok_from g (trace (env_of c Strict be) s ops) = true.
Proof.
  intros Hc ops s g B Bb HG Hpg Hout HB HBb.
  destruct (G_run c be Hc ops s g B Bb HG Hpg Hout HB HBb) as (H1 & H2 & _). auto.
Qed.

Corollary restart_from_init c be ops : cfg_ok c ->
  outside_known (env_of c Strict be) init ops = true ->
  N.of_nat (length (offered_all ops)) <= u64_max -> sum_len (offered_all ops) <= u64_max ->
  c01_ok (trace (env_of c Strict be) init ops) = true /\ c15_ok (trace (env_of c Strict be) init ops) = true.
Proof.
  intros Hc Hout HB HBb. unfold c01_ok, c15_ok. pose proof Hc as (_ & Hb0 & _).
  apply (restart_refines_queue c be Hc ops init [] 0 0 (G_init c Hb0) (PG_init c) Hout); lia.
Qed.

Corollary G_from_init c be ops : cfg_ok c ->
  N.of_nat (length (offered_all ops)) <= u64_max -> sum_len (offered_all ops) <= u64_max ->
  outside_known (env_of c Strict be) init ops = true ->
  G c (exec (env_of c Strict be) init ops) (ledger_run [] (trace (env_of c Strict be) init ops))
    (N.of_nat (length (offered_all ops))) (sum_len (offered_all ops)) /\
  PG c (exec (env_of c Strict be) init ops).
Proof.
  intros Hc HB HBb Ho. pose proof Hc as (_ & Hb0 & _).
  apply (G_run c be Hc ops init [] 0 0 (G_init c Hb0) (PG_init c) Ho); lia.
Qed.

(* C09 between operations: a crash between two operations leaves the disk image and the persisted
   positions of that moment; the fresh process is [reopen].  In StrictlyAtOnce mode, outside
   block-id drift, the consumer of every topic resumes exactly behind the entries whose consuming
   reads had returned: what is unread after the restart is the acknowledged stream minus its first
   [l_del] entries, where [l_del] counts the entries returned by consuming reads so far. *)
Theorem crash_between_operations_strict c be ops : cfg_ok c ->
  outside_known (env_of c Strict be) init (ops ++ [OReopen]) = true ->
  N.of_nat (length (offered_all ops)) <= u64_max -> sum_len (offered_all ops) <= u64_max ->
  let s := exec (env_of c Strict be) init ops in
  let g := ledger_run [] (trace (env_of c Strict be) init ops) in
  forall t x,
    (l_del (lget g t) <= length (l_app (lget g t)))%nat /\
    stream (get_ts (reopen c s) t) = l_app (lget g t) /\
    unread c (nrm x (get_ts (reopen c s) t)) = skipn (l_del (lget g t)) (l_app (lget g t)) /\
    cnt (get_ts (reopen c s) t) = N.of_nat (length (l_app (lget g t)) - l_del (lget g t)).
Proof.
  intros Hc Hout HB HBb. cbn zeta.
  destruct (outside_known_split _ ops init Hout) as (Hout1 & Hk). cbn [env_of v_cfg] in Hk.
  destruct (G_from_init c be ops Hc HB HBb Hout1) as (HG & Hpg).
  exact (GQ_view P3 c _ _ _ _ (proj1 (G_reopen_pg c _ _ _ _ Hc HG Hpg Hk))).
Qed.

(* model/EngineKnown.v spells the two predicates out over the raw record fields, for extraction; they are the
   ones used here *)
Lemma stale_tail_b_eq s : stale_tail_b s = stale_tail s.
Proof.
  unfold stale_tail_b, stale_tail, stale_p. induction (s_topics s) as [|q l IH]; cbn [existsb]; [reflexivity|].
  rewrite IH. f_equal. destruct (ts_index (snd q)) as [p|]; [|reflexivity].
  unfold mem_blocks. now rewrite memne_raw.
Qed.
Lemma restart_known_b_eq c s : restart_known_b c s = restart_known c s.
Proof. unfold restart_known_b, restart_known. now rewrite stale_tail_b_eq. Qed.
