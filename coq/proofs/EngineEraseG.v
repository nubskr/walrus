(* EngineEraseG.v — C02 (b) for histories with restarts: a peek returns what the immediately
   following consuming read with the same arguments returns.  The restart-free proof
   (EngineC02.v) applies to the normalisation of the pair's flavour. *)
From W Require Import model.Engine spec.Queue proofs.EngineWF proofs.EngineMain proofs.EngineNorm proofs.EngineGen
  proofs.EngineC02 proofs.EngineEraseR.

(* in every state a history with restarts (outside block-id drift) reaches — in particular when
   the peek is the first read after a restart and itself applies the persisted position *)
Lemma pair_ok_GM c m be s o1 o2 r : cfg_ok c -> Adm (env_of c m be) s (o1 :: r) -> same_read_args o1 o2 = true ->
  result_eqb (snd (step (env_of c m be) s o1)) (snd (step (env_of c m be) (fst (step (env_of c m be) s o1)) o2)) = true.
Proof.
  intros Hc Ha Hsame.
  (* both reads use the same API: the restart-free proof applies to the normalisation of that flavour *)
  assert (Hf : flav o2 = flav o1 /\ op_ok c o1 /\ op_ok c o2)
    by (destruct (same_read_args_inv _ _ Hsame) as [(t & t' & -> & -> & Ht)|(t & t' & maxb & -> & -> & Ht)]; repeat split).
  destruct Hf as (Hfl & Hok1 & Hok2).
  pose proof (Adm_GMx _ _ _ Ha) as HG. pose proof (Adm_GMx _ _ _ (Adm_step c m be s o1 r Hc Ha)) as HG1. destruct Ha as ((g & B & Bb & HGM & _) & _).
  pose proof (pair_ok c m be (Nst (flav o1) s) g B Bb o1 o2 Hc (GM_Rel _ c s g B Bb HGM) Hsame) as P.
  rewrite (step_flav c m be s o1 Hc HG Hok1) in P. cbn [fst snd] in P.
  rewrite <- Hfl, (step_flav c m be _ o2 Hc HG1 Hok2) in P. exact P.
Qed.

Theorem c02b_with_restarts_from c m be : cfg_ok c -> forall ops s,
  Adm (env_of c m be) s ops -> c02b_ok (trace (env_of c m be) s ops) = true.
Proof.
  intros Hc. induction ops as [|o r IH]; intros s Ha; [reflexivity|].
  specialize (IH _ (Adm_step c m be s o r Hc Ha)).
  pose proof (fun o2 => pair_ok_GM c m be s o o2 r Hc Ha) as Hpair.
  cbn [trace]. destruct (step (env_of c m be) s o) as [s1 res]. cbn [fst snd] in *.
  destruct r as [|o2 r2]; [reflexivity|]. cbn [trace] in *. specialize (Hpair o2).
  destruct (step (env_of c m be) s1 o2) as [s2 res2]. cbn [snd c02b_ok] in *.
  destruct (same_read_args o o2); [now rewrite Hpair|exact IH].
Qed.
