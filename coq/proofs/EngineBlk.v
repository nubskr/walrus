(* EngineBlk.v — the block-structured version of EngineDisk.v: the non-empty blocks the on-disk
   image holds for a topic, in allocation order and block by block, are exactly the non-empty
   blocks the topic has in memory (sealed chain followed by the writer block); the startup scan
   rebuilds exactly that block list as the topic's chain, with well-formed blocks and fresh,
   pairwise different ids.  Neither [DIs] nor [BIs] looks at
   readers, so both hold of a raw state iff of its normalisation ([DIs_Nst], [BIs_Nst]).  The
   well-formedness of the rebuilt blocks needs a bound on the extents on disk ([DLim], kept along
   every history); [cx_s] is a state with [DIs] and [BIs] but without it. *)
From W Require Import model.Base model.Engine proofs.EngineWF proofs.EngineInv proofs.EngineW proofs.EngineRec proofs.EngineDisk proofs.EnginePos proofs.EngineNorm proofs.EngineMain.

(* EnginePos.nonempty_b on the entry list itself *)
Definition nonempty_l (l : list entry) : bool := match l with [] => false | _ => true end.
(* entry lists of the non-empty blocks the image [D] (allocation order) holds for topic id [t]; it is
   EngineRec.blocks_of ([tblocks_blocks_of]) *)
Definition tblocks (t : N) (D : list dblk) : list (list entry) := filter nonempty_l (map (contrib t) D).
(* the same for the in-memory blocks of a topic state *)
Definition mblocks (ts : tstate) : list (list entry) := filter nonempty_l (map b_ents (chain_of ts ++ w_list ts)).
(* [c] is not used; it is there so that [BIs c s] reads like [DIs c s] *)
Definition BIs (c : Cfg) (s : st) : Prop := forall t, tblocks t (rev (s_disk s)) = mblocks (get_ts s t).

Lemma nonempty_b_l b : nonempty_b b = nonempty_l (b_ents b).
Proof. reflexivity. Qed.

Lemma tblocks_blocks_of t D : tblocks t D = blocks_of t D.
Proof. reflexivity. Qed.

Lemma map_filter_ne l : map b_ents (filter nonempty_b l) = filter nonempty_l (map b_ents l).
Proof.
  induction l as [|b l IH]; cbn [filter map]; [reflexivity|].
  rewrite <- nonempty_b_l. destruct (nonempty_b b); cbn [map]; now rewrite IH.
Qed.

Lemma mblocks_memne ts : mblocks ts = map b_ents (memne ts).
Proof. unfold mblocks, memne. now rewrite map_filter_ne. Qed.

Lemma tblocks_app t a b : tblocks t (a ++ b) = tblocks t a ++ tblocks t b.
Proof. unfold tblocks. now rewrite map_app, filter_app. Qed.

Lemma tblocks_cons t x l : tblocks t (x :: l) = filter nonempty_l [contrib t x] ++ tblocks t l.
Proof. unfold tblocks. cbn [map filter]. destruct (nonempty_l (contrib t x)); reflexivity. Qed.

Lemma tblocks_nil t : tblocks t [] = [].
Proof. reflexivity. Qed.

Lemma tblocks_quiet t l : Forall (fun y => contrib t y = []) l -> tblocks t l = [].
Proof. induction 1 as [|y l Hy _ IH]; [reflexivity|]. rewrite tblocks_cons, Hy, IH. reflexivity. Qed.

Lemma tblocks_one_quiet t z : contrib t z = [] -> tblocks t [z] = [].
Proof. intros H. apply tblocks_quiet. constructor; [exact H|constructor]. Qed.

Lemma nonempty_snoc (l : list entry) e : nonempty_l (l ++ [e]) = true.
Proof. destruct l; reflexivity. Qed.

Lemma filter_ne_idem (l : list (list entry)) : filter nonempty_l (filter nonempty_l l) = filter nonempty_l l.
Proof.
  induction l as [|x l IH]; cbn [filter]; [reflexivity|].
  destruct (nonempty_l x) eqn:E; cbn [filter]; [rewrite E; now f_equal|exact IH].
Qed.

Definition cblocks (ts : tstate) : list (list entry) := filter nonempty_l (map b_ents (chain_of ts)).

Lemma mblocks_split ts : mblocks ts = cblocks ts ++ filter nonempty_l (map b_ents (w_list ts)).
Proof. unfold mblocks, cblocks. now rewrite map_app, filter_app. Qed.

Lemma mblocks_nowriter ts : ts_writer ts = None -> mblocks ts = cblocks ts.
Proof. intros H. rewrite mblocks_split. unfold w_list. rewrite H. cbn. now rewrite app_nil_r. Qed.

Lemma mblocks_set_writer ts w : mblocks (with_writer ts (Some w)) = cblocks ts ++ filter nonempty_l [b_ents w].
Proof. apply mblocks_split. Qed.

Lemma mblocks_count_add ts d : mblocks (count_add ts d) = mblocks ts.
Proof. unfold count_add. now destruct (d =? 0). Qed.

Lemma mblocks_tstate0 : mblocks tstate0 = [].
Proof. reflexivity. Qed.

Lemma mblocks_first_writer ts nb : ts_writer ts = None -> b_ents nb = [] -> mblocks (with_writer ts (Some nb)) = mblocks ts.
Proof. intros Hn He. rewrite mblocks_set_writer, He, (mblocks_nowriter ts Hn). cbn. now rewrite app_nil_r. Qed.

(* sealing: the block joins the chain unless it is empty — either way the block list of
   (chain ++ [w]) is the one of the new chain *)
Lemma cblocks_seal ts w : (b_used w = 0 -> b_ents w = []) ->
  cblocks (seal ts w) = cblocks ts ++ filter nonempty_l [b_ents w].
Proof.
  intros Hz. unfold cblocks. rewrite chain_of_seal. destruct (b_used w =? 0) eqn:E.
  - rewrite Hz by lia. cbn. now rewrite app_nil_r.
  - now rewrite map_app, filter_app.
Qed.

Definition BI (D : list dblk) (bm : N -> list (list entry)) : Prop := forall t, tblocks t D = bm t.
Definition mbs (s : st) : N -> list (list entry) := fun t => mblocks (get_ts s t).

Lemma BIs_BI c s : BIs c s <-> BI (rev (s_disk s)) (mbs s).
Proof. reflexivity. Qed.

Lemma BI_ext D bm bm' : (forall t, bm' t = bm t) -> BI D bm -> BI D bm'.
Proof. intros H Hb t. now rewrite H. Qed.

Lemma BI_new_block D bm z : BI D bm -> (forall t, contrib t z = []) -> BI (D ++ [z]) bm.
Proof. intros Hb Hz t. rewrite tblocks_app, (tblocks_one_quiet t z (Hz t)), app_nil_r. apply Hb. Qed.

Lemma BIs_init c : BIs c init.
Proof. intros t. reflexivity. Qed.

Lemma mbs_set_ts s t ts t' : mbs (set_ts s t ts) t' = upd (mbs s) t (mblocks ts) t'.
Proof. unfold mbs. rewrite get_set_upd. apply upd_map. Qed.

Lemma BIs_set_ts c s t ts' : BIs c s -> SB (get_ts s t) ts' -> BIs c (set_ts s t ts').
Proof.
  intros Hb (H1 & H2). apply BIs_BI. cbn [set_ts s_disk]. eapply BI_ext; [|exact Hb].
  intros t0. rewrite mbs_set_ts. unfold mblocks, w_list. rewrite H1, H2. exact (upd_eta (mbs s) t t0).
Qed.

Lemma ensure_BIs c s t : BIs c s -> BIs c (fst (ensure_writer c s t)).
Proof.
  intros Hb. unfold ensure_writer.
  destruct (ts_writer (get_ts s (t_id t))) as [w|] eqn:Ew; [exact Hb|].
  pose proof (alloc_first_allocd c s) as Ha. destruct (alloc_first c s) as [s1 b].
  destruct Ha as (f & o & Hdisk & _ & Eb & _ & Htop & _). (* allocd by position: see EngineDisk.DI_snoc *) cbn [fst].
  apply BIs_BI. cbn [set_ts s_disk]. rewrite Hdisk. cbn [rev].
  eapply BI_ext; [|apply BI_new_block; [exact Hb|intros t0; reflexivity]].
  intros t0. unfold mbs. rewrite get_set_upd. unfold upd. rewrite !(get_ts_topics _ _ _ Htop).
  destruct (N.eqb_spec t0 (t_id t)) as [->|_]; [now apply mblocks_first_writer|reflexivity].
Qed.

Definition BIcur (s : st) (t : topic) (cur : blk) : Prop :=
  BI (rev (s_disk s)) (upd (mbs s) (t_id t) (mblocks (with_writer (get_ts s (t_id t)) (Some cur)))).

Lemma BIcur_start c s t w : BIs c s -> ts_writer (get_ts s (t_id t)) = Some w -> BIcur s t w.
Proof.
  intros Hb Hw. unfold BIcur. rewrite (with_writer_same _ _ Hw). eapply BI_ext; [|exact Hb].
  intros t0. exact (upd_eta (mbs s) _ t0).
Qed.

Lemma BIcur_commit c t q n : BIcur (fst q) t (snd q) -> BIs c (commit t q n).
Proof.
  destruct q as [s cur]. unfold BIcur, commit. cbn [fst snd]. intros Hb. apply BIs_BI. cbn [set_ts s_disk].
  eapply BI_ext; [|exact Hb]. intros t0. rewrite mbs_set_ts. apply upd_ext; [apply mblocks_count_add|reflexivity].
Qed.

(* own topic / other topic, for each of the two image events; where an entry goes is the disk invariant's
   knowledge: the slot of the running block *)
Lemma BIcur_pstep c t p e q : 0 < c_hdr c -> PStep c t p e q ->
  DIcur c (fst p) t (snd p) -> BIcur (fst p) t (snd p) -> BIcur (fst q) t (snd q).
Proof.
  intros Hh [s cur e0 _|s cur e0 want s1 nb Ha _] (Hd & Hu) Hb t0; specialize (Hb t0); revert Hb; cbn [fst snd] in *.
  - (* ps_add; of wslot: the split, key, entries, owner, nothing of t behind *)
    destruct (di_slot _ _ _ _ _ _ Hd (t_id t) cur (upd_same _ _ _)) as (pre & x & post & HD & Kx & Ex & _ & Ox & Q & _).
    cbn [st_disk_write s_disk]. rewrite (rev_disk_write _ pre x post _ _ t [e0] (di_nodup _ _ _ _ _ _ Hd) HD Kx), HD.
    rewrite !tblocks_app, !tblocks_cons. unfold upd. destruct (N.eqb_spec t0 (t_id t)) as [->|Hne].
    + (* own topic *) rewrite !mblocks_set_writer, (contrib_owner _ _ (owner_wr x t [e0] Ox)), (contrib_owner _ _ Ox), (tblocks_quiet _ _ Q), !app_nil_r.
      cbn [wr_blk blk_add d_ents b_ents]. rewrite Ex. intros Hb. apply app_inv_tail in Hb. now rewrite Hb.
    + (* other topics *) rewrite (contrib_other _ _ t0 (owner_wr x t [e0] Ox) Hne), (contrib_other _ _ t0 Ox Hne). exact (fun H => H).
  - (* ps_rot *) destruct (rot_state c s t cur want s1 nb e0 Ha) as (-> & Eb & Hg).
    rewrite tblocks_app, tblocks_cons. unfold mbs, upd, contrib. rewrite !Hg. unfold upd. cbn [wr_blk zblk d_topic d_ents app].
    destruct (N.eqb_spec t0 (t_id t)) as [->|Hne].
    + (* own topic *) rewrite N.eqb_refl, !mblocks_set_writer, (cblocks_seal _ cur (used0_ents c cur Hh Hu)). cbn [blk_add b_ents]. rewrite Eb.
      now intros ->.
    + (* other topics *) replace (t_id t =? t0) with false by lia. cbn [filter tblocks map app]. rewrite app_nil_r. exact (fun H => H).
Qed.

Lemma BIcur_psteps c t p es q : cfg_ok c -> PSteps c t p es q ->
  DIcur c (fst p) t (snd p) -> BIcur (fst p) t (snd p) -> BIcur (fst q) t (snd q).
Proof.
  intros Hc. induction 1 as [p|p e q es r Hs _ IH]; intros Hd Hb; [exact Hb|].
  exact (IH (DIcur_pstep c t p e q Hc Hs Hd) (BIcur_pstep c t p e q (proj1 Hc) Hs Hd Hb)).
Qed.

Lemma BIs_written c t s es s' : cfg_ok c -> GInv c s -> wrote c t s es s' -> DIs c s -> BIs c s -> BIs c s'.
Proof.
  intros Hc Hg (q & Hps & Hs') Hd Hb. pose proof (ensure_BIs c s t Hb) as Hb1.
  destruct Hs' as [(_ & ->) | ->]; [exact Hb1|].
  destruct (ensure_DIcur c s t Hc Hg Hd) as (Hw & Hd1).
  apply BIcur_commit. exact (BIcur_psteps c t _ _ _ Hc Hps Hd1 (BIcur_start c _ t _ Hb1 Hw)).
Qed.

Lemma read_next_chain c m s t ck :
  chain_of (get_ts (fst (read_next c m s t ck)) (t_id t)) = chain_of (get_ts s (t_id t)).
Proof.
  destruct (read_next_SB c m s t ck) as (ts' & res & Hr & Hc & _). rewrite Hr. cbn [fst]. now rewrite get_set_same.
Qed.

Lemma batch_read_chain c m s t maxb ck start :
  chain_of (get_ts (fst (batch_read c m s t maxb ck start)) (t_id t)) = chain_of (get_ts s (t_id t)).
Proof.
  destruct (batch_read_SB c m s t maxb ck start) as (ts' & res & Hr & Hc & _). rewrite Hr. cbn [fst]. now rewrite get_set_same.
Qed.

Lemma DIs_Nst x c s : DIs c (Nst x s) <-> DIs c s.
Proof.
  unfold DIs. cbn [Nst s_disk s_alloc s_files]. split; intros H; (eapply DI_ext; [| |exact H]); intros t; unfold wrs, sms;
    rewrite get_Nst; rewrite ?nrm_writer, ?nrm_stream; reflexivity.
Qed.

Lemma mblocks_nrm x ts : mblocks (nrm x ts) = mblocks ts.
Proof. unfold mblocks. now rewrite nrm_chain, nrm_w_list. Qed.

Lemma BIs_Nst x c s : BIs c (Nst x s) <-> BIs c s.
Proof.
  unfold BIs. cbn [Nst s_disk]. split; intros H t; specialize (H t); rewrite get_Nst, mblocks_nrm in *; exact H.
Qed.

(* the rebuilt chain, for any property [P] the extents on disk have *)
Theorem reopen_chain_P c (P : N -> Prop) s t : cfg_ok c -> DIs c s -> BIs c s ->
  Forall (fun x => P (d_limit x)) (s_disk s) ->
  let rch := chain_of (get_ts (reopen c s) t) in
  map b_ents rch = mblocks (get_ts s t) /\
  GoodCh c P (a_next (s_alloc (reopen c s))) rch /\
  ts_writer (get_ts (reopen c s) t) = None.
Proof.
  intros Hc Hd Hb Hlim. cbn zeta. destruct (scan0_spec c P s _ _ Hc Hd) as (_ & _ & Hbl & Hg).
  destruct (reopen_shape c s t) as (_ & _ & Hw & _ & _ & [(old & _ & _ & -> & _)|(H0 & ->)]).
  - split; [rewrite Hbl, <- tblocks_blocks_of; apply Hb|]. split; [exact (Hg Hlim t)|exact Hw].
  - rewrite H0. split; [reflexivity|]. split; [apply GoodCh_nil|reflexivity].
Qed.

(* no extent on disk exceeds what the allocators hand out: [alloc_first] one unit, [alloc_sized] at most
   [c_max_alloc] rounded up to units.  With [cfg_ok] this keeps the [b_limit] of a rebuilt block within u64 *)
Definition DLim (c : Cfg) (s : st) : Prop := Forall (fun x => d_limit x <= c_max_alloc c + c_block c) (s_disk s).

Theorem reopen_chain c s t : cfg_ok c -> DIs c s -> BIs c s -> DLim c s ->
  let rch := chain_of (get_ts (reopen c s) t) in
  map b_ents rch = mblocks (get_ts s t) /\
  Forall (bwf c) rch /\
  Forall (fun b => 0 < b_id b < a_next (s_alloc (reopen c s))) rch /\
  NoDup (map b_id rch) /\
  ts_writer (get_ts (reopen c s) t) = None.
Proof.
  intros Hc Hd Hb Hl. pose proof Hc as (Hh & Hb0 & Hba & Hbm & Hme & Hhb).
  assert (Hl' : Forall (fun x => (fun l => l <= u64_max) (d_limit x)) (s_disk s)).
  { eapply Forall_impl; [|exact Hl]. cbn. intros; lia. }
  destruct (reopen_chain_P c (fun l => l <= u64_max) s t Hc Hd Hb Hl') as (H1 & (H2 & H3 & H4) & H5).
  cbn zeta. split; [exact H1|]. split; [exact H2|]. split; [exact H3|]. split; [exact H4|exact H5].
Qed.

Lemma reopen_DIs c s : cfg_ok c -> DIs c s -> DIs c (reopen c s).
Proof.
  intros Hc Hd. pose proof (reopen_stream c s Hc Hd) as Hst. unfold DIs in *. destruct (reopen_fields c s) as (F1 & F2 & F3). rewrite F1, F2, F3.
  destruct Hd as [Hnd He Hsl Hwf Hal Hso Hk]. constructor.
  - (* di_nodup *) exact Hnd.
  - (* di_ents *) intros t. unfold sms. rewrite Hst. apply He.
  - (* di_slot *) intros t w Hw. unfold wrs in Hw. rewrite reopen_writer in Hw. discriminate.
  - (* di_wf *) exact Hwf.
  - (* di_alloc *) exact (AInv_next_file c _ _ _ _ Hal).
  - (* di_sorted *) exact Hso.
  - (* di_keys *) intros t t' w w' _ Hw. unfold wrs in Hw. rewrite reopen_writer in Hw. discriminate.
Qed.

Lemma reopen_BIs c s : cfg_ok c -> DIs c s -> BIs c s -> BIs c (reopen c s).
Proof.
  intros Hc Hd Hb t. destruct (reopen_fields c s) as (F1 & _). rewrite F1, (Hb t).
  destruct (reopen_chain_P c (fun _ => True) s t Hc Hd Hb) as (Hm & _ & Hw); [apply Forall_forall; intros; exact I|]. cbn zeta in Hm.
  rewrite (mblocks_nowriter _ Hw). unfold cblocks. rewrite Hm. unfold mblocks. symmetry. apply filter_ne_idem.
Qed.

Lemma DLim_init c : DLim c init.
Proof. constructor. Qed.

Lemma disk_write_lim L : forall d f o t es,
  Forall (fun x => d_limit x <= L) d -> Forall (fun x => d_limit x <= L) (disk_write d f o t es).
Proof.
  induction d as [|x d IH]; intros f o t es H; cbn [disk_write]; [constructor|].
  inversion H as [|y l Hx Hr]; subst.
  destruct ((d_file x =? f) && (d_off x =? o)); constructor; auto.
Qed.

Lemma DLim_disk_write c s b t es : DLim c s -> DLim c (st_disk_write s b t es).
Proof. intros H. unfold DLim, st_disk_write. cbn [s_disk]. now apply disk_write_lim. Qed.

Lemma DLim_allocd c s s1 b lim : allocd s s1 b lim -> lim <= c_max_alloc c + c_block c -> DLim c s -> DLim c s1.
Proof. intros (f & o & Hdisk & _) Hl H. (* allocd: the disk *) unfold DLim. rewrite Hdisk. constructor; [exact Hl|exact H]. Qed.

(* the extents are those of the image, which only the allocators extend: [ensure_writer] by one unit, a rotation
   by what [alloc_sized] hands out *)
Lemma DLim_wrote c t s es s' : 0 < c_block c -> wrote c t s es s' -> DLim c s -> DLim c s'.
Proof.
  intros Hb (q & Hps & Hs') H.
  assert (H1 : DLim c (fst (ensure_writer c s t))).
  { unfold ensure_writer. destruct (ts_writer (get_ts s (t_id t))); [exact H|].
    pose proof (alloc_first_allocd c s) as Ha. destruct (alloc_first c s) as [s1 b]. apply (DLim_allocd c s s1 b _ Ha); [lia|exact H]. }
  assert (H2 : DLim c (fst q)).
  { clear Hs'. induction Hps as [p|p e q es r Hs _ IH]; [exact H1|]. apply IH.
    destruct Hs as [s0 cur e0 _|s0 cur e0 want s1 nb Ha _]; cbn [fst] in *; apply DLim_disk_write; [exact H1|].
    (* ps_rot *) destruct (alloc_sized_allocd c _ want s1 nb Ha) as (Hw & Hal). apply (DLim_allocd c _ s1 nb _ Hal); [|exact H1].
    pose proof (round_up_bounds c want Hb). lia. }
  destruct Hs' as [(_ & ->)| ->]; [exact H1|exact H2].
Qed.

(* what a restart-free operation does to the three disk invariants: a write is walked along [wrote]; every other
   operation stores at most a topic state with the same chain and writer *)
Lemma disk_step c m be s o : cfg_ok c -> GInv c s -> DIs c s -> op_ok c o ->
  let s' := fst (step (env_of c m be) s o) in
  DIs c s' /\ (BIs c s -> BIs c s') /\ (DLim c s -> DLim c s').
Proof.
  intros Hc Hg Hd Hok. split; [exact (DIs_op c m be s o Hc Hg Hd Hok)|].
  destruct (step_cases c m be s o Hc Hok) as [(t & es & Hw)|[(t & ts' & -> & Hsb)| ->]].
  - split; [exact (BIs_written c t s es _ Hc Hg Hw Hd)|exact (DLim_wrote c t s es _ (proj1 (proj2 Hc)) Hw)].
  - split; [|exact (fun H => H)]. intros Hb. exact (BIs_set_ts c s t ts' Hb Hsb).
  - split; exact (fun H => H).
Qed.

(* the three along a restart-free history; histories with restarts carry them inside EngineRestart.GQ *)
Theorem disk_reachable c m be : cfg_ok c -> forall ops s g B Bb,
  Rel c s g B Bb -> DIs c s -> Forall (op_ok c) ops ->
  B + N.of_nat (length (offered_all ops)) <= u64_max -> Bb + sum_len (offered_all ops) <= u64_max ->
  let s' := exec (env_of c m be) s ops in
  DIs c s' /\ (BIs c s -> BIs c s') /\ (DLim c s -> DLim c s').
Proof.
  intros Hc ops s g B Bb Hrel Hd Hok HB HBb.
  refine (reachable_inv c m be (fun s' => DIs c s' /\ (BIs c s -> BIs c s') /\ (DLim c s -> DLim c s')) Hc _
            ops s g B Bb Hrel (conj Hd (conj (fun H => H) (fun H => H))) Hok HB HBb).
  intros s1 g1 B1 Bb1 o Hrel1 (I1 & I2 & I3) Ho _.
  destruct (disk_step c m be s1 o Hc (proj1 Hrel1) I1 Ho) as (J1 & J2 & J3). auto.
Qed.

Theorem BIs_reachable c m be : cfg_ok c -> forall ops s g B Bb,
  Rel c s g B Bb -> DIs c s -> BIs c s -> Forall (op_ok c) ops ->
  B + N.of_nat (length (offered_all ops)) <= u64_max -> Bb + sum_len (offered_all ops) <= u64_max ->
  BIs c (exec (env_of c m be) s ops).
Proof.
  intros Hc ops s g B Bb Hrel Hd Hb Hok HB HBb.
  exact (proj1 (proj2 (disk_reachable c m be Hc ops s g B Bb Hrel Hd Hok HB HBb)) Hb).
Qed.

Lemma reopen_DLim c s : DLim c s -> DLim c (reopen c s).
Proof. unfold DLim. now rewrite (proj1 (reopen_fields c s)). Qed.

Corollary restart_rebuilds_blocks c m be ops : cfg_ok c -> Forall (op_ok c) ops ->
  N.of_nat (length (offered_all ops)) <= u64_max -> sum_len (offered_all ops) <= u64_max ->
  forall t,
  let s := exec (env_of c m be) init ops in
  let rch := chain_of (get_ts (reopen c s) t) in
  map b_ents rch = map b_ents (memne (get_ts s t)) /\
  Forall (bwf c) rch /\
  Forall (fun b => 0 < b_id b < a_next (s_alloc (reopen c s))) rch /\
  NoDup (map b_id rch) /\
  ts_writer (get_ts (reopen c s) t) = None.
Proof.
  intros Hc Hok HB HBb t. pose proof Hc as (Hh & Hb0 & _).
  destruct (disk_reachable c m be Hc ops init [] 0 0 (Rel_init c) (DIs_init c Hb0) Hok ltac:(lia) ltac:(lia)) as (Hd & Hb & Hl).
  cbn zeta. rewrite <- mblocks_memne. exact (reopen_chain c _ t Hc Hd (Hb (BIs_init c)) (Hl (DLim_init c))).
Qed.

(* [DIs] and [BIs] alone do not bound the extents on disk: a state (not a reachable one) whose
   image holds one block sized for an entry of 2^64 bytes satisfies both, and the block the
   restart rebuilds from it has [b_limit] = 2^64 > u64_max, so it is not [bwf].
   ([cx_e] and [cx_s] of EngineIdxL.v are other objects.) *)
Definition cx_c : Cfg :=
  {| c_block := 1; c_bpf := 1; c_max_alloc := 1; c_hdr := 1; c_max_entries := 1; c_max_bytes := 1;
     c_small := 128; c_overflow_checks := false |}.
Definition cx_e : entry := {| e_pid := 0; e_len := u64_max |}.
Definition cx_s : st :=
  {| s_topics := [(0, {| ts_reader := Some {| r_chain := [{| b_id := 1; b_file := 0; b_off := 0; b_limit := two64;
                                                            b_used := two64; b_ents := [cx_e] |}];
                                             r_idx := 0; r_off := 0; r_tail_bid := 0; r_tail_off := 0; r_since := 0;
                                             r_hydrated := false |};
                         ts_writer := None; ts_poisoned := false; ts_count := Some 1; ts_index := None;
                         ts_unmodelled := false |})];
     s_alloc := {| a_next := 2; a_file := 0; a_off := two64 |};
     s_disk := [{| d_file := 0; d_off := 0; d_limit := two64; d_topic := Some {| t_id := 0; t_nlen := 0 |}; d_ents := [cx_e] |}];
     s_files := 1 |}.

Lemma reopen_chain_needs_DLim :
  cfg_ok cx_c /\ DIs cx_c cx_s /\ BIs cx_c cx_s /\ ~ Forall (bwf cx_c) (chain_of (get_ts (reopen cx_c cx_s) 0)).
Proof.
  split; [|split; [|split]].
  - (* cfg_ok *) unfold cfg_ok, cx_c, u64_max. cbn. lia.
  - (* DIs *) unfold DIs. cbn [cx_s s_disk s_alloc s_files rev app]. constructor.
    + (* di_nodup *) constructor; [intros []|constructor].
    + (* di_ents *) intros t. unfold sms, get_ts, ents_of_topic. cbn [cx_s s_topics find fst snd flat_map d_topic d_ents t_id].
      destruct (0 =? t); reflexivity.
    + (* di_slot *) intros t w. unfold wrs, get_ts. cbn [cx_s s_topics find fst snd]. destruct (0 =? t); cbn; discriminate.
    + (* di_wf *) constructor; [|constructor]. unfold dwf. cbn [d_ents d_topic d_limit].
      split; [eauto|]. split; [vm_compute; reflexivity|vm_compute; discriminate].
    + (* di_alloc *) split; [cbn; lia|]. constructor; [|constructor]. cbn. unfold two64. lia.
    + (* di_sorted *) split; [constructor|exact I].
    + (* di_keys *) intros t t' w w' _. unfold wrs, get_ts. cbn [cx_s s_topics find fst snd]. destruct (0 =? t); cbn; discriminate.
  - (* BIs *) intros t. unfold tblocks, mblocks, get_ts, contrib. cbn [cx_s s_disk rev app map s_topics find fst snd d_topic d_ents t_id].
    destruct (0 =? t); reflexivity.
  - (* the rebuilt block *) intros H. assert (E : chain_of (get_ts (reopen cx_c cx_s) 0) =
                          [{| b_id := 1; b_file := 0; b_off := 0; b_limit := two64; b_used := two64; b_ents := [cx_e] |}])
      by (vm_compute; reflexivity).
    rewrite E in H. inversion H as [|b l (_ & _ & Hl) _]; subst. cbn in Hl. unfold two64, u64_max in Hl. lia.
Qed.
