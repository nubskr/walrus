(* SanitizeP.v — why sanitize always yields a safe path component (props/C14.v): a sanitized character
   is never '/' or NUL, and the fallback "ns_" ++ hex is neither empty nor dots. *)
From W Require Import model.Base model.Sanitize.
From Coq Require Import ZArith ZifyBool ZifyN.

Definition okc (x : N) : bool := negb (x =? ch_slash) && negb (x =? 0).

Lemma san_char_ok c : okc (san_char c) = true.
Proof.
  unfold okc, san_char, is_ascii_alnum, is_digit, is_upper, is_lower,
    ch_0, ch_9, ch_A, ch_Z, ch_a, ch_z, ch_dash, ch_us, ch_dot, ch_slash.
  destruct (_ || _ || _ || _) eqn:E; lia.
Qed.

Lemma hex_digit_ok d : d < 16 -> okc (hex_digit d) = true.
Proof.
  intros H. unfold okc, hex_digit, ch_0, ch_a, ch_slash. destruct (d <? 10) eqn:E; lia.
Qed.

Lemma hex_aux_ok fuel : forall n acc, forallb okc acc = true -> forallb okc (hex_aux fuel n acc) = true.
Proof.
  induction fuel as [|f IH]; intros n acc Ha; cbn [hex_aux]; [exact Ha|].
  destruct (n <? 16) eqn:E; [|apply IH]; cbn [forallb];
    rewrite Ha, hex_digit_ok by lia; reflexivity.
Qed.

Lemma safe_component_eq c : safe_component c =
  negb (match c with [] => true | _ => false end) && negb (is_dot_component c) && forallb okc c.
Proof. reflexivity. Qed.

Lemma fallback_safe key : safe_component (fallback key) = true.
Proof.
  rewrite safe_component_eq. unfold fallback, ns_prefix, hex. cbn [app forallb].
  rewrite hex_aux_ok by reflexivity. reflexivity.
Qed.

Lemma map_san_ok key : forallb okc (map san_char key) = true.
Proof. induction key as [|c r IH]; cbn; [reflexivity|]. now rewrite san_char_ok, IH. Qed.

Lemma sanitize_v0_agree key :
  is_dot_component (map san_char key) = false -> sanitize key = sanitize_v0 key.
Proof. unfold sanitize, sanitize_v0. intros ->. now rewrite orb_false_r. Qed.

(* "tenant-1" is kept, "a/b" becomes "a_b", the empty key falls back to "ns_cbf29ce484222325" *)
Example sanitize_examples :
  sanitize [116; 101; 110; 97; 110; 116; 45; 49] = [116; 101; 110; 97; 110; 116; 45; 49] /\
  sanitize [97; 47; 98] = [97; 95; 98] /\
  sanitize [] = [110; 115; 95; 99; 98; 102; 50; 57; 99; 101; 52; 56; 52; 50; 50; 50; 51; 50; 53].
Proof. vm_compute. auto. Qed.
