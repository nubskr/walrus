(* TrkIso.v — isolation of the tracker between sides whose block ids and files are disjoint (C13):
   the joint state restricted to one side's ids and files is the state [trk_run] reaches on that
   side's calls alone, and the deletion requests for its files are those of that run. *)
From W Require Import model.Base model.Trk proofs.TrkP.

Lemma keyp_eq {A} (p : N -> bool) k (v : A) : keyp p (k, v) = p k.
Proof. reflexivity. Qed.

Lemma filter_lookup {A} (p : N -> bool) k (l : list (N * A)) :
  tlookup k (filter (keyp p) l) = if p k then tlookup k l else None.
Proof.
  induction l as [|[k' v] r IH]; cbn [filter tlookup]; [now destruct (p k)|].
  rewrite keyp_eq. destruct (k' =? k) eqn:E.
  - apply N.eqb_eq in E; subst k'. destruct (p k); [cbn [tlookup]; now rewrite N.eqb_refl|exact IH].
  - destruct (p k'); [cbn [tlookup]; rewrite E|]; exact IH.
Qed.

Lemma filter_tset {A} (p : N -> bool) k (v : A) l :
  filter (keyp p) (tset k v l) = if p k then tset k v (filter (keyp p) l) else filter (keyp p) l.
Proof.
  induction l as [|[k' v'] r IH]; cbn [filter tset]; [now destruct (p k)|].
  destruct (k' =? k) eqn:E; cbn [filter]; rewrite !keyp_eq.
  - apply N.eqb_eq in E; subst k'. destruct (p k); cbn [tset]; now rewrite ?N.eqb_refl.
  - rewrite IH. destruct (p k'), (p k); cbn [tset]; now rewrite ?E.
Qed.

Lemma filter_snoc {A} (p : N -> bool) k (v : A) l :
  filter (keyp p) (l ++ [(k, v)]) = if p k then filter (keyp p) l ++ [(k, v)] else filter (keyp p) l.
Proof. rewrite filter_app. cbn [filter]. rewrite keyp_eq. destruct (p k); [reflexivity|apply app_nil_r]. Qed.

Lemma restrict_eq pid pf t :
  restrict pid pf t = {| t_blocks := filter (keyp pid) (t_blocks t); t_files := filter (keyp pf) (t_files t) |}.
Proof. reflexivity. Qed.

(* each operation on the restricted state is the restricted operation on its own side and
   nothing on the other *)
Lemma restrict_reg_file pid pf t f :
  restrict pid pf (reg_file t f) = if pf f then reg_file (restrict pid pf t) f else restrict pid pf t.
Proof.
  unfold reg_file, known. cbn [restrict t_files]. rewrite filter_lookup.
  destruct (tlookup f (t_files t)); [now destruct (pf f)|].
  rewrite restrict_eq. cbn [t_blocks t_files]. rewrite filter_snoc. now destruct (pf f).
Qed.

Lemma restrict_upd_file pid pf t f u :
  restrict pid pf (upd_file t f u) = if pf f then upd_file (restrict pid pf t) f u else restrict pid pf t.
Proof.
  unfold upd_file. cbn [restrict t_files]. rewrite filter_lookup.
  destruct (tlookup f (t_files t)); [|now destruct (pf f)].
  rewrite restrict_eq. cbn [t_blocks t_files]. rewrite filter_tset. now destruct (pf f).
Qed.

Lemma restrict_set_flag pid pf t id b :
  restrict pid pf (set_flag t id b) = if pid id then set_flag (restrict pid pf t) id b else restrict pid pf t.
Proof. unfold set_flag. rewrite restrict_eq. cbn [t_blocks t_files]. rewrite filter_tset. now destruct (pid id). Qed.

Lemma filter_flush_check pid pf t f :
  filter pf (flush_check t f) = if pf f then flush_check (restrict pid pf t) f else [].
Proof.
  unfold flush_check. cbn [restrict t_files]. rewrite filter_lookup.
  destruct (tlookup f (t_files t)) as [fs|]; [|now destruct (pf f)].
  destruct (pf f) eqn:Hf; destruct (ready fs); cbn [filter]; now rewrite ?Hf.
Qed.

(* Lock, Unlock and Mark name an id and touch the file the block map gives for it: the restriction
   must keep or drop that file with the id *)
Definition coherent (pid pf : N -> bool) (t : trk) : Prop :=
  forall id b, In (id, b) (t_blocks t) -> pf (bs_file b) = pid id.

Lemma lookup_restrict pid pf t id :
  pid id = true -> tlookup id (t_blocks (restrict pid pf t)) = tlookup id (t_blocks t).
Proof. intro S. cbn [restrict t_blocks]. now rewrite filter_lookup, S. Qed.

Lemma coherent_lookup {pid pf t id b} :
  coherent pid pf t -> tlookup id (t_blocks t) = Some b -> pf (bs_file b) = pid id.
Proof. intros Co L. exact (Co id b (tlookup_in _ _ _ L)). Qed.

Lemma coherent_reg_file pid pf t f : coherent pid pf t -> coherent pid pf (reg_file t f).
Proof. intros Co id b. rewrite blocks_reg_file. apply Co. Qed.

Lemma coherent_upd_file pid pf t f u : coherent pid pf t -> coherent pid pf (upd_file t f u).
Proof. intros Co id b. rewrite blocks_upd_file. apply Co. Qed.

(* A call of this side ([s] = true) acts on the restriction as it does alone; a call of the other
   side leaves the restriction alone and requests only foreign files. *)
Lemma step_side fixed pid pf t c (s : bool) :
  (if s then call_side pid pf c = true
   else call_side (fun x => negb (pid x)) (fun x => negb (pf x)) c = true) ->
  coherent pid pf t ->
  restrict pid pf (fst (trk_step fixed t c)) =
    (if s then fst (trk_step fixed (restrict pid pf t) c) else restrict pid pf t) /\
  filter pf (snd (trk_step fixed t c)) = (if s then snd (trk_step fixed (restrict pid pf t) c) else []) /\
  coherent pid pf (fst (trk_step fixed t c)).
Proof.
  intros W Co.
  destruct c as [id f|f|f|id|id|id|f|f]; cbn [call_side trk_step] in *.
  - (* CRegister *) assert (S : pid id = s /\ pf f = s) by (destruct s, (pid id), (pf f); easy). destruct S as [S F].
    destruct s; [rewrite lookup_restrict by exact S|].
    all: destruct (tlookup id (t_blocks t)); cbn [fst snd filter]; [now split|].
    all: rewrite restrict_eq; cbn [t_blocks t_files]; rewrite filter_snoc, S.
    all: split; [reflexivity|split; [reflexivity|]].
    all: intros id' b' Hin; apply in_app_or in Hin.
    all: destruct Hin as [Hin|[[= <- <-]|[]]]; [now apply Co|now rewrite S].
  - (* CRegFile *) cbn [fst snd filter]. rewrite restrict_reg_file.
    split; [now destruct s, (pf f)|split; [now destruct s|]]. apply coherent_reg_file, Co.
  - (* CAddBlock *) cbn [fst snd filter]. rewrite restrict_upd_file, restrict_reg_file.
    split; [now destruct s, (pf f)|split; [now destruct s|]]. apply coherent_upd_file, coherent_reg_file, Co.
  - (* CLock *) assert (S : pid id = s) by (destruct s, (pid id); easy).
    destruct s; [rewrite lookup_restrict by exact S|].
    all: destruct (tlookup id (t_blocks t)) as [b|] eqn:L; cbn [fst snd filter]; [|now split].
    all: rewrite restrict_upd_file, (coherent_lookup Co L), S.
    all: split; [reflexivity|split; [reflexivity|apply coherent_upd_file, Co]].
  - (* CUnlock *) assert (S : pid id = s) by (destruct s, (pid id); easy).
    destruct s; [rewrite lookup_restrict by exact S|].
    all: destruct (tlookup id (t_blocks t)) as [b|] eqn:L; cbn [fst snd filter]; [|now split].
    all: rewrite (filter_flush_check pid), !restrict_upd_file, (coherent_lookup Co L), S.
    all: split; [reflexivity|split; [reflexivity|apply coherent_upd_file, Co]].
  - (* CMark *) assert (S : pid id = s) by (destruct s, (pid id); easy).
    destruct s; [rewrite lookup_restrict by exact S|].
    all: destruct (tlookup id (t_blocks t)) as [b|] eqn:L; cbn [fst snd filter]; [|now split].
    all: destruct (fixed && bs_flag b); cbn [fst snd filter]; [now split|].
    all: pose proof (coherent_lookup Co L) as Hf.
    all: rewrite (filter_flush_check pid), !restrict_upd_file, restrict_set_flag, Hf, S.
    all: split; [reflexivity|split; [reflexivity|apply coherent_upd_file]].
    all: intros id' b' Hin; apply in_tset in Hin.
    all: destruct Hin as [Hin|[= -> ->]]; [now apply Co|exact Hf].
  - (* CFull *) cbn [fst snd]. rewrite (filter_flush_check pid), !restrict_upd_file, !restrict_reg_file.
    split; [now destruct s, (pf f)|split; [now destruct s, (pf f)|]]. apply coherent_upd_file, coherent_reg_file, Co.
  - (* CFlush *) cbn [fst snd]. rewrite (filter_flush_check pid). split; [now destruct s|split; [now destruct s, (pf f)|exact Co]].
Qed.

Lemma isolated_from fixed a pid pf : forall cs t,
  sided a pid pf cs -> coherent pid pf t ->
  restrict pid pf (fst (trk_run_from fixed t (untag cs))) =
    fst (trk_run_from fixed (restrict pid pf t) (proj a cs)) /\
  filter pf (snd (trk_run_from fixed t (untag cs))) =
    snd (trk_run_from fixed (restrict pid pf t) (proj a cs)).
Proof.
  induction cs as [|[i c] cs IH]; intros t Sd Co; [split; reflexivity|].
  destruct (step_side fixed pid pf t c (i =? a)) as (A & B & Co1); [exact (Sd i c (or_introl eq_refl))|exact Co|].
  destruct (IH (fst (trk_step fixed t c))) as [X Y]; [intros i' c' H; apply Sd; now right|exact Co1|].
  rewrite A in X, Y.
  unfold untag, proj in *. cbn [map filter fst snd]. rewrite run_cons. cbn [fst snd]. rewrite filter_app, B, X, Y.
  destruct (i =? a); cbn [map snd]; [rewrite run_cons|]; split; reflexivity.
Qed.
