(* EngineCrashR.v — crash points inside an append, a batch, or any other operation AFTER any history with restarts
   (any mode), outside block-id drift.  The streams do not depend on readers, so the mode-generic invariant
   GM (EngineGen / EngineGenR) carries the disk invariant DIs and the ledger through every restart;
   in a state of GM, [reopen_stream] rebuilds the streams of the state before and after the operation, and
   [crash_inside_batch] those of an interrupted batch ([GM_batch_crash]).  [c07_every_crash_image] says it for every
   crash image ([crash_image]) of every operation. *)
From W Require Import model.Base model.Engine spec.Queue proofs.EngineWF proofs.EngineInv proofs.EngineW proofs.EngineMain
  proofs.EngineDisk proofs.EngineBlk proofs.EngineNorm proofs.EngineRestart proofs.EngineC06 proofs.EngineGen proofs.EngineCrash proofs.EngineSinceR proofs.EngineCrashA.
Local Open Scope N_scope.

Lemma firstn_min {A} j (l : list A) : firstn (Nat.min j (length l)) l = firstn j l.
Proof.
  destruct (Nat.le_gt_cases j (length l)); [now rewrite Nat.min_l|]. rewrite Nat.min_r by lia. now rewrite !firstn_all2 by lia.
Qed.

(* a crash inside a batch in a state of the invariant (any mode; the readers may be un-hydrated) *)
Lemma GM_batch_crash c s g B Bb t es j : cfg_ok c -> GM c s g B Bb -> batch_ok c t es ->
  forall t0, stream (get_ts (batch_crash c s t es j) t0) =
             if t0 =? t_id t then stream (get_ts s (t_id t)) ++ firstn j es else stream (get_ts s t0).
Proof.
  intros Hc HG Hbok t0. pose proof HG as (Hn & Hd & _ & _ & Hall).
  rewrite <- (batch_crash_Nst false c s t es j Hn (TGM_CS c _ _ _ _ _ (Hall (t_id t)) Hn)).
  rewrite (crash_inside_batch c (Nst false s) _ _ _ t es j Hc (GM_Rel false c s _ _ _ HG) (proj2 (DIs_Nst false c s) Hd) Hbok t0).
  rewrite !get_Nst, !nrm_stream. reflexivity.
Qed.

(* the entries an operation puts in flight for topic [t0] *)
Definition inflight (o : op) (t0 : N) : list entry :=
  match o with
  | OAppend t e => if t0 =? t_id t then [e] else []
  | OBatch t es => if t0 =? t_id t then es else []
  | _ => []
  end.

(* the crash images of operation [o] started in state [s] (process-crash model, completed writes persist):
   nothing of it happened / all of it happened (appends: one positional write; reads: the atomic index
   rename; queries: nothing durable) / for an admissible batch, the first j entry writes happened.
   [op_ok c o] only says that [o] is not OReopen: a restart has a "before" image and no "after" image.
   [v] is meant with [v_cfg v = c]. *)
Inductive crash_image (c : Cfg) (v : env) (s : st) : op -> st -> Prop :=
| CI_before o : crash_image c v s o (reopen c s)
| CI_after o : op_ok c o -> crash_image c v s o (reopen c (fst (step v s o)))
| CI_batch t es j : batch_ok c t es -> crash_image c v s (OBatch t es) (batch_crash c s t es j).

Lemma ledger_step_app g o r t0 :
  exists k, (k <= length (inflight o t0))%nat /\
            l_app (lget (ledger_step g o r) t0) = l_app (lget g t0) ++ firstn k (inflight o t0).
Proof.
  assert (H0 : exists k, (k <= length (inflight o t0))%nat /\ l_app (lget g t0) = l_app (lget g t0) ++ firstn k (inflight o t0))
    by (exists 0%nat; split; [lia|]; cbn; now rewrite app_nil_r).
  destruct (N.eq_dec t0 (otopic o)) as [->|Hne]; [|now rewrite (ledger_step_other g o r t0 Hne)].
  destruct (ledger_step_own g o r) as [(Ha & _)|(-> & _)]; [|exact H0].
  (* at its own topic an operation has in flight what it offers *)
  exists (length (inflight o (otopic o))). split; [lia|]. rewrite Ha, firstn_all. f_equal.
  destruct o; cbn [inflight otopic offered]; rewrite ?N.eqb_refl; reflexivity.
Qed.

(* C07, model level, every crash point of every operation: after ANY history with restarts outside
   block-id drift (any mode, any backend), for every operation [o] and every crash image of it, every
   topic holds exactly its acknowledged stream followed by a prefix of what [o] had in flight for it *)
Theorem c07_every_crash_image c m be ops o : cfg_ok c ->
  outside_known (env_of c m be) init ops = true ->
  N.of_nat (length (offered_all ops)) + N.of_nat (length (offered o)) <= u64_max ->
  sum_len (offered_all ops) + sum_len (offered o) <= u64_max ->
  let v := env_of c m be in
  let s := exec v init ops in
  forall image, crash_image c v s o image ->
  forall t0, exists k, (k <= length (inflight o t0))%nat /\
                       stream (get_ts image t0) = stream (get_ts s t0) ++ firstn k (inflight o t0).
Proof.
  intros Hc Hout HB HBb. cbn zeta.
  pose proof (GM_from_init c m be ops Hc Hout ltac:(lia) ltac:(lia)) as HG.
  set (s := exec (env_of c m be) init ops) in *. set (g := gm_ledger (env_of c m be) init [] ops) in *.
  intros image Hci t0. inversion Hci as [o' | o' Hoko | t es j Hbok]; subst.
  - exists 0%nat. split; [lia|]. pose proof HG as (_ & Hd & _). rewrite (reopen_stream c s Hc Hd). cbn. now rewrite app_nil_r.
  - pose proof (GM_step c m be s g _ _ o Hc HG Hoko ltac:(lia) ltac:(lia)) as (_ & HG').
    pose proof HG' as (_ & Hd' & _). destruct (GQ_view QL c _ _ _ _ HG t0 false) as (_ & -> & _).
    rewrite (reopen_stream c _ Hc Hd'). destruct (GQ_view QL c _ _ _ _ HG' t0 false) as (_ & -> & _). apply ledger_step_app.
  - rewrite (GM_batch_crash c s g _ _ t es j Hc HG Hbok t0). cbn [inflight].
    destruct (t0 =? t_id t) eqn:E.
    + apply N.eqb_eq in E. subst t0. exists (Nat.min j (length es)). split; [lia|]. now rewrite firstn_min.
    + exists 0%nat. split; [cbn; lia|]. cbn. now rewrite app_nil_r.
Qed.

(* a single append: one positional write, so its crash images are the restart of the state before it
   and of the state after it *)
Theorem crash_inside_append_after_restarts c m be ops t e : cfg_ok c ->
  outside_known (env_of c m be) init ops = true ->
  N.of_nat (length (offered_all ops)) + 1 <= u64_max -> sum_len (offered_all ops) + e_len e <= u64_max ->
  let s := exec (env_of c m be) init ops in
  let s' := fst (step (env_of c m be) s (OAppend t e)) in
  forall image, image = reopen c s \/ image = reopen c s' ->
    (exists k, (k <= 1)%nat /\ stream (get_ts image (t_id t)) = stream (get_ts s (t_id t)) ++ firstn k [e]) /\
    forall t0, t0 <> t_id t -> stream (get_ts image t0) = stream (get_ts s t0).
Proof.
  intros Hc Hout HB HBb. cbn zeta. intros image Him.
  assert (Hci : crash_image c (env_of c m be) (exec (env_of c m be) init ops) (OAppend t e) image)
    by (destruct Him as [->| ->]; [apply CI_before|apply CI_after; exact I]).
  pose proof (c07_every_crash_image c m be ops (OAppend t e) Hc Hout ltac:(cbn [offered length]; lia)
                ltac:(cbn [offered sum_len fold_right]; lia) image Hci) as H. cbn [inflight] in H.
  split.
  - specialize (H (t_id t)). now rewrite N.eqb_refl in H.
  - intros t0 Hne. destruct (H t0) as (k & _ & Hk). replace (t0 =? t_id t) with false in Hk by lia.
    now rewrite firstn_nil, app_nil_r in Hk.
Qed.
