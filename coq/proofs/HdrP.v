(* HdrP.v — model/Hdr.v: the header round trip for both decoder variants, the checked decoder against
   the unchecked one, what Block::read and the recovery scan make of well-formed, of damaged and (V1) of
   arbitrary bytes (FNV-1a's single-byte sensitivity comes from FnvP), and what props/C11.v states or
   evaluates: damaged copies of one entry that refute C11 for the unchecked decoder, the property as
   stated. *)
From W Require Import model.Base model.Fnv model.Hdr proofs.ListP proofs.FnvP proofs.BytesP.

Lemma zeros_length n : length (zeros n) = n.
Proof. apply repeat_length. Qed.

Lemma slice_mid (a b c : list N) s l : length a = N.to_nat s -> length b = N.to_nat l ->
  slice (a ++ b ++ c) s l = b.
Proof.
  intros Ha Hb. unfold slice. rewrite (skipn_app_exact a _ _ Ha). apply firstn_app_exact. exact Hb.
Qed.

Lemma slice_take (a b : list N) l : length a = N.to_nat l -> slice (a ++ b) 0 l = a.
Proof. exact (slice_mid [] a b 0 l eq_refl). Qed.

(* Hdr's [le_bytes] / [le_num] / [bytes_ok] are convertible with Bincode's [le_bytes] / [le_val] and BytesP's [bytes]:
   BytesP's lemmas apply as they are *)
Lemma le_bytes_ok n : forall v, bytes_ok (le_bytes n v).
Proof. exact (le_bytes_bytes n). Qed.

(* top byte of a u32 with bit 31 set *)
Lemma le_bytes4_top v : 2147483648 <= v < 4294967296 -> 128 <= nth 3 (le_bytes 4 v) 0.
Proof.
  intros Hv. cbn [le_bytes nth]. rewrite !N.div_div by discriminate. lia.
Qed.

Lemma roundup8_ge n : (n <= roundup8 n)%nat.
Proof. unfold roundup8. lia. Qed.
Lemma roundup8_le n : (n <= 216 -> roundup8 n <= 216)%nat.
Proof. unfold roundup8. lia. Qed.

Lemma name_repr_length name : length (name_repr name) = 8%nat.
Proof.
  unfold name_repr. destruct (Nat.leb_spec (length name) 7).
  - rewrite !app_length, zeros_length. cbn [length]. lia.
  - rewrite app_length, !le_bytes_length. reflexivity.
Qed.

Lemma root_bytes_length m : length (root_bytes m) = 32%nat.
Proof.
  unfold root_bytes. rewrite !app_length, name_repr_length, !le_bytes_length, zeros_length. reflexivity.
Qed.

Lemma name_prefix_length name :
  length (name_prefix name) = if (length name <=? 7)%nat then 0%nat else roundup8 (length name).
Proof.
  unfold name_prefix. destruct (length name <=? 7)%nat; [reflexivity|].
  rewrite app_length, zeros_length. pose proof (roundup8_ge (length name)). lia.
Qed.

Lemma meta_bytes_length m : (length (m_name m) <= 216)%nat -> (32 <= length (meta_bytes m) <= 248)%nat.
Proof.
  intros H. unfold meta_bytes. rewrite app_length, root_bytes_length, name_prefix_length.
  pose proof (roundup8_le _ H). destruct (length (m_name m) <=? 7)%nat; lia.
Qed.

Lemma encode_hdr_length m : (length (m_name m) <= 216)%nat -> length (encode_hdr m) = 256%nat.
Proof.
  intros H. pose proof (meta_bytes_length m H).
  unfold encode_hdr. rewrite !app_length, le_bytes_length, zeros_length. lia.
Qed.

(* the root is the last 32 bytes of the archive, behind the name it points back to *)
Lemma meta_root_pos m :
  N.of_nat (length (meta_bytes m)) - root_size = N.of_nat (length (name_prefix (m_name m))).
Proof. unfold meta_bytes, root_size. rewrite app_length, root_bytes_length. lia. Qed.

Lemma meta_bytes_root m :
  skipn (N.to_nat (N.of_nat (length (meta_bytes m)) - root_size)) (meta_bytes m) = root_bytes m.
Proof. rewrite meta_root_pos, Nat2N.id. apply skipn_app_exact. reflexivity. Qed.

Lemma meta_len_aligned m : (N.of_nat (length (meta_bytes m)) - root_size) mod 8 = 0.
Proof.
  rewrite meta_root_pos, name_prefix_length. destruct (length (m_name m) <=? 7)%nat; [reflexivity|].
  unfold roundup8. rewrite Nat2N.inj_mul. apply N.mod_mul. discriminate.
Qed.

Lemma meta_at_encoded m : wf_meta m ->
  meta_at (meta_bytes m) (N.of_nat (length (meta_bytes m))) (m_name m) = m.
Proof.
  intros (_ & _ & Hrs & Hnbs & Hck). unfold meta_at. rewrite meta_bytes_root.
  pose proof (name_repr_length (m_name m)) as Hr.
  unfold root_nbs, root_checksum, root_read_size, root_bytes.
  destruct m as [nm rs nbs ck]. cbn [m_name m_read_size m_nbs m_checksum] in *. f_equal.
  - rewrite (app_assoc (name_repr _)), (app_assoc (_ ++ _)).
    rewrite slice_mid; [apply le_val_bytes; exact Hrs| |apply le_bytes_length].
    rewrite !app_length, Hr, !le_bytes_length. reflexivity.
  - rewrite slice_mid; [apply le_val_bytes; exact Hnbs|rewrite Hr; reflexivity|apply le_bytes_length].
  - rewrite (app_assoc (name_repr _)).
    rewrite slice_mid; [apply le_val_bytes; exact Hck| |apply le_bytes_length].
    rewrite app_length, Hr, le_bytes_length. reflexivity.
Qed.

(* the name field, short names: seven data bytes and the length *)
Lemma root_name_inline m : (length (m_name m) <= 7)%nat ->
  nth 7 (root_bytes m) 0 = N.of_nat (length (m_name m)) /\
  slice (root_bytes m) 0 (N.of_nat (length (m_name m))) = m_name m.
Proof.
  intros H. unfold root_bytes, name_repr. rewrite (proj2 (Nat.leb_le _ _) H). split.
  - rewrite app_nth1 by (rewrite !app_length, zeros_length; cbn [length]; lia).
    rewrite app_assoc, app_nth2 by (rewrite app_length, zeros_length; lia).
    rewrite app_length, zeros_length. replace (7 - _)%nat with 0%nat by lia. reflexivity.
  - rewrite <- app_assoc. apply slice_take. lia.
Qed.

(* long names: u32 length, then the distance back to the name as a negative i32 *)
Lemma root_name_outline m : (7 < length (m_name m) <= 216)%nat ->
  128 <= nth 7 (root_bytes m) 0 /\
  le_num (slice (root_bytes m) 0 4) = N.of_nat (length (m_name m)) /\
  4294967296 - le_num (slice (root_bytes m) 4 4) = N.of_nat (roundup8 (length (m_name m))).
Proof.
  intros H. pose proof (roundup8_ge (length (m_name m))). pose proof (roundup8_le (length (m_name m))).
  unfold root_bytes, name_repr. rewrite (proj2 (Nat.leb_gt _ _)) by lia. rewrite <- app_assoc. repeat split.
  - rewrite app_nth2, app_nth1 by (rewrite ?le_bytes_length; clear; lia).
    rewrite le_bytes_length. apply le_bytes4_top. lia.
  - rewrite slice_take by apply le_bytes_length. apply (le_val_bytes 4). cbn [pow256]. lia.
  - rewrite slice_mid by apply le_bytes_length. rewrite (le_val_bytes 4) by (cbn [pow256]; lia). lia.
Qed.

Lemma name_checked_refines buf L nm : 32 <= L -> name_checked buf L = Some nm -> name_unchecked buf L = Some nm.
Proof.
  unfold name_checked, name_unchecked, root_size. intros HL.
  set (root := skipn _ buf). set (b7 := nth 7 root 0).
  destruct (b7 <? 128).
  - destruct (N.leb_spec b7 7) as [H7|]; [|discriminate].
    rewrite (proj2 (N.leb_le (L - 32 + b7) L)) by lia. exact (fun H => H).
  - set (len := le_num (slice root 0 4)). set (back := 4294967296 - le_num (slice root 4 4)).
    destruct (N.leb_spec back (L - 32)) as [Hb|]; cbn [andb]; [|discriminate].
    assert (Hin : len <= back -> (L - 32 - back + len <=? L) = true) by (intros; apply N.leb_le; lia).
    destruct (N.eqb_spec len 0) as [E0|].
    + rewrite Hin by lia. exact (fun H => H).
    + destruct (0 <? back); cbn [andb]; [|discriminate].
      destruct (N.leb_spec len back) as [Hl|]; [|discriminate].
      rewrite (Hin Hl). exact (fun H => H).
Qed.

Lemma name_checked_encoded m : (length (m_name m) <= 216)%nat ->
  name_checked (meta_bytes m) (N.of_nat (length (meta_bytes m))) = Some (m_name m).
Proof.
  intros Hn. unfold name_checked. rewrite meta_bytes_root, meta_root_pos, name_prefix_length.
  destruct (Nat.leb_spec (length (m_name m)) 7) as [Hs|Hs].
  - destruct (root_name_inline m Hs) as (-> & ->).
    rewrite (proj2 (N.ltb_lt _ 128)), (proj2 (N.leb_le _ 7)) by lia. reflexivity.
  - destruct (root_name_outline m (conj Hs Hn)) as (H7 & -> & ->).
    pose proof (roundup8_ge (length (m_name m))) as Hg.
    rewrite (proj2 (N.ltb_ge _ 128) H7), N.leb_refl, N.sub_diag.
    rewrite (proj2 (N.eqb_neq _ 0)), (proj2 (N.ltb_lt 0 _)), (proj2 (N.leb_le _ _)) by lia.
    cbn [andb]. f_equal.
    unfold meta_bytes, name_prefix. rewrite (proj2 (Nat.leb_gt _ _) Hs), <- app_assoc.
    apply slice_take. lia.
Qed.

Lemma decode_hdr_accepts v buf pad nm : let L := N.of_nat (length buf) in
  32 <= L <= 254 -> (L - 32) mod 8 = 0 -> name_checked buf L = Some nm ->
  (v = V1 -> utf8_ok nm = true) ->
  decode_hdr v (le_bytes 2 L ++ buf ++ pad) = HMeta (meta_at buf L nm).
Proof.
  intros L HL Hal Hnm Hu. unfold decode_hdr.
  rewrite firstn_app_exact by apply le_bytes_length.
  rewrite (le_val_bytes 2) by (cbn [pow256]; lia).
  rewrite slice_mid; [|apply le_bytes_length|symmetry; apply Nat2N.id]. cbv zeta.
  replace ((L =? 0) || (max_meta_len <? L)) with false by (unfold max_meta_len; lia).
  destruct v; unfold decode_unchecked, decode_checked, root_size;
    rewrite (proj2 (N.ltb_ge L 32)) by lia; rewrite Hal; cbn [N.eqb negb].
  - rewrite (name_checked_refines buf L nm (proj1 HL) Hnm). reflexivity.
  - rewrite Hnm, (Hu eq_refl). reflexivity.
Qed.

Theorem hdr_roundtrip v m : wf_meta m -> (v = V1 -> utf8_ok (m_name m) = true) ->
  decode_hdr v (encode_hdr m) = HMeta m.
Proof.
  intros Hwf Hu. pose proof Hwf as (Hn & _). pose proof (meta_bytes_length m Hn) as HLb.
  unfold encode_hdr. cbv zeta. rewrite (decode_hdr_accepts v _ _ (m_name m)).
  - rewrite meta_at_encoded by exact Hwf. reflexivity.
  - lia.
  - apply meta_len_aligned.
  - apply name_checked_encoded. exact Hn.
  - exact Hu.
Qed.

(* the length test comes before the two decoders part ways, so HBadLen is common to both; short root,
   misaligned root and out-of-bounds name are outcomes of the unchecked decoder alone *)
Lemma decode_hdr_checked hdr :
  match decode_hdr V1 hdr with
  | HBadLen => decode_hdr V0 hdr = HBadLen
  | HInvalid => True
  | HMeta m => decode_hdr V0 hdr = HMeta m /\ utf8_ok (m_name m) = true
  | _ => False
  end.
Proof.
  unfold decode_hdr. cbv zeta. set (L := le_num (firstn 2 hdr)). set (buf := slice hdr 2 L).
  destruct ((L =? 0) || (max_meta_len <? L)); [reflexivity|].
  unfold decode_checked, decode_unchecked.
  destruct (N.ltb_spec L root_size) as [|HL]; [exact I|].
  destruct (negb ((L - root_size) mod 8 =? 0)); [exact I|].
  destruct (name_checked buf L) as [nm|] eqn:En; [|exact I].
  rewrite (name_checked_refines buf L nm HL En).
  destruct (utf8_ok nm) eqn:Eu; [|exact I]. split; [reflexivity|exact Eu].
Qed.

Record wentry := mkW { we_name : list N; we_payload : list N; we_nbs : N }.

(* what the engine writes: names are Rust &str (valid UTF-8, at most 216 bytes or the append is
   refused), payload sizes fit the u32 the archive stores *)
Definition wf_entry (e : wentry) : Prop :=
  (length (we_name e) <= 216)%nat /\ bytes_ok (we_name e) /\ utf8_ok (we_name e) = true /\
  bytes_ok (we_payload e) /\ N.of_nat (length (we_payload e)) < 4294967296 /\ we_nbs e < two64.

Definition enc_w (e : wentry) : list N := enc_entry (we_name e) (we_payload e) (we_nbs e).
Definition meta_w (e : wentry) : meta := meta_for (we_name e) (we_payload e) (we_nbs e).
Definition enc_ws (es : list wentry) : list N := flat_map enc_w es.

Lemma decode_hdr_w v e : wf_entry e -> decode_hdr v (encode_hdr (meta_w e)) = HMeta (meta_w e).
Proof.
  intros (Hn & Hb & Hu & _ & Hl & Hnbs). apply hdr_roundtrip; [|intros _; exact Hu].
  repeat split; try assumption. apply checksum64_lt.
Qed.

Lemma enc_w_length e : wf_entry e -> length (enc_w e) = (256 + length (we_payload e))%nat.
Proof.
  intros (Hn & _). unfold enc_w, enc_entry. rewrite app_length, encode_hdr_length; [reflexivity|exact Hn].
Qed.

Lemma enc_w_skip e rest : wf_entry e ->
  skipn (N.to_nat (hdr_size + N.of_nat (length (we_payload e)))) (enc_w e ++ rest) = rest.
Proof. intros He. apply skipn_app_exact. rewrite enc_w_length by exact He. unfold hdr_size. lia. Qed.

Lemma enc_ws_cons_length e es : wf_entry e ->
  N.of_nat (length (enc_ws (e :: es))) =
  hdr_size + N.of_nat (length (we_payload e)) + N.of_nat (length (enc_ws es)).
Proof.
  intros He. cbn [enc_ws flat_map]. fold (enc_ws es).
  rewrite app_length, enc_w_length by exact He. unfold hdr_size. lia.
Qed.

Lemma entry_read_window v lenient m p rest :
  (length (m_name m) <= 216)%nat -> decode_hdr v (encode_hdr m) = HMeta m ->
  m_read_size m = N.of_nat (length p) ->
  entry_read v lenient (encode_hdr m ++ p ++ rest) =
  if checksum64 p =? m_checksum m then ROk m p else RErr.
Proof.
  intros Hn Hd Hrs. pose proof (encode_hdr_length m Hn) as Hl. unfold entry_read.
  rewrite firstn_app_exact, skipn_app_exact, Hd, Hrs, app_length by exact Hl.
  rewrite (proj2 (N.ltb_ge _ _)) by lia.
  rewrite Nat2N.id, firstn_app_exact by reflexivity. reflexivity.
Qed.

Theorem entry_read_wf v lenient e rest : wf_entry e ->
  entry_read v lenient (enc_w e ++ rest) = ROk (meta_w e) (we_payload e).
Proof.
  intros Hwf. unfold enc_w, enc_entry. rewrite <- app_assoc.
  fold (meta_w e).
  rewrite entry_read_window.
  - unfold meta_w, meta_for. cbn [m_checksum]. rewrite N.eqb_refl. reflexivity.
  - apply Hwf.
  - apply decode_hdr_w. exact Hwf.
  - reflexivity.
Qed.

(* exactly one payload byte changed, header untouched: the read fails with InvalidData *)
Theorem entry_read_damaged v lenient name pre b b' post nbs rest :
  wf_entry (mkW name (pre ++ b :: post) nbs) -> b' < 256 -> b <> b' ->
  entry_read v lenient (encode_hdr (meta_for name (pre ++ b :: post) nbs) ++ (pre ++ b' :: post) ++ rest) = RErr.
Proof.
  intros Hwf Hb' Hne.
  rewrite entry_read_window.
  - unfold meta_for. cbn [m_checksum].
    destruct (N.eqb_spec (checksum64 (pre ++ b' :: post)) (checksum64 (pre ++ b :: post))) as [E|]; [|reflexivity].
    destruct Hwf as (_ & _ & _ & Hp & _).
    destruct (checksum64_single_byte pre b b' post Hp Hb' Hne (eq_sym E)).
  - apply Hwf.
  - exact (decode_hdr_w v (mkW name (pre ++ b :: post) nbs) Hwf).
  - unfold meta_for. cbn [m_read_size]. rewrite !app_length. reflexivity.
Qed.

Lemma decode_hdr_zero_len v hdr : le_num (firstn 2 hdr) = 0 -> decode_hdr v hdr = HBadLen.
Proof. intros H. unfold decode_hdr. rewrite H. reflexivity. Qed.

(* a zeroed (or absent) length prefix: InvalidData before any archive access *)
Theorem entry_read_zero_len v lenient bs : le_num (firstn 2 bs) = 0 -> entry_read v lenient bs = RErr.
Proof.
  intros H. unfold entry_read. rewrite decode_hdr_zero_len; [reflexivity|].
  rewrite firstn_firstn. exact H.
Qed.

(* running out of fuel counts as clean: the scan theorems hold for any fuel *)
Definition clean_stop (s : stop) : Prop := match s with StUb _ | StPastEnd _ => False | _ => True end.

(* well-formed entries followed by anything whose header read fails: the scan returns a prefix of
   the well-formed payloads and never reaches undefined behaviour or a panic *)
Theorem scan_prefix v lenient fsz B tail : entry_read v lenient tail = RErr ->
  forall es fuel pos off limit, Forall wf_entry es ->
  let r := scan_loop fuel v lenient fsz B (enc_ws es ++ tail) pos off limit in
  (exists k, sc_entries r = firstn k (map we_payload es)) /\ clean_stop (sc_stop r).
Proof.
  intros Htail. induction es as [|e es IH]; intros fuel pos off limit Hwf; cbn zeta.
  all: destruct fuel as [|f]; cbn [scan_loop]; [split; [exists 0%nat; reflexivity|exact I]|].
  all: destruct (fsz <? pos + hdr_size); [split; [exists 0%nat; reflexivity|exact I]|].
  - cbn [enc_ws flat_map app]. rewrite Htail. split; [exists 0%nat; reflexivity|exact I].
  - apply Forall_cons_iff in Hwf. destruct Hwf as [He Hes].
    cbn [enc_ws flat_map]. fold (enc_ws es). rewrite <- app_assoc.
    rewrite entry_read_wf, enc_w_skip by exact He.
    set (c := hdr_size + N.of_nat (length (we_payload e))).
    set (limit' := if limit <? off + c then _ else limit).
    destruct (limit' <=? off + c).
    + split; [exists 1%nat; reflexivity|exact I].
    + destruct (IH f (pos + c) (off + c) limit' Hes) as ((k & Hk) & Hc).
      cbn [sc_entries sc_stop]. split; [|exact Hc].
      exists (S k). cbn [map firstn]. rewrite Hk. reflexivity.
Qed.

Theorem scan_complete v lenient fsz B tail : entry_read v lenient tail = RErr ->
  forall es fuel pos off limit, Forall wf_entry es ->
  (length es < fuel)%nat ->
  pos + N.of_nat (length (enc_ws es)) + hdr_size <= fsz ->
  off + N.of_nat (length (enc_ws es)) < limit ->
  let r := scan_loop fuel v lenient fsz B (enc_ws es ++ tail) pos off limit in
  sc_entries r = map we_payload es /\ sc_used r = off + N.of_nat (length (enc_ws es)) /\
  sc_limit r = limit /\ sc_stop r = StErr.
Proof.
  intros Htail. induction es as [|e es IH]; intros fuel pos off limit Hwf Hf Hp Hl; cbn zeta.
  all: destruct fuel as [|f]; [lia|].
  - cbn [enc_ws flat_map app length scan_loop] in *.
    rewrite (proj2 (N.ltb_ge fsz (pos + hdr_size))), Htail by lia. cbn. repeat split; lia.
  - apply Forall_cons_iff in Hwf. destruct Hwf as [He Hes].
    rewrite (enc_ws_cons_length e es He) in Hp, Hl |- *. cbn [length] in Hf.
    cbn [enc_ws flat_map scan_loop]. fold (enc_ws es).
    rewrite <- app_assoc, entry_read_wf, enc_w_skip by exact He.
    set (c := hdr_size + N.of_nat (length (we_payload e))) in *.
    (* room in the file and in the block: the extent stays as it is and the scan goes on *)
    rewrite (proj2 (N.ltb_ge fsz _)), (proj2 (N.ltb_ge limit _)), (proj2 (N.leb_gt limit _)) by lia.
    destruct (IH f (pos + c) (off + c) limit Hes) as (E1 & E2 & E3 & E4); try lia.
    cbn [sc_entries sc_used sc_limit sc_stop map]. rewrite E1, E2, E3, E4.
    repeat split. lia.
Qed.

(* the two mechanisms by which the code before fix 6c119bb (V0) leaves defined behaviour at an entry
   position [bs] (file bytes from the entry's offset on) *)
Definition archive_invalid (bs : list N) : Prop := decode_hdr V1 (firstn 256 bs) = HInvalid.
Definition window_past_end (bs : list N) : Prop :=
  exists m, decode_hdr V0 (firstn 256 bs) = HMeta m /\ N.of_nat (length (skipn 256 bs)) < m_read_size m.
Definition KnownClass (bs : list N) : Prop := archive_invalid bs \/ window_past_end bs.

(* what a successful read is allowed to be: header and payload are consistent with each other *)
Definition consistent_read (bs : list N) (m : meta) (p : list N) : Prop :=
  decode_hdr V1 (firstn 256 bs) = HMeta m /\ p = slice bs 256 (m_read_size m) /\
  checksum64 p = m_checksum m /\ utf8_ok (m_name m) = true.

(* the code since fix 6c119bb (V1) has no undefined outcome at all, whatever the bytes *)
Theorem entry_fixed_total lenient bs :
  match entry_read V1 lenient bs with
  | RErr => True
  | ROk m p => consistent_read bs m p
  | RUb _ | RPastEnd _ => False
  end.
Proof.
  pose proof (decode_hdr_checked (firstn 256 bs)) as T. unfold entry_read.
  destruct (decode_hdr V1 (firstn 256 bs)) as [| | | | |m] eqn:E1; [exact I|destruct T|destruct T|destruct T|exact I|].
  destruct (N.of_nat (length (skipn 256 bs)) <? m_read_size m); [exact I|].
  change (firstn _ (skipn 256 bs)) with (slice bs 256 (m_read_size m)).
  destruct (N.eqb_spec (checksum64 (slice bs 256 (m_read_size m))) (m_checksum m)) as [Ec|]; [|exact I].
  repeat split; [exact E1|exact Ec|apply T].
Qed.

(* outside the two mechanisms the code before the fix reads exactly what the code since reads *)
Theorem entry_read_outside_known lenient bs : ~ KnownClass bs ->
  entry_read V0 lenient bs = entry_read V1 lenient bs.
Proof.
  intros Hk. pose proof (decode_hdr_checked (firstn 256 bs)) as T. unfold entry_read.
  destruct (decode_hdr V1 (firstn 256 bs)) as [| | | | |m] eqn:E1; [|destruct T|destruct T|destruct T| |].
  - rewrite T. reflexivity.
  - destruct Hk. left. exact E1.
  - destruct T as [E0 _]. rewrite E0.
    destruct (N.ltb_spec (N.of_nat (length (skipn 256 bs))) (m_read_size m)) as [Hw|]; [|reflexivity].
    destruct Hk. right. exists m. split; [exact E0|exact Hw].
Qed.

Theorem scan_fixed_clean fuel : forall lenient fsz B bs pos off limit,
  clean_stop (sc_stop (scan_loop fuel V1 lenient fsz B bs pos off limit)).
Proof.
  induction fuel as [|f IH]; intros; cbn [scan_loop]; [exact I|].
  destruct (fsz <? pos + hdr_size); [exact I|].
  pose proof (entry_fixed_total lenient bs) as T.
  destruct (entry_read V1 lenient bs) as [|h|m|m p]; [exact I|destruct T|destruct T|].
  destruct (_ <=? off + (hdr_size + N.of_nat (length p))); [exact I|]. apply IH.
Qed.

Definition clean_file_stop (s : file_stop) : Prop := match s with FsUb _ | FsPastEnd _ => False | _ => True end.

Lemma file_stop_of_clean s : clean_stop s -> file_stop_of s = None.
Proof. destruct s; try reflexivity; intros []. Qed.

Fixpoint upd (n : nat) (x : N) (l : list N) : list N :=
  match l, n with
  | [], _ => []
  | _ :: r, O => x :: r
  | y :: r, S k => y :: upd k x r
  end.

(* a valid entry and damaged copies of it; the archive starts at byte 2 and, the name being short,
   consists of the root alone *)
Definition w_name : list N := [97; 98].                 (* "ab" *)
Definition w_payload : list N := [1; 2; 3; 4; 5].
Definition w_entry : list N := enc_entry w_name w_payload 4096.
(* meta_len := 5 *)
Definition w_short_root : list N := upd 0 5 w_entry.
(* read_size := 5 + 65536 *)
Definition w_big_size : list N := upd 28 1 w_entry.
(* its 256-byte header, and damaged copies of that *)
Definition w_hdr : list N := firstn 256 w_entry.
(* meta_len := 33 *)
Definition w_misaligned : list N := upd 0 33 w_hdr.
(* inline length byte := 100 *)
Definition w_oob_inline : list N := upd 9 100 w_hdr.
(* out-of-line name: length 2^32-1, offset -16 *)
Definition w_oob_huge : list N := upd 2 255 (upd 3 255 (upd 4 255 (upd 5 255 (upd 6 240 (upd 7 255 (upd 8 255 (upd 9 255 w_hdr))))))).
(* inline length byte := 20: still inside the buffer, the root's own bytes become the topic name *)
Definition w_inline_long : list N := upd 9 20 w_hdr.

Definition one_byte_diff (a b : list N) : Prop :=
  exists pre x y post, a = pre ++ x :: post /\ b = pre ++ y :: post /\ x <> y.

Lemma upd_one_byte_diff n x : forall l y, nth_error l n = Some y -> y <> x -> one_byte_diff l (upd n x l).
Proof.
  induction n as [|n IH]; intros [|z l] y H Hne; try discriminate H; cbn [nth_error upd] in *.
  - injection H as ->. now exists [], y, x, l.
  - destruct (IH l y H Hne) as (pre & a & b & post & -> & -> & Hab). now exists (z :: pre), a, b, post.
Qed.

(* C11, no-crash half, over the model of the recovery scan: whatever the file holds *)
Definition C11_full (v : variant) : Prop :=
  forall lenient fsz B file, clean_file_stop (fs_stop (scan_file v lenient fsz B file)).
(* C11, no-foreign-data half at one entry position: one damaged byte never lets the stored
   payload through under another topic *)
Definition C11_owner_full (v : variant) : Prop :=
  forall e bs' lenient m p, wf_entry e -> one_byte_diff (enc_w e) bs' ->
    entry_read v lenient bs' = ROk m p -> m_name m = we_name e.

(* a file of one 512-byte block (props/C11.v scans it with fsz = B = 512) *)
Definition w_file (hdr : list N) : list N := hdr ++ zeros (512 - length hdr).

