(* EngineCrash.v — crash points INSIDE an operation.
   (1) inside a batch append: the image after the first j entry writes ([batch_crash], model/Engine.v)
       recovers, for the batch's topic, the acknowledged stream followed by exactly the first j
       entries of the batch, and every other topic's stream unchanged ([crash_inside_batch]: the disk invariant of
       the planning writer, DIcur, says what the image holds; reopen_stream_DI reads it off); the image does not
       depend on pending hydrations ([batch_crash_Nst]);
   (2) a read leaves block-id drift as it was ([id_drift_read], [id_drift_batch_read]): what the recovery scan finds
       for a topic are its blocks that hold entries.  The crash images of reads: EngineCrashA.v. *)
From W Require Import model.Base model.Engine proofs.EngineWF proofs.EngineInv proofs.EngineW proofs.EngineMain proofs.EngineRec proofs.EngineDisk
  proofs.EnginePos proofs.EngineBlk proofs.EngineNorm proofs.EngineReopen proofs.EngineNormW.

Lemma PSteps_writer c t p es q : PSteps c t p es q ->
  ts_writer (get_ts (fst q) (t_id t)) = ts_writer (get_ts (fst p) (t_id t)).
Proof.
  induction 1 as [p|p e q es r Hs _ IH]; [reflexivity|]. rewrite IH.
  destruct Hs as [s cur e Hfit|s cur e want s1 nb Ha Hw]; cbn [fst]; rewrite get_ts_disk_write; [reflexivity|].
  destruct (alloc_sized_inv _ _ _ _ _ Ha) as (_ & Ht & _). now rewrite (get_ts_topics _ _ _ Ht), get_set_same.
Qed.

Theorem crash_inside_batch c s g B Bb t es j : cfg_ok c -> Rel c s g B Bb -> DIs c s -> batch_ok c t es ->
  forall t0, stream (get_ts (batch_crash c s t es j) t0) =
             if t0 =? t_id t then stream (get_ts s (t_id t)) ++ firstn j es else stream (get_ts s t0).
Proof.
  intros Hc (Hg & _) Hd (Hname & Hsz) t0. pose proof Hc as (Hh & Hb0 & _).
  unfold batch_crash.
  pose proof (proj2 (ensure_DIcur c s t Hc Hg Hd)) as Hd1.
  destruct (ensure_writer_spec c s t Hc Hg) as (s1 & w & He & Hle1 & Hn1 & Hoth1 & Hw1 & Hp1 & Hst1 & Hun1 & Hcnt1).
  rewrite He in *. cbn [fst snd] in Hd1.
  assert (Hszj : Forall (fun e => need c e <= c_max_alloc c) (firstn j es)).
  { clear - Hsz. revert j. induction Hsz as [|e l He Hl IH]; intros j; destruct j; cbn [firstn]; constructor; auto. }
  destruct (batch_plan_psteps c Hc t (firstn j es) s1 w false Hszj) as (s2 & wfin & rot' & Hbp & Hps).
  pose proof (proj1 (PSteps_wframe c t _ _ _ Hps)) as Hoth2.
  pose proof (PSteps_WSteps c Hc t _ _ _ Hps) as W. pose proof (PSteps_writer c t _ _ _ Hps) as Hw2.
  rewrite Hbp in *. cbn [fst snd] in Hoth2, W, Hw2. rewrite (with_writer_same _ _ Hw1) in W.
  destruct (WSteps_spec c Hh _ _ _ _ _ Hn1 Hp1 W) as (_ & _ & Hst2 & _).
  (* the image is well-formed for the planning writer, stored or not *)
  pose proof (DIcur_psteps c t _ _ _ Hc Hps Hd1) as Hd2.
  rewrite (reopen_stream_DI c s2 _ _ Hc (proj1 Hd2) t0).
  - cbn [fst snd]. unfold upd. destruct (t0 =? t_id t) eqn:Et; [now rewrite Hst2, Hst1|].
    apply N.eqb_neq in Et. unfold sms. now rewrite (Hoth2 t0 Et), (Hoth1 t0 Et).
  - intros E0. cbn [fst snd]. unfold upd. destruct (t0 =? t_id t) eqn:Et; [|unfold sms; now rewrite E0].
    apply N.eqb_eq in Et. subst t0. rewrite E0, Hw1 in Hw2. discriminate.
Qed.

Lemma stream_of_stream s t : stream_of s t = stream (get_ts s t).
Proof. unfold stream_of, stream, chain_ents, chain_of, reader_of, w_ents. destruct (ts_reader (get_ts s t)); reflexivity. Qed.

Lemma scan_chain_ents c s t : cfg_ok c -> DIs c s -> BIs c s ->
  map b_ents (rc_get (rc_chains (fst (scan0 c s))) t) = mblocks (get_ts s t).
Proof.
  intros Hc Hd Hb. rewrite (proj1 (proj2 (proj2 (scan0_spec c (fun _ => True) s _ _ Hc Hd)))). apply Hb.
Qed.

Lemma id_drift_set_ts c s t ts' : cfg_ok c -> DIs c s -> BIs c s -> SB (get_ts s t) ts' ->
  id_drift c (set_ts s t ts') = id_drift c s.
Proof.
  intros Hc Hd Hb (Hch & Hw). pose proof (scan_chain_ents c s t Hc Hd Hb) as Hsc.
  unfold id_drift, scan0 in *. cbn [set_ts s_disk s_files s_topics].
  destruct (scan_files _ _ _ _ _ _) as [rc nid]. cbn [fst] in Hsc.
  assert (Hmem : memne ts' = memne (get_ts s t)).
  { unfold memne, w_list. now rewrite Hch, Hw. }
  unfold get_ts in *. revert Hsc Hmem Hch Hw.
  induction (s_topics s) as [|[k x] l IH]; intros Hsc Hmem Hch Hw; cbn [set_assoc find existsb fst snd] in *.
  - (* t has no entry and set_ts appends one: the scan found no chain for t (Hsc), so the new entry shows no drift *)
    rewrite orb_false_r. rewrite memne_raw, Hmem. unfold rc_get in Hsc.
    destruct (find (fun q => fst q =? t) (rc_chains rc)) as [[k2 [t2 ch]]|]; [|reflexivity].
    unfold mblocks in Hsc. cbn in Hsc. destruct ch; [reflexivity|discriminate].
  - destruct (k =? t) eqn:E; cbn [existsb fst snd].
    + assert (k = t) by lia. subst k. rewrite !memne_raw, Hmem. reflexivity.
    + f_equal. now apply IH.
Qed.

Lemma id_drift_read c m s t ck : cfg_ok c -> DIs c s -> BIs c s ->
  id_drift c (fst (read_next c m s t ck)) = id_drift c s.
Proof.
  intros Hc Hd Hb. destruct (read_next_SB c m s t ck) as (ts' & res & Hr & Hsb). rewrite Hr. cbn [fst].
  now apply id_drift_set_ts.
Qed.

Lemma id_drift_batch_read c m s t maxb ck start : cfg_ok c -> DIs c s -> BIs c s ->
  id_drift c (fst (batch_read c m s t maxb ck start)) = id_drift c s.
Proof.
  intros Hc Hd Hb. destruct (batch_read_SB c m s t maxb ck start) as (ts' & res & Hr & Hsb). rewrite Hr. cbn [fst].
  now apply id_drift_set_ts.
Qed.

Lemma reopen_Nst x c s : reopen c (Nst x s) = reopen c s.
Proof.
  unfold reopen. cbn [Nst s_disk s_files s_topics]. destruct (scan_files _ _ _ _ _ _) as [rc nid]. f_equal.
  rewrite map_map. apply map_ext. intros [k ts]. cbn [fst snd]. now rewrite nrm_index, nrm_unmodelled.
Qed.

(* the crash image of a batch is the same from a raw state and from its normalisation: planning commutes with it
   (batch_plan_Nst, under the commutation premise CSw) and the restart forgets the readers *)
Lemma batch_crash_Nst x c s t es j :
  0 < a_next (s_alloc s) -> CSw (get_ts s (t_id t)) (a_next (s_alloc s)) ->
  batch_crash c (Nst x s) t es j = batch_crash c s t es j.
Proof.
  intros Hn Hcs. unfold batch_crash. rewrite ensure_writer_Nst.
  pose proof (proj1 (proj2 (ensure_wframe c s t))) as Kn. pose proof (ensure_writer_CS c s t Hn Hcs) as Hcs1.
  destruct (ensure_writer c s t) as [s1 w]. cbn [fst snd] in *.
  rewrite (batch_plan_Nst x c t (firstn j es) s1 w false ltac:(lia) Hcs1).
  destruct (batch_plan c s1 t w false (firstn j es)) as [[[s2 wfin] okp] rot]. apply reopen_Nst.
Qed.
