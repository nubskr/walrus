(* EngineMain.v — every sequential, restart-free history of admissible operations: the
   model's trace is accepted by the queue-spec acceptors for C01, C03 and C15. *)
From W Require Import model.Base model.Engine spec.Queue proofs.EngineBasic proofs.EngineWF proofs.EngineInv
  proofs.EnginePos proofs.EngineBR proofs.EngineW.

Lemma lget_lset_same g t l : lget (lset g t l) t = l.
Proof. unfold lget, lset. now rewrite find_set_assoc_same. Qed.
Lemma lget_lset_other g t t' l : t' <> t -> lget (lset g t l) t' = lget g t'.
Proof. intros Hne. unfold lget, lset. now rewrite find_set_assoc_other. Qed.

Definition sum_len (es : list entry) : N := fold_right (fun e a => e_len e + a) 0 es.

(* every append, batch (accepted or rejected for its size, its entry count, its topic name),
   read and count is admissible: only a restart (C06's subject) is not, and [c] is not looked at *)
Definition op_ok (c : Cfg) (o : op) : Prop :=
  match o with
  | OReopen => False
  | _ => True
  end.

Definition offered (o : op) : list entry :=
  match o with OAppend _ e => [e] | OBatch _ es => es | _ => [] end.
Fixpoint offered_all (ops : list op) : list entry :=
  match ops with [] => [] | o :: r => offered o ++ offered_all r end.

(* the model state and the ledger of the spec tell the same story; [B] bounds the number of
   appended entries (so that the u64 entry counter never saturates), [Bb] their total payload
   bytes (carried along; no step in this file needs it) *)
Definition Rel (c : Cfg) (s : st) (g : lg) (B Bb : N) : Prop :=
  GInv c s /\
  forall t, (l_del (lget g t) <= length (l_app (lget g t)))%nat /\
            stream (get_ts s t) = l_app (lget g t) /\
            unread c (get_ts s t) = skipn (l_del (lget g t)) (l_app (lget g t)) /\
            N.of_nat (length (l_app (lget g t))) <= B /\ sum_len (l_app (lget g t)) <= Bb.

Lemma Rel_init c : Rel c init [] 0 0.
Proof. split; [apply GInv_init|]. intros t. cbn. repeat split; lia. Qed.

Lemma sum_len_app a b : sum_len (a ++ b) = sum_len a + sum_len b.
Proof. unfold sum_len. induction a; cbn; [lia|]. rewrite IHa. lia. Qed.

Lemma out_is_out_of e : out_is (out_of e) e = true.
Proof. unfold out_is, out_of; cbn. rewrite !N.eqb_refl. cbn. now rewrite orb_true_r. Qed.
Lemma outs_are_map l : outs_are (map out_of l) l = true.
Proof. induction l; cbn; [reflexivity|]. now rewrite out_is_out_of, IHl. Qed.

Lemma sum_out_len_map l : sum_out_len (map out_of l) = sum_len l.
Proof. unfold sum_out_len, sum_len. induction l; cbn; [reflexivity|]. now rewrite IHl. Qed.
Lemma sum_len_firstn_le l k : sum_len (firstn k l) <= sum_len l.
Proof. rewrite <- (firstn_skipn k l) at 2. rewrite sum_len_app. lia. Qed.
Lemma sum_len_skipn_le l k : sum_len (skipn k l) <= sum_len l.
Proof. rewrite <- (firstn_skipn k l) at 2. rewrite sum_len_app. lia. Qed.

Lemma br_position_stateless c ts st0 :
  exists idx0 off0 tb tof trim0 hint0,
    br_position c ts (Some st0) = (None, chain_of ts, idx0, off0, tb, tof, trim0, hint0, true).
Proof.
  unfold br_position. rewrite chain_of_raw.
  destruct (off_locate _ 0 st0) as [[[i b]|] rem].
  - destruct (off_scan c (b_ents b) 0 (b_used b) rem) as [[[[co hint] trim]|] fl]; [|destruct fl]; repeat eexists.
  - repeat eexists.
Qed.

Lemma batch_read_stateless c m s t maxb ck st0 :
  exists os, batch_read c m s t maxb ck (Some st0) = (set_ts s (t_id t) (get_ts s (t_id t)), REntries os).
Proof.
  unfold batch_read.
  destruct (br_position_stateless c (get_ts s (t_id t)) st0) as (idx0 & off0 & tb & tof & trim0 & hint0 & ->).
  rewrite br_from_eq. cbn zeta. destruct (br_parsed _ _ _ _); [rewrite br_commit_stateless|]; eexists; reflexivity.
Qed.

(* cap and budget of a batch read's answer, as the acceptor c03 computes them *)
Definition capb (cap maxb : N) (os : list out) : bool :=
  (N.of_nat (length os) <=? cap) && ((N.min u64_max (sum_out_len os) <=? maxb) || (length os <=? 1)%nat).

Lemma cap_budget_ok c m s t maxb ck start s' os : batch_read c m s t maxb ck start = (s', REntries os) ->
  capb (c_max_entries c) maxb os = true.
Proof. intros H. destruct (batch_read_cap_budget _ _ _ _ _ _ _ _ _ H) as (Hcap & Hbud). unfold capb, usize_max in *. lia. Qed.

Lemma firstn_progress {A B} (f : A -> B) k (U : list A) : (U <> [] -> (1 <= k)%nat) -> map f (firstn k U) = [] -> U = [].
Proof.
  destruct U as [|e U]; [reflexivity|]. intros Hk.
  destruct k; [specialize (Hk ltac:(discriminate)); lia|discriminate].
Qed.

(* what one step does to the ledgers: [g'] is [g] with [es] appended to topic [t] and its consumer moved on by [n] *)
Definition lg_moved (g g' : lg) (t : N) (es : list entry) (n : nat) : Prop :=
  forall t', l_app (lget g' t') = (if t' =? t then l_app (lget g t') ++ es else l_app (lget g t')) /\
             l_del (lget g' t') = (if t' =? t then (l_del (lget g t') + n)%nat else l_del (lget g t')).

Lemma lg_moved_0 g t : lg_moved g g t [] 0.
Proof. intros t'. rewrite app_nil_r, Nat.add_0_r. now destruct (t' =? t). Qed.

Lemma lg_moved_lset g t l es n : l_app l = l_app (lget g t) ++ es -> l_del l = (l_del (lget g t) + n)%nat ->
  lg_moved g (lset g t l) t es n.
Proof.
  intros Ha Hd t'. destruct (N.eq_dec t' t) as [->|Hne].
  - now rewrite lget_lset_same, N.eqb_refl.
  - rewrite lget_lset_other by exact Hne. now replace (t' =? t) with false by lia.
Qed.

(* The spec side of a stateful read, once: an answer made of the first [k] entries the ledger has left, one at
   least if there are any (and one at most for read_next), meets the step conditions of the acceptors, and a
   consuming read advances the ledger by what it handed out. *)
Lemma answer_ok g o t ck U k : rtopic o = Some (t, ck) -> remaining (lget g (t_id t)) = U ->
  (k <= length U)%nat -> (U <> [] -> (1 <= k)%nat) -> (is_batch o = false -> (k <= 1)%nat) ->
  let r := answer o (firstn k U) in
  c01_step_ok g o r = true /\
  (forall cap, (forall t0 mb ck0 st, o = OBatchRead t0 mb ck0 st -> capb cap mb (map out_of (firstn k U)) = true) ->
               c03_step_ok cap g o r = true) /\
  lg_moved g (ledger_step g o r) (t_id t) [] (length (if ck then firstn k U else [])).
Proof.
  intros Ho Hrem Hk Hk1 Hk2 r. subst r.
  assert (Hlen : length (firstn k U) = k) by (rewrite firstn_length; lia).
  assert (Hmv : forall l n, l_app l = l_app (lget g (t_id t)) -> l_del l = (l_del (lget g (t_id t)) + n)%nat ->
            lg_moved g (lset g (t_id t) l) (t_id t) [] n) by (intros l n Ha Hd; apply lg_moved_lset; [now rewrite app_nil_r|exact Hd]).
  destruct o as [| |t0 ck0|t0 maxb ck0 [st0|]| |]; try discriminate Ho; injection Ho as -> ->;
    cbn [answer c01_step_ok c03_step_ok is_batch] in *; rewrite Hrem.
  - (* ORead *) specialize (Hk2 eq_refl). destruct U as [|e U]; [|destruct k as [|[|k]]; [specialize (Hk1 ltac:(discriminate)); lia| |lia]].
    + rewrite firstn_nil. split; [now destruct ck|]. split; [reflexivity|].
      replace (if ck then [] else []) with (@nil entry) by now destruct ck. replace (ledger_step g _ RNone) with g by now destruct ck. apply lg_moved_0.
    + cbn [firstn]. split; [destruct ck; [apply out_is_out_of|reflexivity]|]. split; [reflexivity|].
      destruct ck; cbn [ledger_step length]; [apply Hmv; cbn; [reflexivity|lia]|apply lg_moved_0].
  - (* OBatchRead, stateful *) split; [|split].
    + destruct ck; [|reflexivity]. destruct (map out_of (firstn k U)) as [|o0 os0] eqn:Eo.
      * now rewrite (firstn_progress out_of k U Hk1 Eo).
      * rewrite <- Eo, map_length, Hlen. apply outs_are_map.
    + intros cap Hcb. specialize (Hcb _ _ _ _ eq_refl). unfold capb in Hcb. rewrite Hcb. cbn [andb].
      destruct (map out_of (firstn k U)) eqn:Eo; [now rewrite (firstn_progress out_of k U Hk1 Eo)|reflexivity].
    + destruct ck; cbn [ledger_step]; [rewrite map_length; apply Hmv; reflexivity|apply lg_moved_0].
Qed.

(* EngineBasic.v, EngineW.v and EngineBR.v write this record out as a literal: [unfold env_of] meets their
   statements *)
Definition env_of (c : Cfg) (m : mode) (be : backend) : env := {| v_cfg := c; v_mode := m; v_backend := be |}.

Lemma Rel_cnt c s g B Bb t : Rel c s g B Bb ->
  cnt (get_ts s t) = N.of_nat (length (l_app (lget g t)) - l_del (lget g t)).
Proof. intros ((_ & Hti) & Hall). destruct (Hall t) as (_ & _ & Hu & _). now rewrite (ti_cnt _ _ _ (Hti t)), Hu, skipn_length. Qed.

(* both writes, every outcome: the first block if the topic had none, then the offered entries written and counted, or nothing more *)
Lemma write_outcome c m be s o t : cfg_ok c -> GInv c s -> wtopic o = Some t ->
  let '(s', r) := step (env_of c m be) s o in
  exists es, wrote c t s es s' /\ (es = offered o /\ r = ROk \/ es = [] /\ exists k, r = RErr k).
Proof.
  intros Hc Hg Ho.
  assert (E : exists over, step (env_of c m be) s o = put c s t over (offered o)).
  { revert Ho. destruct o as [t0 e|t0 es| | | |]; intros [= ->]; cbn [step env_of v_cfg v_backend offered]; eexists;
      [now apply append_put|now apply batch_put]. }
  destruct E as (over & ->). destruct (put_wrote c s t over (offered o) Hc) as (s' & r & es & -> & Hw & Hres).
  exists es. split; [exact Hw|].
  destruct (Hres (ti_poison _ _ _ (proj2 Hg (t_id t)))) as [(-> & ->)|(-> & [->|(k & _ & ->)])]; eauto.
Qed.

Section OneStep.
Context (c : Cfg) (s : st) (g : lg) (B Bb : N) (Hc : cfg_ok c) (Hrel : Rel c s g B Bb).

(* a step on topic [t] that appends [es] behind everything and hands out [d], the front of what was unread;
   the other topics and their ledgers are where they were *)
Lemma Rel_moved s' g' t es d B' Bb' : GInv c s' -> others_same s s' t -> lg_moved g g' t es (length d) ->
  stream (get_ts s' t) = stream (get_ts s t) ++ es ->
  unread c (get_ts s t) ++ es = d ++ unread c (get_ts s' t) ->
  B + N.of_nat (length es) <= B' -> Bb + sum_len es <= Bb' -> Rel c s' g' B' Bb'.
Proof.
  intros Hg' Hoth Hm Hst Hun HB HBb. split; [exact Hg'|]. intros t'.
  destruct (proj2 Hrel t') as (Hd & Hs & Hu & Hb1 & Hb2). destruct (Hm t') as (-> & ->).
  destruct (N.eq_dec t' t) as [->|Hne].
  - rewrite N.eqb_refl, Hst, Hs. rewrite Hu in Hun.
    pose proof (f_equal (@length entry) Hun) as Hl. rewrite !app_length, skipn_length in Hl.
    rewrite app_length, sum_len_app. split; [lia|]. split; [reflexivity|]. split; [|lia].
    rewrite skipn_add, (skipn_app_le _ _ _ Hd), Hun, (skipn_app_exact _ _ _ eq_refl). reflexivity.
  - replace (t' =? t) with false by lia. rewrite (Hoth t' Hne). repeat split; auto; lia.
Qed.

Lemma Rel_same s' t : GInv c s' -> others_same s s' t ->
  stream (get_ts s' t) = stream (get_ts s t) -> unread c (get_ts s' t) = unread c (get_ts s t) -> Rel c s' g B Bb.
Proof.
  intros Hg' Hoth Hst Hun. apply (Rel_moved s' g t [] [] B Bb Hg' Hoth (lg_moved_0 g t)); rewrite ?app_nil_r; cbn; auto; lia.
Qed.

(* creating the topic's writer (its first block) changes nothing the consumer can see *)
Lemma ensure_rel t : Rel c (fst (ensure_writer c s t)) g B Bb.
Proof.
  pose proof Hrel as (Hg & _).
  destruct (ensure_writer_spec c s t Hc Hg) as (s1 & w & -> & Hle1 & Hn1 & Hoth1 & Hw1 & Hp1 & Hst1 & Hun1 & Hcnt1).
  apply (Rel_same s1 (t_id t)); auto.
  apply (GInv_update c s s1 (t_id t) _ Hg Hle1 Hoth1 eq_refl).
  apply TInvP_cnt; [exact Hp1|]. rewrite Hcnt1, Hun1. apply (ti_cnt _ _ _ (proj2 Hg (t_id t))).
Qed.

Lemma cnt_room t n : B + n <= u64_max -> cnt (get_ts s t) + n <= u64_max.
Proof. intros HB. rewrite (Rel_cnt c s g B Bb t Hrel). destruct (proj2 Hrel t) as (_ & _ & _ & Hb1 & _). lia. Qed.

(* the budgets go up by what was offered, whether or not the write was accepted *)
Lemma write_rel m be o t : wtopic o = Some t -> B + N.of_nat (length (offered o)) <= u64_max ->
  let '(s', r) := step (env_of c m be) s o in
  Rel c s' (ledger_step g o r) (B + N.of_nat (length (offered o))) (Bb + sum_len (offered o)).
Proof.
  intros Ho HB. pose proof Hrel as (Hg & _).
  pose proof (write_outcome c m be s o t Hc Hg Ho) as Hw. unfold env_of in *.
  destruct (step _ s o) as [s' r]. destruct Hw as (es & Hw & Hres).
  destruct (wrote_spec c s t es s' Hc Hg Hw) as (Hg' & Hoth & Hst & Hun).
  { apply cnt_room. destruct Hres as [(-> & _)|(-> & _)]; [exact HB|cbn; lia]. }
  assert (Hmv : lg_moved g (ledger_step g o r) (t_id t) es 0 /\
                N.of_nat (length es) <= N.of_nat (length (offered o)) /\ sum_len es <= sum_len (offered o)).
  { destruct Hres as [(-> & ->)|(-> & k & ->)].
    - (* accepted: the ledger of [t] gets the offered entries *)
      split; [|lia]. destruct o; try discriminate Ho; injection Ho as ->; (apply lg_moved_lset; cbn; [reflexivity|lia]).
    - (* refused: the ledgers stay *)
      split; [|cbn; lia]. destruct o; try discriminate Ho; apply lg_moved_0. }
  destruct Hmv as (Hmv & HB1 & HB2).
  apply (Rel_moved s' _ (t_id t) es [] _ _ Hg' Hoth Hmv Hst (eq_sym Hun)); lia.
Qed.

Lemma stored t ts' : TInv c (a_next (s_alloc s)) ts' ->
  GInv c (set_ts s t ts') /\ others_same s (set_ts s t ts') t /\ get_ts (set_ts s t ts') t = ts'.
Proof.
  intros Hinv. assert (Hoth : others_same s (set_ts s t ts') t) by (intros t' Hne; now apply get_set_other).
  split; [|split; [exact Hoth|apply get_set_same]].
  exact (GInv_update c s (set_ts s t ts') t ts' (proj1 Hrel) (N.le_refl _) Hoth (get_set_same _ _ _) Hinv).
Qed.

Lemma rd_rel m be o t ck : rtopic o = Some (t, ck) ->
  let '(s', r) := step (env_of c m be) s o in
  c01_step_ok g o r = true /\ c03_step_ok (c_max_entries c) g o r = true /\ Rel c s' (ledger_step g o r) B Bb.
Proof.
  intros Ho. destruct (proj2 Hrel (t_id t)) as (_ & _ & Hu & _).
  destruct (read_exact c m be s o t ck _ Hc Ho (proj2 (proj1 Hrel) (t_id t))) as (T1 & ts' & k & f & q1 & p & q & E & Hk & Hk1 & Hk2 & L1 & L2).
  pose proof (legs_Read _ _ _ _ _ _ _ _ _ _ _ _ L1 L2) as Hrd.
  unfold env_of. rewrite E.
  destruct (answer_ok g o t ck _ k Ho (eq_sym Hu) Hk Hk1 Hk2) as (A1 & A3 & A4).
  split; [exact A1|]. split.
  { apply A3. intros t0 mb ck0 st ->. cbn [step v_cfg v_mode] in E. exact (cap_budget_ok _ _ _ _ _ _ _ _ _ E). }
  destruct (stored (t_id t) ts' (rd_inv _ _ _ _ _ Hrd)) as (Hg' & Hoth & Hget).
  apply (Rel_moved _ _ (t_id t) [] _ B Bb Hg' Hoth A4); rewrite ?Hget, ?app_nil_r; cbn; try lia.
  - exact (rd_stream _ _ _ _ _ Hrd).
  - exact (rd_unread _ _ _ _ _ Hrd).
Qed.

(* an offset-addressed batch read: the topic state is stored back as it was *)
Lemma batch_read_stateless_rel m t maxb ck st0 :
  let o := OBatchRead t maxb ck (Some st0) in
  let '(s', r) := batch_read c m s t maxb ck (Some st0) in
  c01_step_ok g o r = true /\ c03_step_ok (c_max_entries c) g o r = true /\ Rel c s' (ledger_step g o r) B Bb.
Proof.
  intros o. pose proof (cap_budget_ok c m s t maxb ck (Some st0)) as Hcb.
  destruct (batch_read_stateless c m s t maxb ck st0) as (os & Hr). rewrite Hr in *.
  destruct (stored (t_id t) _ (proj2 (proj1 Hrel) (t_id t))) as (Hg' & Hoth & Hget).
  replace (ledger_step g o (REntries os)) with g by now destruct ck.
  unfold c01_step_ok, c03_step_ok, o. fold (capb (c_max_entries c) maxb os). rewrite (Hcb _ _ eq_refl).
  split; [now destruct ck|]. split; [reflexivity|]. apply (Rel_same _ _ Hg' Hoth); now rewrite Hget.
Qed.

End OneStep.

Lemma step_ok c m be s g B Bb o : cfg_ok c -> Rel c s g B Bb -> op_ok c o ->
  B + N.of_nat (length (offered o)) <= u64_max -> Bb + sum_len (offered o) <= u64_max ->
  let '(s', r) := step (env_of c m be) s o in
  c01_step_ok g o r = true /\ c15_step_ok g o r = true /\ c03_step_ok (c_max_entries c) g o r = true /\
  Rel c s' (ledger_step g o r) (B + N.of_nat (length (offered o))) (Bb + sum_len (offered o)).
Proof.
  intros Hc Hrel Hok HB _.
  destruct (wtopic o) as [t|] eqn:Hw.
  { pose proof (write_rel c s g B Bb Hc Hrel m be o t Hw HB) as H. destruct (step _ s o) as [s' r].
    destruct o; try discriminate Hw; exact (conj eq_refl (conj eq_refl (conj eq_refl H))). }
  replace (offered o) with (@nil entry) by (destruct o; try discriminate Hw; reflexivity).
  cbn [length sum_len fold_right N.of_nat]. rewrite !N.add_0_r.
  destruct (rtopic o) as [[t ck]|] eqn:Hr.
  { pose proof (rd_rel c s g B Bb Hc Hrel m be o t ck Hr) as H. destruct (step _ s o) as [s' r].
    refine (conj (proj1 H) (conj _ (proj2 H))). destruct o; try discriminate Hr; reflexivity. }
  destruct o as [t e | t es | t ck | t maxb ck [st0|] | t | ]; try discriminate; cbn [step env_of v_cfg v_mode]; [| |contradiction].
  - pose proof (batch_read_stateless_rel c s g B Bb Hrel m t maxb ck st0) as H. cbv zeta in H.
    destruct (batch_read c m s t maxb ck (Some st0)) as [s' r]. exact (conj (proj1 H) (conj eq_refl (proj2 H))).
  - cbn [c01_step_ok c15_step_ok c03_step_ok ledger_step]. fold (cnt (get_ts s (t_id t))).
    rewrite (Rel_cnt c s g B Bb _ Hrel), N.eqb_refl. exact (conj eq_refl (conj eq_refl (conj eq_refl Hrel))).
Qed.

(* the model's [run] with each operation beside its result ([trace_run]); [trace] of model/RaftStore.v is
   another thing *)
Fixpoint trace (v : env) (s : st) (ops : list op) : list (op * result) :=
  match ops with
  | [] => []
  | o :: r => let '(s', res) := step v s o in (o, res) :: trace v s' r
  end.

Lemma offered_len_cons B o r M : B + N.of_nat (length (offered_all (o :: r))) <= M ->
  B + N.of_nat (length (offered o)) <= M /\ B + N.of_nat (length (offered o)) + N.of_nat (length (offered_all r)) <= M.
Proof. cbn [offered_all]. rewrite app_length. lia. Qed.

Lemma offered_sum_cons Bb o r M : Bb + sum_len (offered_all (o :: r)) <= M ->
  Bb + sum_len (offered o) <= M /\ Bb + sum_len (offered o) + sum_len (offered_all r) <= M.
Proof. cbn [offered_all]. rewrite sum_len_app. lia. Qed.

(* induction along an admissible history: every step is taken from a state related to the
   ledger that the steps before it produced, within the budgets *)
Lemma trace_Rel_ind c m be (Q : lg -> list (op * result) -> Prop) : cfg_ok c ->
  (forall g, Q g []) ->
  (forall s g B Bb o ops, Rel c s g B Bb -> op_ok c o ->
     B + N.of_nat (length (offered o)) <= u64_max -> Bb + sum_len (offered o) <= u64_max ->
     let '(s', r) := step (env_of c m be) s o in
     Q (ledger_step g o r) (trace (env_of c m be) s' ops) -> Q g ((o, r) :: trace (env_of c m be) s' ops)) ->
  forall ops s g B Bb, Rel c s g B Bb -> Forall (op_ok c) ops ->
  B + N.of_nat (length (offered_all ops)) <= u64_max -> Bb + sum_len (offered_all ops) <= u64_max ->
  Q g (trace (env_of c m be) s ops).
Proof.
  intros Hc Hnil Hcons. induction ops as [|o r IH]; intros s g B Bb Hrel Hok HB HBb; [apply Hnil|].
  inversion Hok as [|x l Ho Hr]; subst.
  apply offered_len_cons in HB. apply offered_sum_cons in HBb. destruct HB as (HB & HB'), HBb as (HBb & HBb').
  specialize (Hcons s g B Bb o r Hrel Ho HB HBb).
  pose proof (step_ok c m be s g B Bb o Hc Hrel Ho HB HBb) as Hstep.
  cbn [trace]. destruct (step (env_of c m be) s o) as [s' res].
  apply Hcons, (IH s' _ _ _ (proj2 (proj2 (proj2 Hstep))) Hr HB' HBb').
Qed.

(* C01, C15 and C03 at once, from any state and ledger that [Rel] relates; the acceptors start from that ledger *)
Theorem engine_refines_queue c m be : cfg_ok c -> forall ops s g B Bb,
  Rel c s g B Bb -> Forall (op_ok c) ops ->
  B + N.of_nat (length (offered_all ops)) <= u64_max -> Bb + sum_len (offered_all ops) <= u64_max ->
  c01_ok_from g (trace (env_of c m be) s ops) = true /\
  c15_ok_from g (trace (env_of c m be) s ops) = true /\
  c03_ok_from (c_max_entries c) g (trace (env_of c m be) s ops) = true.
Proof.
  intros Hc.
  apply (trace_Rel_ind c m be (fun g tr => c01_ok_from g tr = true /\ c15_ok_from g tr = true /\
                                          c03_ok_from (c_max_entries c) g tr = true) Hc); [now cbn|].
  intros s g B Bb o ops Hrel Ho HB HBb. pose proof (step_ok c m be s g B Bb o Hc Hrel Ho HB HBb) as H.
  destruct (step _ s o) as [s' r]. destruct H as (H1 & H2 & H3 & _). intros (I1 & I2 & I3).
  cbn [c01_ok_from c15_ok_from c03_ok_from]. now rewrite H1, H2, H3, I1, I2, I3.
Qed.

Corollary engine_from_init c m be ops : cfg_ok c -> Forall (op_ok c) ops ->
  N.of_nat (length (offered_all ops)) <= u64_max -> sum_len (offered_all ops) <= u64_max ->
  c01_ok (trace (env_of c m be) init ops) = true /\
  c15_ok (trace (env_of c m be) init ops) = true /\
  c03_ok (c_max_entries c) (trace (env_of c m be) init ops) = true.
Proof.
  intros Hc Hok HB HBb. unfold c01_ok, c15_ok, c03_ok.
  apply (engine_refines_queue c m be Hc ops init [] 0 0 (Rel_init c) Hok); lia.
Qed.

Lemma trace_run v : forall ops s, map snd (trace v s ops) = run v s ops /\ map fst (trace v s ops) = ops.
Proof.
  induction ops as [|o r IH]; intros s; [split; reflexivity|]. cbn [trace run].
  destruct (step v s o) as [s' res]. cbn [map fst snd]. destruct (IH s') as (A & B). now rewrite A, B.
Qed.
