(* FrameP.v — framing and commands of model/Frame.v.  The parser of spec/FrameSpec.v inverts the frame
   encoding (split_frames_enc, split_frames_spec); the connection loop answers exactly the frames that
   parser finds, for every byte stream (serve_parse), of which frame synchronisation, truncated final
   frames and finding D12 in general form are the cases of encoded frame lists; what the PUT and the GET frame
   of a round trip are answered (respond_put, respond_get; the round trip itself is props/C24.v).
   The loop's parameter d (the model's [drain]): true is client.rs as it is in /repo, where the body of a
   refused frame is read and discarded (fix a215ffe, discard_exact); false is the loop before that fix,
   which finding D12 is about. *)
From W Require Import model.Base model.Utf8 model.Bincode model.Frame spec.FrameSpec
  proofs.ListP proofs.BytesP proofs.Utf8P.

Lemma str_eqb_neq a b : str_eqb a b = false <-> a <> b.
Proof.
  split; intros H.
  - intros E. apply str_eqb_eq in E. congruence.
  - destruct (str_eqb a b) eqn:E; [|reflexivity]. apply str_eqb_eq in E. contradiction.
Qed.

Lemma blen_app a b : blen (a ++ b) = blen a + blen b.
Proof. unfold blen. rewrite app_length. lia. Qed.

Lemma le32_le_bytes n : le32 n = le_bytes 4 n.
Proof. unfold le32. cbn [le_bytes]. now rewrite !N.div_div by discriminate. Qed.

Lemma le32_bytes n : bytes (le32 n).
Proof. rewrite le32_le_bytes. apply le_bytes_bytes. Qed.

Lemma un_le32_le_val b0 b1 b2 b3 : un_le32 b0 b1 b2 b3 = le_val [b0; b1; b2; b3].
Proof. unfold un_le32. cbn [le_val]. lia. Qed.

Lemma un_le32_le32 n : n < two32 ->
  un_le32 (n mod 256) ((n / 256) mod 256) ((n / 65536) mod 256) ((n / 16777216) mod 256) = n.
Proof.
  intros H. rewrite un_le32_le_val. change (le_val (le32 n) = n).
  rewrite le32_le_bytes. now apply le_val_bytes.
Qed.

Lemma le32_un_le32 b0 b1 b2 b3 : bytes [b0; b1; b2; b3] ->
  le32 (un_le32 b0 b1 b2 b3) = [b0; b1; b2; b3] /\ un_le32 b0 b1 b2 b3 < two32.
Proof.
  intros H. rewrite un_le32_le_val, le32_le_bytes.
  split; [exact (le_bytes_val _ H)|exact (le_val_bound _ H)].
Qed.

Lemma read_exact_0 l : read_exact 0 l = Some ([], l).
Proof. destruct l; reflexivity. Qed.

Lemma read_exact_take l : forall n, read_exact n l = take (N.to_nat n) l.
Proof.
  induction l as [|x l IH]; intros n; cbn [read_exact]; destruct (N.eqb_spec n 0) as [->|Hn]; try reflexivity.
  - destruct (N.to_nat n) eqn:E; [lia|reflexivity].
  - rewrite IH. replace (N.to_nat n) with (S (N.to_nat (n - 1))) by lia. reflexivity.
Qed.

Lemma read_exact_app b r : read_exact (blen b) (b ++ r) = Some (b, r).
Proof. rewrite read_exact_take. unfold blen. rewrite Nat2N.id. apply take_app. Qed.

Lemma read_exact_sound l n a r : read_exact n l = Some (a, r) -> l = a ++ r /\ blen a = n.
Proof.
  rewrite read_exact_take. intros H. apply take_spec in H. destruct H as [-> H].
  split; [reflexivity|]. unfold blen. rewrite H. apply N2Nat.id.
Qed.

Lemma read_exact_short l : forall n, blen l < n -> read_exact n l = None.
Proof.
  intros n H. destruct (read_exact n l) as [[a r]|] eqn:E; [|reflexivity].
  apply read_exact_sound in E. destruct E as [-> <-]. rewrite blen_app in H. lia.
Qed.

Lemma read_exact_none l n : read_exact n l = None -> blen l < n.
Proof.
  intros H. destruct (N.ltb_spec (blen l) n) as [Hlt|Hge]; [exact Hlt|]. exfalso.
  assert (E : exists a r, l = a ++ r /\ blen a = n).
  { exists (firstn (N.to_nat n) l), (skipn (N.to_nat n) l). split; [now rewrite firstn_skipn|].
    unfold blen in *. rewrite firstn_length. lia. }
  destruct E as (a & r & -> & <-). rewrite read_exact_app in H. discriminate.
Qed.

Definition wf (f : frame) : Prop := f_len f < two32 /\ blen (f_body f) = f_len f.

Lemma frame_wfb_wf f : frame_wfb f = true <-> wf f.
Proof. unfold frame_wfb, wf. lia. Qed.

Lemma forallb_wf fs : forallb frame_wfb fs = true <-> Forall wf fs.
Proof. apply forallb_Forall, frame_wfb_wf. Qed.

(* what is left of a stream after its last complete frame *)
Definition incomplete (tl : list N) : Prop :=
  match tl with
  | b0 :: b1 :: b2 :: b3 :: rest => read_exact (un_le32 b0 b1 b2 b3) rest = None
  | _ => True
  end.

Lemma enc_frames_cons f fs : enc_frames (f :: fs) = enc_frame f ++ enc_frames fs.
Proof. reflexivity. Qed.

(* with split_frames_fuel_enc: every byte stream splits in exactly one way into complete frames and an
   incomplete tail *)
Lemma split_frames_fuel_spec : forall fuel inp fs tl,
  bytes inp -> (length inp < fuel)%nat -> split_frames_fuel fuel inp = (fs, tl) ->
  inp = enc_frames fs ++ tl /\ Forall wf fs /\ incomplete tl.
Proof.
  induction fuel as [|f IH]; intros inp fs tl Hb Hl H; [lia|].
  destruct inp as [|b0 [|b1 [|b2 [|b3 rest]]]]; cbn [split_frames_fuel] in H;
    try (inversion H; subst; split; [reflexivity|split; [constructor|exact I]]).
  destruct (read_exact (un_le32 b0 b1 b2 b3) rest) as [[body rest']|] eqn:E.
  - destruct (split_frames_fuel f rest') as [fs' tl'] eqn:E'. inversion H; subst. clear H.
    apply read_exact_sound in E. destruct E as [-> Hn].
    change (bytes ([b0; b1; b2; b3] ++ body ++ rest')) in Hb.
    apply Forall_app in Hb. destruct Hb as [Hh Hb]. apply Forall_app in Hb. destruct Hb as [_ Hbr].
    cbn [length] in Hl. rewrite app_length in Hl.
    apply IH in E'; [|exact Hbr|lia]. destruct E' as (-> & Hwf & Hinc).
    destruct (le32_un_le32 b0 b1 b2 b3 Hh) as [Ele Hlt].
    split; [|split; [|exact Hinc]].
    + rewrite enc_frames_cons. unfold enc_frame. cbn [f_len f_body]. rewrite Ele.
      cbn [app]. now rewrite <- app_assoc.
    + constructor; [|exact Hwf]. split; cbn [f_len f_body]; [exact Hlt|exact Hn].
  - inversion H; subst. split; [reflexivity|split; [constructor|exact E]].
Qed.

Lemma split_frames_fuel_enc fs : forall fuel tl,
  (length (enc_frames fs ++ tl) < fuel)%nat -> Forall wf fs -> incomplete tl ->
  split_frames_fuel fuel (enc_frames fs ++ tl) = (fs, tl).
Proof.
  induction fs as [|[n body] fs IH]; intros fuel tl Hl Hwf Hinc.
  - change (enc_frames [] ++ tl) with tl. destruct fuel as [|f]; [reflexivity|].
    destruct tl as [|b0 [|b1 [|b2 [|b3 rest]]]]; try reflexivity.
    cbn [split_frames_fuel]. cbn [incomplete] in Hinc. now rewrite Hinc.
  - inversion Hwf as [|? ? [Hlt Hlen] Hfs]; subst. cbn [f_len f_body] in Hlt, Hlen. subst n.
    rewrite enc_frames_cons, <- app_assoc in Hl |- *. unfold enc_frame, le32 in Hl |- *.
    cbn [f_len f_body app length] in Hl |- *. rewrite app_length in Hl.
    destruct fuel as [|f]; [lia|]. cbn [split_frames_fuel].
    rewrite un_le32_le32, read_exact_app by exact Hlt.
    rewrite IH; [reflexivity|lia|exact Hfs|exact Hinc].
Qed.

Lemma split_frames_enc fs tl : Forall wf fs -> incomplete tl ->
  split_frames (enc_frames fs ++ tl) = (fs, tl).
Proof. intros. apply split_frames_fuel_enc; [lia|assumption|assumption]. Qed.

Lemma split_frames_spec inp fs tl : bytes inp -> split_frames inp = (fs, tl) ->
  inp = enc_frames fs ++ tl /\ Forall wf fs /\ incomplete tl.
Proof. intros Hb H. apply (split_frames_fuel_spec (S (length inp))); [exact Hb|lia|exact H]. Qed.

Lemma responses_from_cons c f fs :
  responses_from c (f :: fs) = snd (respond c f) :: responses_from (fst (respond c f)) fs.
Proof. cbn [responses_from]. now destruct (respond c f). Qed.

(* what is written back behind the last complete frame: a truncated frame that announces too much has
   already been refused *)
Definition tail_resp (tl : list N) : list fresp := if tail_oversize tl then [FErr m_len] else [].

(* some header of a parsed stream announces more than MAX_FRAME_LEN bytes: c24_known on the parse *)
Definition over (p : list frame * list N) : bool :=
  existsb (fun f => max_frame_len <? f_len f) (fst p) || tail_oversize (snd p).

Lemma over_known inp : c24_known inp = over (split_frames inp).
Proof. unfold c24_known, over. now destruct (split_frames inp). Qed.

Lemma over_enc fs tl : forallb in_range fs = true -> tail_oversize tl = false -> over (fs, tl) = false.
Proof.
  intros Hin Hov. unfold over. cbn [fst snd]. rewrite Hov, orb_false_r.
  induction fs as [|f fs IH]; [reflexivity|]. cbn [forallb existsb] in *. unfold in_range in Hin at 1.
  rewrite IH; lia.
Qed.

(* The loop and the parser of the specification walk a stream in lockstep (four header bytes, then
   read_exact): the loop answers the frames the parser finds, whatever the bytes are.  The loop before
   fix a215ffe (d = false) parts from the parser only behind a header that announces too much, where it
   reads on behind the header instead of behind the body.  Any sufficient fuel: no lemma about fuel is needed. *)
Lemma serve_fuel_parse d : forall fuel c inp, (length inp < fuel)%nat ->
  let p := split_frames_fuel fuel inp in
  (d = false -> over p = false) ->
  serve_fuel d fuel c inp = enc_resps (responses_from c (fst p) ++ tail_resp (snd p)).
Proof.
  induction fuel as [|f IH]; intros c inp Hl; [lia|].
  destruct inp as [|b0 [|b1 [|b2 [|b3 rest]]]]; try reflexivity.
  cbn [serve_fuel split_frames_fuel]. set (n := un_le32 b0 b1 b2 b3).
  cbn [length] in Hl. destruct (read_exact n rest) as [[body rest']|] eqn:E.
  - pose proof (read_exact_sound _ _ _ _ E) as [-> _]. rewrite app_length in Hl.
    specialize (IH (fst (respond c {| f_len := n; f_body := body |})) rest' ltac:(lia)).
    destruct (split_frames_fuel f rest') as [fs tl]. unfold over in *. cbn [fst snd existsb f_len] in *.
    intros Hd. rewrite responses_from_cons, <- app_comm_cons. change (enc_resps (?r :: ?l)) with (enc_resp r ++ enc_resps l).
    unfold respond in *. cbn [f_len f_body] in *. destruct (bad_len n) eqn:Eb.
    + cbn [fst snd] in *. f_equal. destruct d; [apply IH; discriminate|].
      (* refused and within the limit: the announced length is 0, there is no body to skip *)
      assert (n = 0) by (specialize (Hd eq_refl); unfold bad_len in Eb; lia).
      replace n with 0 in E. rewrite read_exact_0 in E. injection E as <- <-. apply IH. intros _. specialize (Hd eq_refl). lia.
    + destruct (handle_body c body) as [c' r]. cbn [fst snd] in *. f_equal. apply IH.
      intros Ed. specialize (Hd Ed). lia.
  - unfold over, tail_resp. cbn [fst snd existsb tail_oversize orb responses_from app]. fold n. intros Hd.
    assert (n <> 0) by (intros E0; rewrite E0, read_exact_0 in E; discriminate).
    unfold bad_len. replace (n =? 0) with false by lia. cbn [orb].
    destruct (max_frame_len <? n); [|reflexivity].
    destruct d; [apply app_nil_r|]. now discriminate Hd.
Qed.

(* every byte stream is answered as its parse; for d = false, every stream outside the class of finding D12 *)
Theorem serve_parse d inp : (d = false -> c24_known inp = false) ->
  serve_gen d inp = enc_resps (responses (fst (split_frames inp)) ++ tail_resp (snd (split_frames inp))).
Proof.
  intros H. apply serve_fuel_parse; [lia|]. intros E. rewrite <- (H E). symmetry. apply over_known.
Qed.

Lemma serve_gen_tail d fs tl :
  Forall wf fs -> (d = false -> forallb in_range fs = true) ->
  incomplete tl -> (d = false -> tail_oversize tl = false) ->
  serve_gen d (enc_frames fs ++ tl) = enc_resps (responses fs ++ tail_resp tl).
Proof.
  intros Hwf Hin Hinc Hov. rewrite serve_parse; rewrite ?over_known, split_frames_enc by assumption; [reflexivity|].
  intros E. now apply over_enc; auto.
Qed.

(* a final frame cut short (header incomplete, or a body shorter than a within-limit
   announcement) adds nothing to the output: the responses are those of the complete frames *)
Theorem truncated_final d fs tl :
  forallb frame_wfb fs = true -> (d = false -> forallb in_range fs = true) ->
  incomplete tl -> tail_oversize tl = false ->
  serve_gen d (enc_frames fs ++ tl) = enc_resps (responses fs).
Proof.
  intros Hwf Hin Hinc Hov. rewrite serve_gen_tail; unfold tail_resp; rewrite ?Hov, ?app_nil_r; [reflexivity|now apply forallb_wf|exact Hin|exact Hinc|auto].
Qed.

Lemma sync_gen d fs : forallb frame_wfb fs = true -> (d = false -> forallb in_range fs = true) ->
  serve_gen d (enc_frames fs) = enc_resps (responses fs).
Proof. intros Hwf Hin. rewrite <- (app_nil_r (enc_frames fs)). now apply truncated_final. Qed.

Lemma incomplete_short n rest : n < two32 -> blen rest < n -> incomplete (le32 n ++ rest).
Proof.
  intros Hn Hl. unfold le32. cbn [app incomplete]. rewrite un_le32_le32 by exact Hn.
  now apply read_exact_short.
Qed.

Lemma tail_oversize_le32 n rest : n < two32 -> tail_oversize (le32 n ++ rest) = (max_frame_len <? n).
Proof. intros Hn. unfold le32. cbn [app tail_oversize]. now rewrite un_le32_le32. Qed.

(* finding D12 in general: the loop before fix a215ffe refuses a frame that announces too much and
   then reads on behind the header, so the frame's own body is read as further frames *)
Lemma serve_fuel_oversize k c n rest : max_frame_len < n < two32 ->
  serve_fuel false (S k) c (le32 n ++ rest) = enc_resp (FErr m_len) ++ serve_fuel false k c rest.
Proof.
  intros [Hn Hlt]. unfold le32. cbn [app serve_fuel]. rewrite un_le32_le32 by exact Hlt.
  now replace (bad_len n) with true by (unfold bad_len; lia).
Qed.

Lemma serve_v0_refused n inner tl :
  max_frame_len < n < two32 -> forallb frame_wfb inner = true -> forallb in_range inner = true ->
  incomplete tl -> tail_oversize tl = false ->
  serve_v0 (le32 n ++ enc_frames inner ++ tl) = enc_resps (FErr m_len :: responses inner).
Proof.
  intros Hn Hwf Hin Hinc Hov. apply forallb_wf in Hwf.
  unfold serve_v0, serve_gen, serve_from. rewrite serve_fuel_oversize, (app_length (le32 n)) by exact Hn.
  change (length (le32 n)) with 4%nat.
  rewrite serve_fuel_parse; rewrite ?split_frames_fuel_enc by (assumption || lia); [|lia|intros _; now apply over_enc].
  cbn [fst snd]. unfold tail_resp. now rewrite Hov, app_nil_r.
Qed.

(* `len as u32` (le32) never wraps: a request has at most max_frame_len bytes, a response at most 8 more
   (FrameSpecP.step_sim); 16 is the margin c24_max_frame_tied states *)
Lemma max_frame_small : max_frame_len + 16 < two32.
Proof. vm_compute. reflexivity. Qed.

Lemma trim_end_app a b : trim_end b <> [] -> trim_end (a ++ b) = a ++ trim_end b.
Proof.
  intros H. induction a as [|x a IH]; [reflexivity|].
  cbn [app trim_end]. rewrite IH.
  destruct (a ++ trim_end b) eqn:E; [|reflexivity].
  apply app_eq_nil in E. destruct E as [_ E]. contradiction.
Qed.

Lemma trim_end_prefix s : exists w, s = trim_end s ++ w.
Proof.
  induction s as [|c r [w IH]]; [now exists []|].
  cbn [trim_end]. destruct (trim_end r) as [|y l] eqn:E.
  - destruct (is_ws c).
    + now exists (c :: r).
    + exists r. reflexivity.
  - exists w. rewrite IH at 1. reflexivity.
Qed.

Lemma split_sp_app a b : no_space a = true -> split_sp (a ++ ch_sp :: b) = (a, Some b).
Proof.
  induction a as [|x a IH]; intros H.
  - cbn [app split_sp]. now rewrite N.eqb_refl.
  - cbn [no_space forallb] in H. apply andb_true_iff in H. destruct H as [H1 H2].
    cbn [app split_sp]. destruct (x =? ch_sp); [discriminate|]. now rewrite (IH H2).
Qed.

Lemma split_sp_nosp a : no_space a = true -> split_sp a = (a, None).
Proof.
  induction a as [|x a IH]; intros H; [reflexivity|].
  cbn [no_space forallb] in H. apply andb_true_iff in H. destruct H as [H1 H2].
  cbn [split_sp]. destruct (x =? ch_sp); [discriminate|]. now rewrite (IH H2).
Qed.

Lemma split_sp_sound s : forall a r, split_sp s = (a, r) ->
  match r with Some b => s = a ++ ch_sp :: b | None => s = a end.
Proof.
  induction s as [|x s IH]; intros a r H; cbn [split_sp] in H.
  - inversion H; subst. reflexivity.
  - destruct (x =? ch_sp) eqn:E.
    + apply N.eqb_eq in E. inversion H; subst. reflexivity.
    + destruct (split_sp s) as [a' r'] eqn:E'. inversion H; subst.
      specialize (IH a' r eq_refl). destruct r; cbn [app]; now rewrite IH.
Qed.

Lemma ctl_get_set c t t' q :
  ctl_get (ctl_set c t q) t' = if str_eqb t t' then Some q else ctl_get c t'.
Proof.
  induction c as [|[k q0] c IH]; cbn [ctl_set ctl_get]; [reflexivity|].
  destruct (str_eqb k t) eqn:E; cbn [ctl_get].
  - apply str_eqb_eq in E. subst k. now destruct (str_eqb t t').
  - rewrite IH. destruct (str_eqb t t') eqn:E'; [|reflexivity]. apply str_eqb_eq in E'. subst t'. now rewrite E.
Qed.

Lemma ctl_queue_set c t t' q :
  ctl_queue (ctl_set c t q) t' = if str_eqb t t' then q else ctl_queue c t'.
Proof. unfold ctl_queue. rewrite ctl_get_set. now destruct (str_eqb t t'). Qed.

Lemma parse_put t p : no_space t = true -> parse_cmd (put_line t p) = FPut t p.
Proof.
  intros H. unfold parse_cmd, put_line. rewrite split_sp_app by reflexivity.
  change (str_eqb s_PUT s_REGISTER) with false. change (str_eqb s_PUT s_PUT) with true. cbv iota.
  now rewrite split_sp_app.
Qed.

Lemma parse_get t : no_space t = true -> parse_cmd (get_line t) = FGet t.
Proof.
  intros H. unfold parse_cmd, get_line. rewrite split_sp_app by reflexivity.
  change (str_eqb s_GET s_REGISTER) with false. change (str_eqb s_GET s_PUT) with false.
  change (str_eqb s_GET s_GET) with true. cbv iota.
  now rewrite split_sp_nosp.
Qed.

Lemma put_line_split t p : put_line t p = (s_PUT ++ ch_sp :: t ++ [ch_sp]) ++ p.
Proof. unfold put_line. rewrite <- !app_assoc. cbn [app]. now rewrite <- app_assoc. Qed.

Lemma scalars_forallb s : forallb is_scalar s = true <-> scalars s.
Proof. now apply forallb_Forall. Qed.

Lemma blen_get_le_put t p : blen (utf8_encode (get_line t)) <= blen (utf8_encode (put_line t p)).
Proof.
  unfold get_line, put_line. change (ch_sp :: t ++ ch_sp :: p) with ((ch_sp :: t) ++ ch_sp :: p).
  rewrite !utf8_encode_app, !blen_app. change (blen (utf8_encode s_PUT)) with (blen (utf8_encode s_GET)). lia.
Qed.

Lemma text_frame_wf line : blen (utf8_encode line) <= max_frame_len -> wf (text_frame line).
Proof.
  intros H. unfold wf, text_frame. cbn [f_len f_body]. split; [|reflexivity].
  pose proof max_frame_small. lia.
Qed.

Lemma respond_text c line : scalars line -> line <> [] -> blen (utf8_encode line) <= max_frame_len ->
  respond c (text_frame line) = exec c (parse_cmd (trim_end line)).
Proof.
  intros Hs Hne Hl. unfold respond, text_frame, handle_body. cbn [f_len f_body].
  rewrite utf8_decode_encode by exact Hs. replace (bad_len _) with false; [reflexivity|].
  destruct line as [|x l]; [contradiction|]. pose proof (utf8_encode_length (x :: l)) as H.
  cbn [length] in H. unfold bad_len, blen in *. lia.
Qed.

Lemma respond_put c t p : scalars t -> scalars p -> no_space t = true -> trim_end p <> [] ->
  blen (utf8_encode (put_line t p)) <= max_frame_len ->
  respond c (text_frame (put_line t p)) = exec c (FPut t (trim_end p)).
Proof.
  intros Ht Hp Hn Hne Hl. rewrite respond_text; [| |discriminate|exact Hl].
  - rewrite put_line_split, trim_end_app, <- put_line_split by exact Hne. now rewrite parse_put.
  - unfold put_line. apply Forall_app. split; [now apply scalars_forallb|].
    constructor; [reflexivity|]. apply Forall_app. split; [exact Ht|]. now constructor.
Qed.

Lemma respond_get c t : scalars t -> no_space t = true -> t <> [] -> trim_end t = t ->
  blen (utf8_encode (get_line t)) <= max_frame_len ->
  respond c (text_frame (get_line t)) = exec c (FGet t).
Proof.
  intros Ht Hn Hne Htr Hl. rewrite respond_text; [| |discriminate|exact Hl].
  - change (get_line t) with ((s_GET ++ [ch_sp]) ++ t).
    rewrite trim_end_app; rewrite Htr; [|exact Hne]. change ((s_GET ++ [ch_sp]) ++ t) with (get_line t). now rewrite parse_get.
  - unfold get_line. apply Forall_app. split; [now apply scalars_forallb|]. now constructor.
Qed.

Lemma responses_from_app a : forall c b,
  responses_from c (a ++ b) = responses_from c a ++ responses_from (ctl_after c a) b.
Proof.
  induction a as [|f a IH]; intros c b; [reflexivity|].
  cbn [app]. rewrite !responses_from_cons. cbn [ctl_after app]. now rewrite IH.
Qed.
