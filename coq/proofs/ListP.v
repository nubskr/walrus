(* ListP.v — facts about the lists of the standard library that Coq 8.16 does not have, each stated once
   for every region of the proofs: positions ([skipn], [firstn], [nth_error]), [Forall], [Forall2],
   [filter], [existsb], [forallb], [find], [NoDup] and [flat_map].  Nothing here mentions the model. *)
From Coq Require Import List PeanoNat BinNat.
Import ListNotations.

Lemma nth_error_lt {A} (l : list A) i x : nth_error l i = Some x -> i < length l.
Proof. intros H. apply nth_error_Some. congruence. Qed.

Lemma nth_error_len_none {A} (l : list A) x : nth_error l (length l) = Some x -> False.
Proof. intros H. exact (Nat.lt_irrefl _ (nth_error_lt _ _ _ H)). Qed.

Lemma skipn_add {A} (l : list A) a b : skipn (a + b) l = skipn b (skipn a l).
Proof. revert l; induction a as [|a IH]; intros l; cbn; [reflexivity|]. destruct l; [now rewrite skipn_nil|apply IH]. Qed.

Lemma skipn_cons_inv {A} (l : list A) i x r : skipn i l = x :: r -> nth_error l i = Some x /\ skipn (S i) l = r.
Proof.
  revert l; induction i as [|i IH]; intros l H; destruct l; try discriminate; [|now apply IH].
  injection H as -> ->. now split.
Qed.

Lemma nth_error_split_skipn {A} (l : list A) j x : nth_error l j = Some x -> skipn j l = x :: skipn (S j) l.
Proof. revert l; induction j as [|j IH]; intros l H; destruct l; try discriminate; [now injection H as ->|now apply IH]. Qed.

Lemma nth_error_skipn {A} (l : list A) i x r : skipn i l = x :: r -> nth_error l i = Some x.
Proof. intros H. apply (skipn_cons_inv _ _ _ _ H). Qed.

Lemma skipn_S_of {A} (l : list A) i x r : skipn i l = x :: r -> skipn (S i) l = r.
Proof. intros H. apply (skipn_cons_inv _ _ _ _ H). Qed.

Lemma skipn_nth_error {A} (l : list A) i x : nth_error l i = Some x -> exists r, skipn i l = x :: r.
Proof. intros H. eexists. now apply nth_error_split_skipn. Qed.

Lemma skipn_len_lt {A} (l : list A) i x r : skipn i l = x :: r -> i < length l.
Proof. intros H. exact (nth_error_lt _ _ _ (nth_error_skipn _ _ _ _ H)). Qed.

Lemma skipn_nil_ge {A} (l : list A) i : skipn i l = [] -> length l <= i.
Proof. intros H. apply Nat.sub_0_le. now rewrite <- skipn_length, H. Qed.

Lemma skipn_app_le {A} (a b : list A) j : j <= length a -> skipn j (a ++ b) = skipn j a ++ b.
Proof. intros H. now rewrite skipn_app, (proj2 (Nat.sub_0_le _ _) H). Qed.

Lemma firstn_app_le {A} (a b : list A) j : j <= length a -> firstn j (a ++ b) = firstn j a.
Proof. intros H. rewrite firstn_app, (proj2 (Nat.sub_0_le _ _) H). apply app_nil_r. Qed.

Lemma firstn_app_exact {A} (a b : list A) n : length a = n -> firstn n (a ++ b) = a.
Proof. intros <-. now rewrite firstn_app, Nat.sub_diag, firstn_all, app_nil_r. Qed.

Lemma skipn_app_exact {A} (a b : list A) n : length a = n -> skipn n (a ++ b) = b.
Proof. intros <-. now rewrite skipn_app, Nat.sub_diag, skipn_all. Qed.

Lemma skipn_app_2 {A} (a b : list A) j : skipn (length a + j) (a ++ b) = skipn j b.
Proof. induction a; cbn; auto. Qed.

Lemma Forall_skipn {A} (P : A -> Prop) l n : Forall P l -> Forall P (skipn n l).
Proof. revert l; induction n as [|n IH]; intros l H; cbn; [exact H|]. destruct l; [constructor|]. inversion H; auto. Qed.

Lemma Forall_snoc {A} (P : A -> Prop) l x : Forall P l -> P x -> Forall P (l ++ [x]).
Proof. intros Hl Hx. apply Forall_app. split; [exact Hl|]. constructor; [exact Hx|constructor]. Qed.

Lemma Forall2_len {A B} {R : A -> B -> Prop} {l1 l2} : Forall2 R l1 l2 -> length l1 = length l2.
Proof. induction 1; cbn; congruence. Qed.

Lemma Forall2_nth {A B} (R : A -> B -> Prop) da db : forall l1 l2, length l1 = length l2 ->
  (forall i, i < length l1 -> R (nth i l1 da) (nth i l2 db)) -> Forall2 R l1 l2.
Proof.
  induction l1 as [|x l1 IH]; intros l2 Hl H; destruct l2 as [|y l2]; try discriminate; constructor.
  - apply (H 0), Nat.lt_0_succ.
  - apply IH; [now injection Hl|]. intros i Hi. apply (H (S i)), (proj1 (Nat.succ_lt_mono _ _) Hi).
Qed.

Lemma filter_all {A} (p : A -> bool) l : Forall (fun x => p x = true) l -> filter p l = l.
Proof. induction 1 as [|x l Hx _ IH]; cbn; [reflexivity|]. now rewrite Hx, IH. Qed.

Lemma filter_none {A} (p : A -> bool) l : Forall (fun x => p x = false) l -> filter p l = [].
Proof. induction 1 as [|x l Hx _ IH]; cbn [filter]; [reflexivity|]. now rewrite Hx. Qed.

Lemma existsb_false_in {A} (f : A -> bool) l x : existsb f l = false -> In x l -> f x = false.
Proof.
  intros H Hin. destruct (f x) eqn:E; [|reflexivity]. rewrite <- H. symmetry. apply existsb_exists. now exists x.
Qed.

Lemma existsb_eqb_in t l : existsb (N.eqb t) l = true <-> In t l.
Proof.
  rewrite existsb_exists. split.
  - intros (x & Hx & E). apply N.eqb_eq in E. now subst.
  - intros H. exists t. split; [exact H|apply N.eqb_refl].
Qed.

Lemma NoDup_app_iff {A} (a b : list A) :
  NoDup (a ++ b) <-> NoDup a /\ NoDup b /\ forall x, In x a -> In x b -> False.
Proof.
  induction a as [|y a IH]; cbn.
  - split; [intros H; repeat split; [constructor|exact H|contradiction]|intros H; apply H].
  - rewrite !NoDup_cons_iff, IH, in_app_iff. split.
    + intros (Hy & Ha & Hb & Hd). repeat split; [tauto|exact Ha|exact Hb|]. intros x [<-|Hx]; [tauto|exact (Hd x Hx)].
    + intros ((Hy & Ha) & Hb & Hd). repeat split; [|exact Ha|exact Hb|intros x Hx; apply Hd; now right].
      intros [Hin|Hin]; [exact (Hy Hin)|exact (Hd y (or_introl eq_refl) Hin)].
Qed.

Lemma NoDup_snoc {A} (l : list A) x : NoDup l -> ~ In x l -> NoDup (l ++ [x]).
Proof.
  intros Hl Hx. apply NoDup_app_iff. split; [exact Hl|]. split; [constructor; [intros []|constructor]|].
  intros y Hy [<-|[]]. exact (Hx Hy).
Qed.

Lemma NoDup_map_inj {A B} (f : A -> B) (l : list A) x y : NoDup (map f l) -> In x l -> In y l -> f x = f y -> x = y.
Proof.
  induction l as [|z l IH]; intros Hn Hx Hy E; [destruct Hx|]. cbn in Hn. inversion Hn as [|? ? Hnot Hn']; subst.
  destruct Hx as [<-|Hx], Hy as [<-|Hy]; try reflexivity.
  - exfalso. apply Hnot. rewrite E. now apply in_map.
  - exfalso. apply Hnot. rewrite <- E. now apply in_map.
  - now apply IH.
Qed.

Lemma flat_map_ext_in {A B} (f g : A -> list B) l :
  (forall s, In s l -> f s = g s) -> flat_map f l = flat_map g l.
Proof.
  induction l as [|a l IH]; intros H; cbn [flat_map]; [reflexivity|].
  rewrite (H a) by (left; reflexivity). rewrite IH; [reflexivity|]. intros s Hs. apply H. now right.
Qed.

Lemma flat_map_nil {A B} (f : A -> list B) l :
  (forall s, In s l -> f s = []) -> flat_map f l = [].
Proof. intros H. rewrite (flat_map_ext_in _ (fun _ => []) _ H). clear H. induction l; auto. Qed.

Lemma map_flat_map {A B C} (g : B -> C) (f : A -> list B) l : map g (flat_map f l) = flat_map (fun x => map g (f x)) l.
Proof. induction l as [|x l IH]; cbn; [reflexivity|]. now rewrite map_app, IH. Qed.

Lemma flat_map_single {A B} (f : A -> B) l : flat_map (fun x => [f x]) l = map f l.
Proof. induction l as [|x l IH]; cbn; [reflexivity|]. now rewrite IH. Qed.

(* [g p] picks the part [p] of [l], [Q] says which parts there are: every element lies in some part, two elements whose
   images under [f] share a member lie in the same parts, and within each part the images have no duplicate *)
Lemma NoDup_by_parts {A B P} (f : A -> list B) (g : P -> A -> bool) (Q : P -> Prop) (l : list A) :
  (forall a, In a l -> exists p, Q p /\ g p a = true) ->
  (forall p a b x, In a l -> In b l -> In x (f a) -> In x (f b) -> g p a = g p b) ->
  (forall p, Q p -> NoDup (flat_map f (filter (g p) l))) ->
  NoDup (flat_map f l).
Proof.
  induction l as [|a l IH]; intros Hcov Hsh Hparts; [constructor|].
  destruct (Hcov a (or_introl eq_refl)) as (p & Hp & Hg).
  pose proof (Hparts p Hp) as Ha. cbn [filter] in Ha. rewrite Hg in Ha. apply NoDup_app_iff in Ha as (Ha & _ & Hd).
  cbn [flat_map]. apply NoDup_app_iff. split; [exact Ha|]. split.
  - apply IH.
    + intros b Hb. apply Hcov. now right.
    + intros p' b b' x Hb Hb'. apply Hsh; now right.
    + intros p' Hp'. specialize (Hparts p' Hp'). cbn [filter] in Hparts.
      destruct (g p' a); [apply NoDup_app_iff in Hparts; apply Hparts|exact Hparts].
  - intros x Hx Hin. apply in_flat_map in Hin as (b & Hb & Hxb). apply (Hd x Hx), in_flat_map. exists b. split; [|exact Hxb].
    apply filter_In. split; [exact Hb|]. rewrite <- Hg. symmetry. apply (Hsh p a b x); auto; [now left|now right].
Qed.

Lemma nth_error_snoc_len {A} (l : list A) x : nth_error (l ++ [x]) (length l) = Some x.
Proof. rewrite nth_error_app2 by apply Nat.le_refl. now rewrite Nat.sub_diag. Qed.

Lemma Forall_filter {A} (Q : A -> Prop) p l : Forall Q l -> Forall Q (filter p l).
Proof. induction 1 as [|x l Hx _ IH]; cbn [filter]; [constructor|]. destruct (p x); [now constructor|exact IH]. Qed.

Lemma firstn_snoc_nth {A} (l : list A) a c : nth_error l a = Some c -> firstn (S a) l = firstn a l ++ [c].
Proof.
  revert a. induction l as [|x l IH]; intros [|a] H; cbn in H; try discriminate.
  - inversion H. reflexivity.
  - cbn [firstn app]. f_equal. now apply IH.
Qed.

Lemma forallb_Forall {A} (f : A -> bool) (P : A -> Prop) l :
  (forall x, f x = true <-> P x) -> forallb f l = true <-> Forall P l.
Proof. intros H. rewrite forallb_forall, Forall_forall. split; intros F x Hx; apply H, F, Hx. Qed.

Lemma filter_map_comm {A B} (f : A -> B) (q : B -> bool) l : filter q (map f l) = map f (filter (fun x => q (f x)) l).
Proof. induction l as [|x l IH]; cbn [map filter]; [reflexivity|]. destruct (q (f x)); cbn [map]; now rewrite IH. Qed.

Lemma find_eqb {A} (key : A -> N) (l : list A) k r : find (fun y => N.eqb (key y) k) l = Some r -> In r l /\ key r = k.
Proof. intros H. apply find_some in H as (H1 & H2). split; [assumption|now apply N.eqb_eq]. Qed.
