(* EngineRestart.v — the invariant that holds along histories WITH restarts: every topic state, once its
   pending hydration is carried out (either flavour), satisfies the per-topic invariant TInv, a position
   clause [Q] and agrees with the ledger of the queue specification; plus the disk invariants ([GQ]; [G] is
   the instance P3 of StrictlyAtOnce mode, [GM] of EngineGen.v the one whose position may lag).
   Every restart-free operation commutes with the normalisation of each flavour it is compatible with, and a
   stateful read leaves its topic hydrated ([step_Nst]); so the operation can be run in the hydrated world,
   where the restart-free theory (EngineMain.step_ok, EngineBlk.disk_step) applies as it stands, and one
   step lemma serves every clause ([GQ_op]: what is left to prove is that the operation keeps the clause of its
   topic in that world, where what it does to the topic is two legs of a read, a run of the writer, or nothing:
   [topic_op]).  A clause that stands beside a GQ rides on the same lemma as a conjunct of the clause ([GQ_and]). *)
From W Require Import model.Base model.Engine spec.Queue proofs.EngineWF proofs.EngineInv proofs.EngineBR proofs.EngineW
  proofs.EngineMain proofs.AloAccP proofs.EngineDisk proofs.EnginePos proofs.EngineP3 proofs.EngineBlk
  proofs.EngineNorm proofs.EngineNormW.

(* an un-hydrated reader's persisted position resolves inside its sealed chain, and the reader carries no tail
   progress of its own ([r_tail_bid = 0], as a restart leaves it: hydration is then the only source of it).  The second
   conjunct is [EngineNorm.resolves (chain_of ts) p] written out; [SC_CS] and [SC_wkeep] pass it for that by conversion *)
Definition SC (ts : tstate) : Prop :=
  r_hydrated (reader_of ts) = false -> forall p, ts_index ts = Some p ->
    r_tail_bid (reader_of ts) = 0 /\
    (if p_tail p then exists j, find_id (chain_of ts) (p_a p) 0 = Some j
     else p_a p < N.of_nat (length (chain_of ts))).

(* the invariant with the position clause [Q] of a normalised topic state left open.  [TG] / [G] below and
   [TGM] / [GM] of EngineGen.v are written out with their clause in place; they are [TGQ] / [GQ] at P3 and at QL by
   conversion ([G_GQ], EngineGen.GM_GQ), so every lemma about GQ applies to them as it stands.  Keep the four
   texts in step, and the order of the conjuncts: the proofs, here and in the files that import this one, take them apart
   by position ([SC]; under [forall x]: TInv, the clause, [l_del] within [l_app], stream, unread, the two budgets). *)
Definition TGQ (Q : Cfg -> N -> tstate -> Prop) (c : Cfg) (nid : N) (ts : tstate) (l : ledger) (B Bb : N) : Prop :=
  SC ts /\ forall x,
    TInv c nid (nrm x ts) /\ Q c nid (nrm x ts) /\
    (l_del l <= length (l_app l))%nat /\ stream (nrm x ts) = l_app l /\
    unread c (nrm x ts) = skipn (l_del l) (l_app l) /\
    N.of_nat (length (l_app l)) <= B /\ sum_len (l_app l) <= Bb.

Definition GQ (Q : Cfg -> N -> tstate -> Prop) (c : Cfg) (s : st) (g : lg) (B Bb : N) : Prop :=
  0 < a_next (s_alloc s) /\ DIs c s /\ BIs c s /\ DLim c s /\
  forall t, TGQ Q c (a_next (s_alloc s)) (get_ts s t) (lget g t) B Bb.

Definition TG (c : Cfg) (nid : N) (ts : tstate) (l : ledger) (B Bb : N) : Prop :=
  SC ts /\ forall x,
    TInv c nid (nrm x ts) /\ P3 c nid (nrm x ts) /\
    (l_del l <= length (l_app l))%nat /\ stream (nrm x ts) = l_app l /\
    unread c (nrm x ts) = skipn (l_del l) (l_app l) /\
    N.of_nat (length (l_app l)) <= B /\ sum_len (l_app l) <= Bb.

Definition G (c : Cfg) (s : st) (g : lg) (B Bb : N) : Prop :=
  0 < a_next (s_alloc s) /\ DIs c s /\ BIs c s /\ DLim c s /\
  forall t, TG c (a_next (s_alloc s)) (get_ts s t) (lget g t) B Bb.

Lemma G_GQ : G = GQ P3.
Proof. reflexivity. Qed.

Implicit Types Q : Cfg -> N -> tstate -> Prop.

Lemma GQ_Rel Q x c s g B Bb : GQ Q c s g B Bb -> Rel c (Nst x s) g B Bb.
Proof.
  intros (Hn & _ & _ & _ & Hall). split.
  - split; [exact Hn|]. intros t. rewrite get_Nst. exact (proj1 (proj2 (Hall t) x)).
  - intros t. rewrite get_Nst. destruct (proj2 (Hall t) x) as (_ & _ & A & B0 & C & D & E). auto.
Qed.

Lemma GQ_init Q c : 0 < c_block c -> Q c (a_next (s_alloc init)) tstate0 -> GQ Q c init [] 0 0.
Proof.
  intros Hb HQ. split; [cbn; lia|]. split; [now apply DIs_init|]. split; [apply BIs_init|]. split; [apply DLim_init|].
  intros t. change (get_ts init t) with tstate0. split; [intros _ p Hp; discriminate|].
  intros x. rewrite nrm_tstate0. split; [apply TInv0; cbn; lia|]. split; [exact HQ|].
  cbn. repeat split; lia.
Qed.

Lemma G_init c : 0 < c_block c -> G c init [] 0 0.
Proof. intros Hb. apply (GQ_init P3 c Hb), P3_tstate0. Qed.

Lemma SC_hydrated ts : r_hydrated (reader_of ts) = true -> SC ts.
Proof. intros H Hf. congruence. Qed.

(* the commutation condition of EngineNormW, from the invariant *)
Lemma SC_CS c nid ts : SC ts -> TInv c nid (nrm false ts) -> 0 < nid -> CSw ts nid.
Proof.
  intros Hsc Hinv Hn bid Hw1 Hw0 Hh p Hp. destruct (Hsc Hh p Hp) as (Ht & Hres).
  pose proof (ti_ids _ _ _ Hinv) as Hids. pose proof (ti_nodup _ _ _ Hinv) as Hnd.
  rewrite nrm_chain, nrm_w_list in Hids, Hnd.
  assert (Hb : 0 < bid /\ (forall b, In b (chain_of ts) -> b_id b <> bid)).
  { unfold w_list in Hids, Hnd. destruct (ts_writer ts) as [w|] eqn:Ew.
    - rewrite (Hw1 w eq_refl). split.
      + eapply Forall_forall in Hids; [|apply in_or_app; right; left; reflexivity]. lia.
      + intros b Hin Heq. rewrite map_app in Hnd. cbn [map] in Hnd. apply NoDup_remove_2 in Hnd. apply Hnd.
        rewrite app_nil_r, <- Heq. now apply in_map.
    - rewrite (Hw0 eq_refl). split; [exact Hn|]. intros b Hin. eapply Forall_forall in Hids; [|apply in_or_app; left; exact Hin]. lia. }
  destruct Hb as (Hb1 & Hb2). split; [exact Ht|]. split; [exact Hb1|].
  split; [exact Hres|]. intros Et. rewrite Et in Hres. destruct Hres as (j & Hj).
  destruct (find_id_nth _ _ _ _ Hj) as (b & Hnb & Hid). apply nth_error_In in Hnb.
  split.
  - eapply Forall_forall in Hids; [|apply in_or_app; left; exact Hnb]. lia.
  - intros Heq. apply (Hb2 b Hnb). congruence.
Qed.

Lemma TGQ_CS Q c nid ts l B Bb : TGQ Q c nid ts l B Bb -> 0 < nid -> CSw ts nid.
Proof. intros (Hsc & Hall) Hn. apply (SC_CS c nid ts Hsc (proj1 (Hall false)) Hn). Qed.

(* the clause may be weakened to one that follows from it in the presence of the per-topic invariant *)
Lemma GQ_mono Q Q' c s g B Bb :
  (forall nid T, TInv c nid T -> Q c nid T -> Q' c nid T) -> GQ Q c s g B Bb -> GQ Q' c s g B Bb.
Proof.
  intros H (Hn & Hd & Hb & Hl & Hall). repeat (split; [assumption|]). intros t. destruct (Hall t) as (Hsc & Hx).
  split; [exact Hsc|]. intros x. destruct (Hx x) as (A1 & A2 & A3). split; [exact A1|]. split; [exact (H _ _ A1 A2)|exact A3].
Qed.

(* a clause of the raw state: of every topic, under both normalisations *)
Definition JR Q (c : Cfg) (s : st) : Prop := forall t x, Q c (a_next (s_alloc s)) (nrm x (get_ts s t)).

Lemma GQ_and Q Q' c s g B Bb :
  GQ (fun c n T => Q c n T /\ Q' c n T) c s g B Bb <-> GQ Q c s g B Bb /\ JR Q' c s.
Proof.
  split.
  - intros H. split; [apply (GQ_mono _ Q c s g B Bb (fun _ _ _ A => proj1 A) H)|].
    intros t x. destruct H as (_ & _ & _ & _ & Hall). exact (proj2 (proj1 (proj2 (proj2 (Hall t) x)))).
  - intros ((Hn & Hd & Hb & Hl & Hall) & HA). repeat (split; [assumption|]). intros t. split; [apply Hall|].
    intros x. destruct (proj2 (Hall t) x) as (A1 & A2 & A3). split; [exact A1|]. split; [split; [exact A2|apply HA]|exact A3].
Qed.

Lemma GQ_WFg Q c s g B Bb : GQ Q c s g B Bb -> WFg g.
Proof. intros (_ & _ & _ & _ & Hall) t. destruct (proj2 (Hall t) false) as (_ & _ & H & _). exact H. Qed.

(* what the invariant says of one topic in terms of its ledger, whichever flavour hydrates *)
Lemma GQ_view Q c s g B Bb : GQ Q c s g B Bb -> forall t x,
  (l_del (lget g t) <= length (l_app (lget g t)))%nat /\
  stream (get_ts s t) = l_app (lget g t) /\
  unread c (nrm x (get_ts s t)) = skipn (l_del (lget g t)) (l_app (lget g t)) /\
  cnt (get_ts s t) = N.of_nat (length (l_app (lget g t)) - l_del (lget g t)).
Proof.
  intros (_ & _ & _ & _ & Hall) t x. destruct (proj2 (Hall t) x) as (Hti & _ & Hdl & Hs & Hu & _).
  rewrite nrm_stream in Hs. split; [exact Hdl|]. split; [exact Hs|]. split; [exact Hu|].
  pose proof (ti_cnt _ _ _ Hti) as C. unfold cnt in *. rewrite nrm_count in C. now rewrite C, Hu, skipn_length.
Qed.

(* the topic an operation acts on; 0 at OReopen is a dummy, every user has [op_ok c o] *)
Definition otopic (o : op) : N :=
  match o with OAppend t _ | OBatch t _ | ORead t _ | OBatchRead t _ _ _ | OCount t => t_id t | OReopen => 0 end.

(* the hydration flavours an operation is compatible with: a stateful read hydrates in its own *)
Definition flv (x : bool) (o : op) : Prop :=
  match o with ORead _ _ => x = false | OBatchRead _ _ _ None => x = true | _ => True end.

Lemma rtopic_otopic o t ck : rtopic o = Some (t, ck) -> otopic o = t_id t.
Proof. destruct o as [| |? ?|? ? ? [|]| |]; intros [=]; now subst. Qed.

Lemma wtopic_otopic o t : wtopic o = Some t -> otopic o = t_id t /\ forall x, flv x o.
Proof. destruct o; intros [=]; subst; (split; [reflexivity|intros; exact I]). Qed.

Lemma flv_some o : exists x, flv x o.
Proof. destruct o as [| | |? ? ? [|]| |]; (now exists false) || now exists true. Qed.

Lemma ledger_step_other g o r t : t <> otopic o -> lget (ledger_step g o r) t = lget g t.
Proof.
  intros Hne. destruct o as [t0 e|t0 es|t0 [|]|t0 mb [|] [st|]|t0|]; destruct r; cbn [ledger_step otopic] in *;
    try reflexivity; now apply lget_lset_other.
Qed.

Lemma SC_wkeep ts ts' : wkeep ts ts' -> SC ts -> SC ts'.
Proof.
  (* EngineW.keep by position: hydration flag, tail id, index *)
  intros ((K1 & K2 & K3 & _) & q & Hq) Hsc Hh p Hp. rewrite K1 in Hh. rewrite K3 in Hp.
  destruct (Hsc Hh p Hp) as (A & R). rewrite K2, Hq. split; [exact A|exact (proj1 (res_app _ q p R))].
Qed.

(* what a restart-free operation makes of its own topic on a hydrated state: a stateful read goes two legs (the second
   over at most what it hands out), a write runs the writer and keeps the reader, anything else leaves the topic alone.
   Of a leg (EnginePos.Leg): [f] / [p] say whether it persisted the cursor, [q1] / [q] are the position it then wrote *)
Lemma topic_op c m be S o : cfg_ok c -> GInv c S -> op_ok c o ->
  let nid := a_next (s_alloc S) in
  let S' := fst (step (env_of c m be) S o) in
  let T := get_ts S (otopic o) in
  let T' := get_ts S' (otopic o) in
  (exists t ck T1 d f q1 p q, rtopic o = Some (t, ck) /\ Leg c nid m (is_batch o) T [] f q1 T1 /\ Leg c nid m (is_batch o) T1 d p q T' /\
     a_next (s_alloc S') = nid /\ (is_batch o = false -> (length d <= 1)%nat) /\ (ck = false -> d = [])) \/
  (exists es, WRun c nid T es (a_next (s_alloc S')) T' /\ wkeep T T') \/
  T' = T /\ a_next (s_alloc S') = nid.
Proof.
  intros Hc Hg Hok. cbv zeta. pose proof Hg as (Hn & Hti).
  destruct (rtopic o) as [[t ck]|] eqn:Ho.
  { left. rewrite (rtopic_otopic o t ck Ho).
    destruct (read_exact c m be S o t ck _ Hc Ho (Hti (t_id t))) as (T1 & ts' & k & f & q1 & p & q & E & _ & _ & Hk1 & L1 & L2).
    unfold env_of. rewrite E. cbn [fst set_ts s_alloc]. rewrite get_set_same. eexists t, ck, T1, _, f, q1, p, q.
    split; [reflexivity|]. split; [exact L1|]. split; [exact L2|]. split; [reflexivity|]. split.
    - intros Hb. destruct ck; [rewrite firstn_length; specialize (Hk1 Hb); lia|cbn; lia].
    - now intros ->. }
  destruct (wtopic o) as [t|] eqn:Hw.
  { right. left. rewrite (proj1 (wtopic_otopic o t Hw)). unfold env_of. destruct (write_WRun c m be S o t Hc Hw) as (es & Hrun).
    exists es. split; [exact Hrun|]. exact (proj2 (proj2 (write_wframe c m be S o t Hc Hw))). }
  right. right. destruct o as [t e | t es | t ck | t maxb ck [st0|] | t | ]; try discriminate;
    cbn [step env_of v_cfg v_mode v_backend otopic] in *; [| |contradiction].
  - destruct (batch_read_stateless c m S t maxb ck st0) as (os & ->). cbn [fst set_ts s_alloc]. now rewrite get_set_same.
  - auto.
Qed.

(* What a restart-free operation [o] does to a raw state: it touches its own topic only, never lowers the
   next block id, commutes with the normalisation of every flavour it is compatible with, and either keeps
   the reader's hydration data (then it is compatible with both flavours) or leaves the topic hydrated.
   The state is raw: [topic_op] asks for GInv and does not apply, hence the walk through the hypothesis-free
   facts (write_wframe, read_Nst, write_Nst). *)
Lemma step_Nst Q c m be s g B Bb o : cfg_ok c -> GQ Q c s g B Bb -> op_ok c o ->
  let v := env_of c m be in
  let s' := fst (step v s o) in
  others_same s s' (otopic o) /\ a_next (s_alloc s) <= a_next (s_alloc s') /\
  (wkeep (get_ts s (otopic o)) (get_ts s' (otopic o)) /\ (forall x, flv x o) \/
   r_hydrated (reader_of (get_ts s' (otopic o))) = true) /\
  forall x, flv x o -> step v (Nst x s) o = (Nst x s', snd (step v s o)).
Proof.
  intros Hc HG Hok v s'. pose proof HG as (Hn & _ & _ & _ & Hall). subst v s'.
  assert (Hset : forall t A, others_same s (set_ts s t A) t /\ a_next (s_alloc s) <= a_next (s_alloc (set_ts s t A)))
    by (intros t A; split; [intros t' Hne; now apply get_set_other|reflexivity]).
  destruct (wtopic o) as [t|] eqn:Hw.
  { destruct (wtopic_otopic o t Hw) as (-> & Hf).
    destruct (write_wframe c m be s o t Hc Hw) as (O & M & K).
    split; [exact O|]. split; [exact M|]. split; [left; exact (conj K Hf)|].
    intros x _. exact (write_Nst x c m be s o t Hc Hw Hn (TGQ_CS Q c _ _ _ _ _ (Hall (t_id t)) Hn)). }
  destruct (rtopic o) as [[t ck]|] eqn:Hr.
  { (* the exact specification, applied in the hydrated world of the read's flavour, says that the stored
       topic state is hydrated *)
    rewrite (rtopic_otopic o t ck Hr).
    assert (Hf : forall x, flv x o <-> x = is_batch o) by (destruct o as [| |? ?|? ? ? [|]| |]; try discriminate Hr; intros x; cbn; tauto).
    pose proof (proj1 (proj2 (Hall (t_id t)) (is_batch o))) as Hti. rewrite <- get_Nst in Hti.
    destruct (read_exact c m be (Nst (is_batch o) s) o t ck _ Hc Hr Hti) as (T1 & ts' & k & f & q1 & p & q & E & _ & _ & _ & _ & L2).
    pose proof (rd_hyd _ _ _ _ _ (lg_read _ _ _ _ _ _ _ _ _ L2)) as Hh.
    destruct (read_Nst c m be s o t ck Hr) as (A & r & E1 & E2). fold (env_of c m be) in E. rewrite E2 in E.
    pose proof (f_equal fst E) as F. cbn [fst] in F. apply set_ts_inj in F. subst ts'.
    rewrite E1. cbn [fst snd]. rewrite get_set_same.
    split; [apply Hset|]. split; [apply Hset|]. split; [right; exact Hh|].
    intros x Hx. apply Hf in Hx. subst x. now rewrite E2, Nst_set_ts, (nrm_reader_hydrated _ A Hh). }
  destruct o as [t e | t es | t ck | t maxb ck [st0|] | t | ]; try discriminate; cbn [step env_of v_cfg v_mode v_backend otopic flv]; [| |contradiction].
  - destruct (batch_read_stateless c m s t maxb ck st0) as (os & Hr0).
    split; [rewrite Hr0; apply Hset|]. split; [rewrite Hr0; apply Hset|].
    split; [left; split; [rewrite Hr0; cbn [fst]; rewrite get_set_same; apply wkeep_refl|intros; exact I]|].
    intros x _. apply batch_read_stateless_Nst.
  - split; [intros t' _; reflexivity|]. split; [reflexivity|]. split; [left; split; [apply wkeep_refl|intros; exact I]|].
    intros x _. now rewrite get_Nst, nrm_count.
Qed.

(* ONE step lemma for every restart-free operation and every position clause: what is asked for is that
   the operation keeps [Q] of its topic on hydrated states *)
Lemma GQ_op Q c m be s g B Bb o : cfg_ok c -> GQ Q c s g B Bb -> op_ok c o ->
  B + N.of_nat (length (offered o)) <= u64_max -> Bb + sum_len (offered o) <= u64_max ->
  (forall nid nid' T, nid <= nid' -> Q c nid T -> Q c nid' T) ->
  (forall S, GInv c S -> Q c (a_next (s_alloc S)) (get_ts S (otopic o)) ->
             let S' := fst (step (env_of c m be) S o) in Q c (a_next (s_alloc S')) (get_ts S' (otopic o))) ->
  let s' := fst (step (env_of c m be) s o) in
  let r := snd (step (env_of c m be) s o) in
  c01_step_ok g o r = true /\ c15_step_ok g o r = true /\
  GQ Q c s' (ledger_step g o r) (B + N.of_nat (length (offered o))) (Bb + sum_len (offered o)).
Proof.
  intros Hc HG Hok HB HBb Hqm HQ. cbv zeta.
  destruct (step_Nst Q c m be s g B Bb o Hc HG Hok) as (Hoth & Hmono & Hcase & Hcomm). cbv zeta in *.
  pose proof HG as (Hn & Hd & Hb & Hl & Hall). pose proof Hc as (_ & Hb0 & _).
  set (s' := fst (step (env_of c m be) s o)) in *. set (r := snd (step (env_of c m be) s o)) in *.
  assert (Hst : forall x, flv x o -> c01_step_ok g o r = true /\ c15_step_ok g o r = true /\
            Rel c (Nst x s') (ledger_step g o r) (B + N.of_nat (length (offered o))) (Bb + sum_len (offered o)) /\
            Q c (a_next (s_alloc s')) (nrm x (get_ts s' (otopic o)))).
  { intros x Hx. pose proof (GQ_Rel Q x c s g B Bb HG) as HR. pose proof (step_ok c m be (Nst x s) g B Bb o Hc HR Hok HB HBb) as H.
    specialize (HQ (Nst x s) (proj1 HR)). rewrite get_Nst in HQ. specialize (HQ (proj1 (proj2 (proj2 (Hall _) x)))).
    cbv zeta in HQ. rewrite (Hcomm x Hx) in H, HQ. cbn [fst Nst s_alloc] in HQ. rewrite get_Nst in HQ.
    destruct H as (A1 & A2 & _ & A4). auto. }
  destruct (flv_some o) as (x0 & Hx0).
  split; [apply (Hst x0 Hx0)|]. split; [apply (Hst x0 Hx0)|].
  split; [lia|].
  (* the disk invariants do not look at readers: run the operation on the normalised state *)
  pose proof (disk_step c m be (Nst x0 s) o Hc (proj1 (GQ_Rel Q x0 c s g B Bb HG)) (proj2 (DIs_Nst x0 c s) Hd) Hok) as Hdb.
  cbv zeta in Hdb. rewrite (Hcomm x0 Hx0) in Hdb. cbn [fst] in Hdb. destruct Hdb as (Hd' & Hb' & Hl').
  split; [exact (proj1 (DIs_Nst x0 c s') Hd')|]. split; [exact (proj1 (BIs_Nst x0 c s') (Hb' (proj2 (BIs_Nst x0 c s) Hb)))|].
  split; [exact (Hl' Hl)|].
  intros t0. destruct (N.eq_dec t0 (otopic o)) as [->|Hne].
  - split; [destruct Hcase as [(K & _)|Hh]; [exact (SC_wkeep _ _ K (proj1 (Hall _)))|now apply SC_hydrated]|].
    intros x.
    (* the other flavour of a stateful read sees the same, hydrated, topic state *)
    assert (Hx' : exists x', flv x' o /\ nrm x (get_ts s' (otopic o)) = nrm x' (get_ts s' (otopic o))).
    { destruct Hcase as [(_ & Hf)|Hh]; [exists x; auto|]. exists x0. split; [exact Hx0|]. now rewrite !nrm_reader_hydrated. }
    destruct Hx' as (x' & Hx' & ->). destruct (Hst x' Hx') as (_ & _ & ((_ & Hti) & Hled) & Hq).
    specialize (Hti (otopic o)). specialize (Hled (otopic o)). rewrite get_Nst in Hti, Hled. cbn [Nst s_alloc] in Hti.
    split; [exact Hti|]. split; [exact Hq|exact Hled].
  - rewrite (Hoth t0 Hne), (ledger_step_other g o r t0 Hne). destruct (Hall t0) as (Hsc & Hx). split; [exact Hsc|].
    intros x. destruct (Hx x) as (A1 & A2 & A3 & A4 & A5 & A6 & A7).
    split; [exact (TInv_mono _ _ _ _ Hmono A1)|]. split; [exact (Hqm _ _ _ Hmono A2)|]. repeat split; auto; lia.
Qed.

(* every persisted position is a GOOD one: it names a block that holds entries *)
Definition PG (c : Cfg) (s : st) : Prop :=
  forall t x p, ts_index (get_ts s t) = Some p -> PGood c (nrm x (get_ts s t)) p.

Lemma PG_init c : PG c init.
Proof. intros t x p H. discriminate. Qed.

Definition QPG : Cfg -> N -> tstate -> Prop := fun c _ T => forall p, ts_index T = Some p -> PGood c T p.

Lemma PG_JR c s : PG c s <-> JR QPG c s.
Proof. split; intros H t x p Hp; [rewrite nrm_index in Hp|rewrite <- (nrm_index x) in Hp]; now apply H. Qed.

Lemma PGood_nonstale c T p : PGood c T p -> stale_p (memne T) p = false.
Proof.
  intros (j & b & Hb & Hpos & _). unfold stale_p. destruct (p_tail p); [|reflexivity]. cbn [andb].
  apply negb_false_iff, existsb_exists. exists b. split; [eapply nth_error_In; eauto|lia].
Qed.

Lemma PG_nonstale c s : PG c s -> forall t p, ts_index (get_ts s t) = Some p -> stale_p (memne (get_ts s t)) p = false.
Proof. intros H t p Hp. rewrite <- (nrm_memne false). eapply PGood_nonstale. now apply H. Qed.
