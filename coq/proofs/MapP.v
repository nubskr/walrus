(* MapP.v — sorted association lists (model/Map.v) over a comparison satisfying [cmp_ok]
   ([N.compare], [str_cmp]): lookup after [ins], [ins] keeps sortedness, sorted lists have distinct
   keys, and two sorted lists that are permutations of each other are equal ([sorted_perm_eq]),
   so [of_list] of a permutation of a sorted list is that list ([of_list_perm]). *)
From W Require Import model.Base model.Map.
From Coq Require Import Permutation.

Record cmp_ok {K : Type} (cmp : K -> K -> comparison) : Prop := {
  cmp_eq : forall a b, cmp a b = Eq <-> a = b;
  cmp_anti : forall a b, cmp b a = CompOpp (cmp a b);
  cmp_trans : forall a b c, cmp a b = Lt -> cmp b c = Lt -> cmp a c = Lt
}.
Arguments cmp_eq {K cmp}.
Arguments cmp_anti {K cmp}.
Arguments cmp_trans {K cmp}.

Lemma N_cmp_ok : cmp_ok N.compare.
Proof.
  split.
  - apply N.compare_eq_iff.
  - intros a b. apply N.compare_antisym.
  - intros a b c. rewrite !N.compare_lt_iff. apply N.lt_trans.
Qed.

Lemma str_cmp_refl a : str_cmp a a = Eq.
Proof. induction a as [|x a IH]; cbn; [reflexivity|]. now rewrite N.compare_refl. Qed.

Lemma str_cmp_ok : cmp_ok str_cmp.
Proof.
  split.
  - intros a. induction a as [|x a IH]; intros [|y b]; cbn; try (split; [discriminate|discriminate]); [tauto|].
    destruct (N.compare_spec x y) as [E|E|E].
    + subst y. rewrite IH. split; [now intros ->|now inversion 1].
    + split; [discriminate|]. inversion 1; subst. now apply N.lt_irrefl in E.
    + split; [discriminate|]. inversion 1; subst. now apply N.lt_irrefl in E.
  - intros a. induction a as [|x a IH]; intros [|y b]; cbn; try reflexivity.
    rewrite (N.compare_antisym x y). destruct (N.compare x y); cbn; auto.
  - intros a. induction a as [|x a IH]; intros [|y b] [|z c]; cbn; try discriminate; auto.
    destruct (N.compare_spec x y) as [E1|E1|E1]; destruct (N.compare_spec y z) as [E2|E2|E2];
      try discriminate; intros H1 H2; subst.
    + rewrite N.compare_refl. eauto.
    + apply N.compare_lt_iff in E2. now rewrite E2.
    + apply N.compare_lt_iff in E1. now rewrite E1.
    + assert (E : x < z) by (eapply N.lt_trans; eauto). apply N.compare_lt_iff in E. now rewrite E.
Qed.

Definition lt_all {K V} (cmp : K -> K -> comparison) (k : K) (l : list (K * V)) : Prop :=
  Forall (fun kv => cmp k (fst kv) = Lt) l.

Section Sorted.
Context {K V : Type} {cmp : K -> K -> comparison} (ok : cmp_ok cmp).

Lemma cmp_refl a : cmp a a = Eq.
Proof. now apply (cmp_eq ok). Qed.

Lemma cmp_gt_lt a b : cmp a b = Gt <-> cmp b a = Lt.
Proof. rewrite (cmp_anti ok a b). destruct (cmp a b); cbn; split; congruence. Qed.

Lemma lookup_ins_same k (v : V) l : lookup cmp k (ins cmp k v l) = Some v.
Proof.
  induction l as [|[k' v'] r IH]; cbn [ins lookup].
  - now rewrite cmp_refl.
  - destruct (cmp k k') eqn:E; cbn [lookup]; rewrite ?cmp_refl, ?E; auto.
Qed.

Lemma lookup_ins_other k k0 (v : V) l :
  k0 <> k -> lookup cmp k0 (ins cmp k v l) = lookup cmp k0 l.
Proof.
  intros Hne. assert (Hk : cmp k0 k <> Eq) by (intros E; apply (cmp_eq ok) in E; contradiction).
  induction l as [|[k' v'] r IH]; cbn [ins lookup].
  - destruct (cmp k0 k); congruence.
  - destruct (cmp k k') eqn:E; cbn [lookup].
    + apply (cmp_eq ok) in E. subst k'. destruct (cmp k0 k); congruence.
    + destruct (cmp k0 k); congruence.
    + now rewrite IH.
Qed.

Lemma lookup_In k (v : V) l : lookup cmp k l = Some v -> In (k, v) l.
Proof.
  induction l as [|[k' v'] r IH]; cbn [lookup]; [discriminate|].
  destruct (cmp k k') eqn:E; intros H.
  - apply (cmp_eq ok) in E. subst. inversion H; subst. now left.
  - right; auto.
  - right; auto.
Qed.

Lemma lookup_Forall (P : K * V -> Prop) k v l :
  Forall P l -> lookup cmp k l = Some v -> P (k, v).
Proof. intros Hf Hl. rewrite Forall_forall in Hf. apply Hf. now apply lookup_In. Qed.

Lemma ins_length (k : K) (v : V) l : (length (ins cmp k v l) <= S (length l))%nat.
Proof.
  induction l as [|[k' v'] r IH]; cbn [ins length]; [lia|]. destruct (cmp k k'); cbn [length]; lia.
Qed.

Lemma In_ins (k : K) (v : V) l x : In x (ins cmp k v l) -> x = (k, v) \/ In x l.
Proof.
  induction l as [|[k' v'] r IH]; cbn [ins]; [intros [H|[]]; auto|].
  destruct (cmp k k'); cbn [In]; intros H.
  - destruct H as [H|H]; auto.
  - destruct H as [H|[H|H]]; auto.
  - destruct H as [H|H]; auto. apply IH in H. destruct H; auto.
Qed.

Lemma Forall_ins (P : K * V -> Prop) k v l : P (k, v) -> Forall P l -> Forall P (ins cmp k v l).
Proof.
  rewrite !Forall_forall. intros Hp Hl x Hx. destruct (In_ins k v l x Hx) as [->|Hi]; auto.
Qed.

Lemma lt_all_In k k' (v : V) l : lt_all cmp k l -> In (k', v) l -> cmp k k' = Lt.
Proof. intros H I. exact (proj1 (Forall_forall _ l) H (k', v) I). Qed.

Lemma sortedb_cons k (v : V) r :
  sortedb cmp ((k, v) :: r) = true <-> lt_all cmp k r /\ sortedb cmp r = true.
Proof.
  revert k v. induction r as [|[k' v'] r IH]; intros k v.
  - cbn. split; [split; [constructor|reflexivity]|reflexivity].
  - change (sortedb cmp ((k, v) :: (k', v') :: r)) with
      (match cmp k k' with Lt => sortedb cmp ((k', v') :: r) | _ => false end).
    destruct (cmp k k') eqn:E.
    + split; [discriminate|]. intros [H _]. inversion H; subst. cbn in *. congruence.
    + split.
      * intros H. split; [|exact H]. apply (proj1 (IH k' v')) in H. destruct H as [H1 H2].
        constructor; [exact E|]. eapply Forall_impl; [|exact H1]. cbn. intros a Ha. eapply (cmp_trans ok); eauto.
      * intros [_ H2]. exact H2.
    + split; [discriminate|]. intros [H _]. inversion H; subst. cbn in *. congruence.
Qed.

Lemma sorted_ins k (v : V) l :
  sortedb cmp l = true -> sortedb cmp (ins cmp k v l) = true.
Proof.
  induction l as [|[k' v'] r IH]; intros H; cbn [ins]; [reflexivity|].
  destruct (cmp k k') eqn:E.
  - apply (cmp_eq ok) in E. subst k'. apply sortedb_cons. now apply sortedb_cons in H.
  - change (match cmp k k' with Lt => sortedb cmp ((k', v') :: r) | _ => false end = true). now rewrite E.
  - apply sortedb_cons in H. destruct H as [H1 H2]. apply sortedb_cons. split; [|auto].
    apply Forall_ins; [|exact H1]. cbn. now apply cmp_gt_lt.
Qed.

Lemma In_lookup k (v : V) l :
  sortedb cmp l = true -> In (k, v) l -> lookup cmp k l = Some v.
Proof.
  induction l as [|[k' v'] r IH]; intros Hs Hin; [destruct Hin|].
  apply sortedb_cons in Hs. destruct Hs as [H1 H2]. cbn [lookup]. destruct Hin as [Hin|Hin].
  - inversion Hin; subst. now rewrite cmp_refl.
  - rewrite (proj2 (cmp_gt_lt k k') (lt_all_In _ _ _ _ H1 Hin)). auto.
Qed.

Lemma sorted_NoDup (l : list (K * V)) : sortedb cmp l = true -> NoDup (keys l).
Proof.
  induction l as [|[k v] r IH]; intros Hs; cbn; [constructor|].
  apply sortedb_cons in Hs. destruct Hs as [H1 H2]. constructor; [|auto].
  intros Hin. apply in_map_iff in Hin. destruct Hin as [[k2 v2] [E Hin]]. cbn in E. subst k2.
  apply (lt_all_In _ _ _ _ H1) in Hin. rewrite cmp_refl in Hin. discriminate.
Qed.

Lemma ins_last k (v : V) l :
  Forall (fun kv => cmp (fst kv) k = Lt) l -> ins cmp k v l = l ++ [(k, v)].
Proof.
  induction 1 as [|[k' v'] r Hx Hr IH]; cbn [ins app]; [reflexivity|].
  cbn in Hx. apply cmp_gt_lt in Hx. now rewrite Hx, IH.
Qed.

Lemma fold_ins_sorted_any (l acc : list (K * V)) :
  sortedb cmp acc = true -> sortedb cmp (fold_left (fun m kv => ins cmp (fst kv) (snd kv) m) l acc) = true.
Proof. revert acc. induction l as [|x l IH]; intros acc H; cbn [fold_left]; [exact H|]. apply IH. now apply sorted_ins. Qed.

Lemma In_fold_ins (l acc : list (K * V)) x :
  In x (fold_left (fun m kv => ins cmp (fst kv) (snd kv) m) l acc) -> In x l \/ In x acc.
Proof.
  revert acc. induction l as [|[k v] l IH]; intros acc H; cbn [fold_left] in H; [auto|].
  destruct (IH _ H) as [H1|H1]; [left; now right|].
  cbn [fst snd] in H1. apply In_ins in H1. destruct H1 as [->|H1]; [left; now left|now right].
Qed.

Lemma In_of_list (l : list (K * V)) x : In x (of_list cmp l) -> In x l.
Proof. intros H. apply In_fold_ins in H. destruct H as [H|[]]. exact H. Qed.

Lemma ins_perm k (v : V) l :
  ~ In k (keys l) -> Permutation (ins cmp k v l) ((k, v) :: l).
Proof.
  induction l as [|[k' v'] r IH]; intros H; cbn [ins]; [reflexivity|]. destruct (cmp k k') eqn:E.
  - apply (cmp_eq ok) in E. elim H. now left.
  - reflexivity.
  - rewrite IH by (intros I; apply H; now right). apply perm_swap.
Qed.

Lemma fold_ins_perm : forall l acc : list (K * V),
  NoDup (keys (l ++ acc)) ->
  Permutation (fold_left (fun m kv => ins cmp (fst kv) (snd kv) m) l acc) (l ++ acc).
Proof.
  induction l as [|[k v] r IH]; intros acc H; cbn [fold_left app fst snd]; [reflexivity|].
  assert (P : Permutation (r ++ ins cmp k v acc) ((k, v) :: r ++ acc)).
  { rewrite ins_perm; [symmetry; apply Permutation_middle|].
    intros I. apply (NoDup_cons_iff k (keys (r ++ acc))) in H. apply (proj1 H).
    unfold keys. rewrite map_app. apply in_or_app. now right. }
  rewrite IH; [exact P|]. eapply Permutation_NoDup; [|exact H]. symmetry. now apply Permutation_map.
Qed.

(* both heads are the least key *)
Lemma sorted_perm_eq : forall a b : list (K * V),
  sortedb cmp a = true -> sortedb cmp b = true -> Permutation a b -> a = b.
Proof.
  induction a as [|[k v] a IH]; intros [|[k' v'] b] Ha Hb P.
  - reflexivity.
  - apply Permutation_nil in P. discriminate.
  - symmetry in P. apply Permutation_nil in P. discriminate.
  - apply sortedb_cons in Ha, Hb. destruct Ha as [La Sa], Hb as [Lb Sb].
    assert (E : (k', v') = (k, v)).
    { destruct (Permutation_in _ P (or_introl eq_refl)) as [E|I]; [exact E|].
      destruct (Permutation_in _ (Permutation_sym P) (or_introl eq_refl)) as [E|I']; [now symmetry|].
      pose proof (cmp_trans ok _ _ _ (lt_all_In _ _ _ _ La I') (lt_all_In _ _ _ _ Lb I)) as C.
      rewrite cmp_refl in C. discriminate. }
    inversion E; subst k' v'. f_equal. apply IH; [exact Sa|exact Sb|]. exact (Permutation_cons_inv P).
Qed.

Lemma of_list_perm (l m : list (K * V)) :
  sortedb cmp m = true -> Permutation l m -> of_list cmp l = m.
Proof.
  intros Hs Hp. apply sorted_perm_eq; [now apply fold_ins_sorted_any|exact Hs|].
  rewrite <- Hp. unfold of_list. rewrite fold_ins_perm; rewrite app_nil_r; [reflexivity|].
  eapply Permutation_NoDup; [|apply (sorted_NoDup _ Hs)]. symmetry. now apply Permutation_map.
Qed.

End Sorted.

Lemma cmp_lt_ne {K} {cmp : K -> K -> comparison} (ok : cmp_ok cmp) a b : cmp a b = Lt -> a <> b.
Proof. intros H E. subst. rewrite (cmp_refl ok) in H. discriminate. Qed.

Lemma lookup_none_notin {K V} {cmp} (ok : @cmp_ok K cmp) k (l : list (K * V)) : lookup cmp k l = None -> ~ In k (keys l).
Proof.
  induction l as [|[k' v'] r IH]; cbn [lookup keys map]; [tauto|].
  destruct (cmp k k') eqn:E; [discriminate| |]; intros H [H1|H1]; cbn in H1;
    try (subst; rewrite (cmp_refl ok) in E; discriminate); now apply IH.
Qed.

Lemma lt_all_lookup {K V} {cmp} (ok : @cmp_ok K cmp) k (l : list (K * V)) : lt_all cmp k l -> lookup cmp k l = None.
Proof.
  induction 1 as [|[k' v'] r Hx Hr IH]; cbn [lookup]; [reflexivity|]. cbn in Hx. now rewrite Hx.
Qed.

Lemma of_list_is_sorted {K V} {cmp} (ok : @cmp_ok K cmp) (l : list (K * V)) : sortedb cmp (of_list cmp l) = true.
Proof. apply (fold_ins_sorted_any ok). reflexivity. Qed.

Lemma sum_vals_cons {K} (k : K) v (l : list (K * N)) : sum_vals ((k, v) :: l) = v + sum_vals l.
Proof. reflexivity. Qed.

Lemma sum_vals_app {K} (a b : list (K * N)) : sum_vals (a ++ b) = sum_vals a + sum_vals b.
Proof.
  induction a as [|[k v] a IH]; [cbn; now rewrite N.add_0_l|].
  cbn [app]. rewrite !sum_vals_cons, IH. lia.
Qed.
