(* CleanAccP.v — the C17 acceptor (spec/CleanSpec.v): from a set of states it accepts exactly the runs
   that one of them produces under some placement of persister steps ([k_accept_from_iff]), and such
   a schedule, flattened, is one history of the model with the observed answers ([k_sched_weave],
   [k_sched_answers]). *)
From W Require Import model.Base model.Clean spec.CleanSpec proofs.BytesP proofs.CleanP.

Lemma list_eqb_sound {A} (f : A -> A -> bool) :
  (forall x y, f x y = true -> x = y) -> forall a b, list_eqb f a b = true -> a = b.
Proof.
  intros F. induction a as [|x a IH]; intros [|y b] H; cbn [list_eqb] in H; try reflexivity; try discriminate.
  apply andb_prop in H as [H1 H2]. f_equal; [now apply F|now apply IH].
Qed.

Lemma crec_eqb_sound a b : crec_eqb a b = true -> a = b.
Proof.
  destruct a as [g1 c1], b as [g2 c2]. unfold crec_eqb. cbn [cr_gen cr_clean]. intros H. apply andb_prop in H as [H1 H2].
  apply N.eqb_eq in H1. apply Bool.eqb_prop in H2. now subst.
Qed.

Lemma cmap_eqb_sound a b : cmap_eqb a b = true -> a = b.
Proof.
  apply list_eqb_sound. intros [k v] [k' v'] H. cbn [fst snd] in H. apply andb_prop in H as [H1 H2].
  apply str_eqb_eq in H1. apply crec_eqb_sound in H2. now subst.
Qed.

Lemma kphase_eqb_sound a b : kphase_eqb a b = true -> a = b.
Proof.
  destruct a, b; cbn [kphase_eqb]; intros H; try reflexivity; try discriminate.
  - f_equal. revert H. apply list_eqb_sound. intros x y. apply str_eqb_eq.
  - f_equal. now apply cmap_eqb_sound.
Qed.

Lemma kinst_eqb_sound a b : kinst_eqb a b = true -> a = b.
Proof.
  destruct a as [m1 q1 p1 s1], b as [m2 q2 p2 s2]. unfold kinst_eqb. cbn [ki_mem ki_queue ki_phase ki_store]. intros H.
  rewrite !Bool.andb_true_iff in H. destruct H as [[[H1 H2] H3] H4].
  apply cmap_eqb_sound in H1, H4. apply kphase_eqb_sound in H3.
  apply (list_eqb_sound str_eqb (fun x y => proj1 (str_eqb_eq x y))) in H2. now subst.
Qed.

Lemma kst_eqb_sound a b : kst_eqb a b = true -> a = b.
Proof.
  destruct a as [d1 l1 o1], b as [d2 l2 o2]. unfold kst_eqb. cbn [ks_disk ks_live ks_orphans]. intros H.
  rewrite !Bool.andb_true_iff in H. destruct H as [[H1 H2] H3].
  apply cmap_eqb_sound in H1. apply kinst_eqb_sound in H2.
  apply (list_eqb_sound cmap_eqb cmap_eqb_sound) in H3. now subst.
Qed.

Lemma k_dedup_In l : forall x, In x (k_dedup l) <-> In x l.
Proof.
  induction l as [|y r IH]; intros x; cbn [k_dedup]; [tauto|].
  destruct (existsb (kst_eqb y) r) eqn:E.
  - rewrite IH. cbn [In]. split; [tauto|]. intros [H|H]; [|exact H].
    subst y. apply existsb_exists in E as [z [Z1 Z2]]. apply kst_eqb_sound in Z2. now subst.
  - cbn [In]. rewrite IH. tauto.
Qed.

Lemma with_live_same s : with_live s (ks_live s) = s.
Proof. destruct s; reflexivity. Qed.

Lemma k_psteps_app v s es1 es2 : k_psteps v s (es1 ++ es2) = k_psteps v (k_psteps v s es1) es2.
Proof. unfold k_psteps. apply fold_left_app. Qed.

Lemma k_expand_sound v s c : In c (k_expand s) ->
  exists e, k_is_pev e = true /\ c = fst (k_step v s e).
Proof.
  unfold k_expand. intros H. apply in_app_or in H as [H|H].
  - cbn [In] in H. destruct H as [H|[H|[H|[]]]]; subst c.
    + exists KRecv. split; reflexivity.
    + exists KSnap. split; reflexivity.
    + exists KLand. split; reflexivity.
  - apply in_map_iff in H as [k [H _]]. subst c. exists (KOLand k). split; reflexivity.
Qed.

Lemma k_expand_complete v s e : k_is_pev e = true ->
  fst (k_step v s e) = s \/ In (fst (k_step v s e)) (k_expand s).
Proof.
  intros P. destruct e; try discriminate P; cbn [k_step fst]; unfold k_expand.
  1-3: right; apply in_or_app; left; cbn [In]; auto.
  - destruct (nth_error (ks_orphans s) k) eqn:N.
    + right. apply in_or_app. right. apply in_map_iff. exists k. split; [reflexivity|].
      apply in_seq. split; [lia|]. cbn. apply nth_error_Some. congruence.
    + left. unfold k_oland. now rewrite N.
Qed.

(* measure: how many effective persister steps can still happen without a client call *)
Definition k_rank (s : kst) : nat :=
  match ki_phase (ks_live s), ki_queue (ks_live s) with
  | KIdle, [] => 0
  | KFlying _, [] => 1
  | KGot _, [] => 2
  | KIdle, _ :: _ => 3
  | KFlying _, _ :: _ => 4
  | KGot _, _ :: _ => 5
  end%nat.
Definition k_mu (s : kst) : nat := (k_rank s + length (ks_orphans s))%nat.

Lemma k_rank_le s : (k_rank s <= 5)%nat.
Proof. unfold k_rank. destruct (ki_phase (ks_live s)), (ki_queue (ks_live s)); lia. Qed.

Lemma drop_nth_length {A} (l : list A) : forall k x, nth_error l k = Some x -> S (length (drop_nth k l)) = length l.
Proof.
  induction l as [|y r IH]; intros [|k] x H; cbn [nth_error drop_nth length] in *; try discriminate; [reflexivity|].
  f_equal. now apply (IH k x).
Qed.

Lemma k_pmove_mu s s' : k_pmove s s' -> (k_mu s' < k_mu s)%nat.
Proof.
  destruct 1 as [| | |disk live orph k img N]; unfold k_mu, k_rank; cbn [ks_live ks_orphans ki_phase ki_queue].
  - (* pm_recv *) lia.
  - (* pm_snap *) destruct (k_updates p mem), q; lia.
  - (* pm_land *) destruct q; lia.
  - (* pm_oland *) pose proof (drop_nth_length _ k img N). lia.
Qed.

Lemma k_closure_sound v : forall n S c, In c (k_closure n S) ->
  exists s es, In s S /\ Forall (fun e => k_is_pev e = true) es /\ k_psteps v s es = c.
Proof.
  induction n as [|n IH]; intros S c H; cbn [k_closure] in H.
  - exists c, []. repeat split; auto.
  - apply (proj1 (k_dedup_In _ _)) in H. apply in_app_or in H as [H|H]; [now apply IH|].
    apply in_flat_map in H as [c0 [H0 H1]].
    destruct (IH S c0 H0) as [s [es [A [B C]]]].
    destruct (k_expand_sound v c0 c H1) as [e [E1 E2]].
    exists s, (es ++ [e]). split; [exact A|]. split.
    + apply Forall_app. split; [exact B|]. constructor; [exact E1|constructor].
    + rewrite k_psteps_app, C. cbn. now subst c.
Qed.

Lemma k_closure_mono n S x : In x (k_closure n S) -> In x (k_closure (Datatypes.S n) S).
Proof. intros H. cbn [k_closure]. apply (proj2 (k_dedup_In _ _)). apply in_or_app. now left. Qed.

Lemma k_closure_le S x n m : (n <= m)%nat -> In x (k_closure n S) -> In x (k_closure m S).
Proof. induction 1 as [|m _ IH]; intros H; [exact H|]. now apply k_closure_mono, IH. Qed.

Lemma k_closure_step v n S x e : In x (k_closure n S) -> k_is_pev e = true ->
  In (fst (k_step v x e)) (k_closure (Datatypes.S n) S).
Proof.
  intros H P. destruct (k_expand_complete v x e P) as [E|E].
  - rewrite E. now apply k_closure_mono.
  - cbn [k_closure]. apply (proj2 (k_dedup_In _ _)). apply in_or_app. right. apply in_flat_map. now exists x.
Qed.

(* [n]: a depth at which x is in the closure.  A step of es that does something costs one level of
   depth and lowers k_mu by at least one; the others cost nothing *)
Lemma k_closure_reach v S N : forall es x n,
  Forall (fun e => k_is_pev e = true) es -> In x (k_closure n S) -> (k_mu x + n <= N)%nat ->
  In (k_psteps v x es) (k_closure N S).
Proof.
  induction es as [|e es IH]; intros x n F H L.
  - cbn. apply (k_closure_le S x n N); [lia|exact H].
  - inversion F as [|? ? P F']; subst. change (k_psteps v x (e :: es)) with (k_psteps v (fst (k_step v x e)) es).
    destruct (k_pstep_move v x e P) as [E|M].
    + rewrite E. now apply (IH x n).
    + apply k_pmove_mu in M. apply (IH _ (Datatypes.S n)); [exact F'| now apply k_closure_step | lia].
Qed.

(* k_rank is at most 5, so of the 6 in k_fuel one is to spare *)
Lemma k_fuel_enough S s : In s S -> (k_mu s <= k_fuel S)%nat.
Proof.
  intros H. unfold k_mu, k_fuel. pose proof (k_rank_le s).
  assert (length (ks_orphans s) <= list_max (map (fun s => length (ks_orphans s)) S))%nat.
  { pose proof (proj1 (list_max_le (map (fun s => length (ks_orphans s)) S) _) (le_n _)) as F.
    rewrite Forall_forall in F. apply F. apply in_map_iff. now exists s. }
  lia.
Qed.

Lemma k_closure_complete v S s es :
  In s S -> Forall (fun e => k_is_pev e = true) es -> In (k_psteps v s es) (k_closure (k_fuel S) S).
Proof.
  intros H F. apply (k_closure_reach v S (k_fuel S) es s 0%nat F); [exact H|].
  pose proof (k_fuel_enough S s H). lia.
Qed.

Lemma k_after_In v S b s' :
  In s' (k_after v S b) <->
  exists s es, In s S /\ Forall (fun e => k_is_pev e = true) es /\ k_ostep v (k_psteps v s es) b = Some s'.
Proof.
  unfold k_after. rewrite k_dedup_In, in_flat_map. split.
  - intros [c [C1 C2]]. destruct (k_closure_sound v _ _ _ C1) as [s [es [A [B C]]]].
    exists s, es. split; [exact A|]. split; [exact B|]. rewrite C.
    destruct (k_ostep v c b); cbn [In] in C2; [|contradiction]. destruct C2 as [->|[]]. reflexivity.
  - intros [s [es [A [B C]]]]. exists (k_psteps v s es). split; [now apply k_closure_complete|].
    rewrite C. now left.
Qed.

Lemma k_accept_from_iff v : forall h S,
  k_accept_from v S h = true <->
  exists s bursts, In s S /\ k_pev_only bursts /\ k_sched v s h bursts <> None.
Proof.
  induction h as [|b h IH]; intros S; cbn [k_accept_from].
  - split.
    + destruct S as [|s S]; [discriminate|]. intros _. exists s, []. split; [now left|]. split; [constructor|discriminate].
    + intros [s [_ [H _]]]. destruct S; [contradiction|reflexivity].
  - rewrite IH. split.
    + intros [s' [bs' [A [B C]]]]. destruct (proj1 (k_after_In _ _ _ _) A) as [s [es [A1 [A2 A3]]]].
      exists s, (es :: bs'). split; [exact A1|]. split; [exact (Forall_cons _ A2 B)|].
      cbn [k_sched]. rewrite A3. exact C.
    + intros [s [bs [A [B C]]]]. destruct bs as [|es bs']; cbn [k_sched] in C; [congruence|].
      destruct (k_ostep v (k_psteps v s es) b) as [s'|] eqn:O; [|congruence].
      inversion B as [|? ? B1 B2]; subst.
      exists s', bs'. split; [|split; assumption]. apply (proj2 (k_after_In _ _ _ _)). now exists s, es.
Qed.

Lemma k_run_app v : forall h1 h2 s,
  k_run v s (h1 ++ h2) =
  (fst (k_run v (fst (k_run v s h1)) h2), snd (k_run v s h1) ++ snd (k_run v (fst (k_run v s h1)) h2)).
Proof.
  induction h1 as [|o h1 IH]; intros h2 s; [cbn; now destruct (k_run v s h2)|].
  cbn [app]. rewrite !k_run_cons, IH. cbn [fst snd]. now destruct (snd (k_step v s o)).
Qed.

Lemma k_run_pev v : forall es s, Forall (fun e => k_is_pev e = true) es -> k_run v s es = (k_psteps v s es, []).
Proof.
  induction es as [|e es IH]; intros s F; [reflexivity|].
  inversion F as [|? ? P F']; subst. rewrite k_run_cons, IH by exact F'.
  now destruct e.
Qed.

Definition k_answer_of (b : kobs) : list bool := match b with BIsClean _ x => [x] | _ => [] end.

Lemma k_ostep_run v s b s' : k_ostep v s b = Some s' -> k_run v s (k_op_of b) = (s', k_answer_of b).
Proof.
  destruct b; cbn [k_ostep k_op_of k_answer_of k_run k_step fst]; intros H; try (inversion H; reflexivity).
  - destruct (Bool.eqb (k_clean_of (ki_mem (ks_live s)) t) b) eqn:E; [|discriminate].
    apply Bool.eqb_prop in E. inversion H; subst. reflexivity.
  - destruct (cmap_eqb (ks_disk s) m); [|discriminate]. inversion H; reflexivity.
  - destruct (k_synced s ts); [|discriminate]. inversion H; reflexivity.
  - destruct (k_quiet s && negb (k_synced s ts)); [|discriminate]. inversion H; reflexivity.
Qed.

Lemma k_answers_cons b h : k_answers (b :: h) = k_answer_of b ++ k_answers h.
Proof. destruct b; reflexivity. Qed.

Lemma kspec_outs_pev : forall es f rest,
  Forall (fun e => k_is_pev e = true) es -> kspec_outs f (es ++ rest) = kspec_outs f rest.
Proof.
  induction es as [|e es IH]; intros f rest F; [reflexivity|].
  inversion F as [|? ? P F']; subst. cbn [app]. rewrite kspec_outs_cons.
  destruct e; try discriminate P; cbn [kspec_step]; now apply IH.
Qed.

(* a schedule, flattened, is one history of the model: it ends in the schedule's state, answers
   what was observed, and C17 demands of it what it demands of the client's calls alone *)
Lemma k_sched_weave v : forall h bursts s s',
  k_pev_only bursts -> k_sched v s h bursts = Some s' ->
  k_run v s (k_weave h bursts) = (s', k_answers h) /\
  forall f, kspec_outs f (k_weave h bursts) = kspec_outs f (k_client h).
Proof.
  induction h as [|b h IH]; intros bs s s' P H.
  - cbn [k_sched] in H. inversion H. destruct bs; split; reflexivity.
  - destruct bs as [|es bs']; cbn [k_sched] in H; [discriminate|].
    destruct (k_ostep v (k_psteps v s es) b) as [s1|] eqn:O; [|discriminate].
    inversion P as [|? ? P1 P2]; subst.
    destruct (IH bs' s1 s' P2 H) as [R K]. cbn [k_weave]. split.
    + rewrite k_run_app, (k_run_pev v es s P1). cbn [fst snd app].
      rewrite k_run_app, (k_ostep_run v _ _ _ O). cbn [fst snd]. rewrite R. cbn [fst snd].
      now rewrite k_answers_cons.
    + intros f. cbn [k_client flat_map]. fold (k_client h). rewrite (kspec_outs_pev es f _ P1).
      destruct b; cbn [k_op_of app]; rewrite ?kspec_outs_cons, K; reflexivity.
Qed.

Lemma k_sched_answers v h bursts s' :
  k_pev_only bursts -> k_sched v k_init h bursts = Some s' ->
  k_outs v (k_weave h bursts) = kspec_outs kspec0 (k_weave h bursts) ->
  k_answers h = kspec_outs kspec0 (k_client h).
Proof.
  intros P E C. destruct (k_sched_weave v h bursts k_init s' P E) as [R K].
  rewrite <- K, <- C. unfold k_outs. now rewrite R.
Qed.

Lemma list_eqb_bool_iff : forall a b, list_eqb Bool.eqb a b = true <-> a = b.
Proof.
  split; [apply list_eqb_sound; intros x y; apply Bool.eqb_prop|].
  intros <-. induction a as [|x a IH]; [reflexivity|]. cbn [list_eqb]. now rewrite Bool.eqb_reflx, IH.
Qed.
