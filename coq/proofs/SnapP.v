(* SnapP.v — C20 over model/Meta.v and model/Adapter.v: snapshot/restore of the metadata state machine
   reproduces the state (any map iteration order); the counting invariant cluster_b, by which states
   reachable by Meta.apply (the RolloverTopic arm before fix 15a0232, both build profiles) are in the
   domain of the codec; the private map of octopii's Raft adapter stays empty, so installing its
   snapshot fails. *)
From W Require Import model.Base model.Map model.Bincode model.Meta model.Adapter
  proofs.ListP proofs.BytesP proofs.MapP proofs.BincodeP.
From Coq Require Import Permutation.

Lemma snapshot_restore_any_order s l :
  m_poisoned s = false -> cluster_sorted (m_cl s) -> cluster_wf l -> cluster_listing l (m_cl s) ->
  restore m_init (enc_cluster l) = (s, true).
Proof.
  intros Hp Hs Hw Hl. unfold restore.
  rewrite <- (app_nil_r (enc_cluster l)), (codec_roundtrip (m_cl s) l [] Hs Hw Hl).
  destruct s as [c p]. cbn in *. now subst.
Qed.

Lemma snap_item_id s :
  m_poisoned s = false -> cluster_sorted (m_cl s) -> cluster_wf (m_cl s) ->
  snap_item s = (s, (enc_cluster (m_cl s), true)).
Proof.
  intros Hp Hs Hw. unfold snap_item, snapshot. rewrite Hp.
  rewrite (snapshot_restore_any_order s (m_cl s) Hp Hs Hw (cluster_listing_refl _)). reflexivity.
Qed.

Lemma sorted_restore s bs : cluster_sorted (m_cl s) -> cluster_sorted (m_cl (fst (restore s bs))).
Proof.
  intros Hs. unfold restore. destruct (dec_cluster bs) as [[c r]|] eqn:E; [|exact Hs].
  destruct (m_poisoned s); [exact Hs|]. exact (proj1 (dec_cluster_sorted bs c r I E)).
Qed.

Lemma take_len (k : nat) : forall (bs a r : list N), take k bs = Some (a, r) -> (length a + length r = length bs)%nat.
Proof. intros bs a r H. destruct (take_spec k bs a r H) as [-> _]. now rewrite app_length. Qed.

(* the length bound is not used (cluster_b_apply): a decoded string re-encodes to the very bytes that
   were validated, which are part of the input (BincodeP.dec_str_sound) *)
Definition input_ok (bs : list N) : Prop := Forall (fun b => b < 256) bs /\ 4 * N.of_nat (length bs) < two64.

(* Reachable states are sorted and fit the wire format.  The invariant counts: after [n]
   inputs every map is sorted, holds values that fit, and has at most [n] entries
   (segment_leaders: 2n+1, since a rollover inserts twice). *)
Definition map_b {K V} (cmp : K -> K -> comparison) (P : K * V -> Prop) (n : N) (l : list (K * V)) : Prop :=
  Forall P l /\ N.of_nat (length l) <= n /\ sortedb cmp l = true.

Lemma map_b_nil {K V} cmp (P : K * V -> Prop) n : map_b cmp P n [].
Proof. repeat split; [constructor|cbn; lia]. Qed.

Lemma map_b_le {K V cmp} {P : K * V -> Prop} n m l : n <= m -> map_b cmp P n l -> map_b cmp P m l.
Proof. intros H (F & L & S). repeat split; [exact F|lia|exact S]. Qed.

Lemma map_b_ins {K V} {cmp} (ok : @cmp_ok K cmp) (P : K * V -> Prop) n k v l :
  P (k, v) -> map_b cmp P n l -> map_b cmp P (n + 1) (ins cmp k v l).
Proof.
  intros Hp (F & L & S). pose proof (ins_length (cmp:=cmp) k v l).
  split; [now apply Forall_ins|]. split; [lia|now apply sorted_ins].
Qed.

Definition nmap_b : N -> list (N * N) -> Prop := map_b N.compare (fun kv => fst kv < two64 /\ snd kv < two64).

Lemma nmap_b_ins {n k v l} : k < two64 -> v < two64 -> nmap_b n l -> nmap_b (n + 1) (ins N.compare k v l).
Proof. intros Hk Hv. apply (map_b_ins N_cmp_ok). now split. Qed.

Record topic_b (n : N) (t : tstate) : Prop := {
  tb_cur : t_cur t < two64;
  tb_leader : t_leader t < two64;
  tb_last : t_last t < two64;
  tb_sealed : nmap_b n (t_sealed t);
  tb_leaders : nmap_b (2 * n + 1) (t_leaders t) }.

Definition cluster_b (n : N) (c : cluster) : Prop :=
  map_b str_cmp (fun nt => str_ok (fst nt) /\ topic_b n (snd nt)) n (c_topics c) /\
  map_b N.compare (fun na => fst na < two64 /\ str_ok (snd na)) n (c_nodes c).

Lemma cluster_b_wf n c : 2 * n + 2 < two64 -> cluster_b n c -> cluster_wf c /\ cluster_sorted c.
Proof.
  intros Hn [(T & Tl & Ts) (Nd & Nl & Ns)]. split.
  - split; [|split; [lia|split; [exact Nd|lia]]]. eapply Forall_impl; [|exact T].
    intros a [A [B1 B2 B3 (B4 & L4 & _) (B5 & L5 & _)]]. split; [exact A|]. repeat split; auto; lia.
  - split; [exact Ts|split; [exact Ns|]]. eapply Forall_impl; [|exact T].
    intros a [_ [_ _ _ (_ & _ & S4) (_ & _ & S5)]]. now split.
Qed.

Lemma topic_b_mono n t : topic_b n t -> topic_b (n + 1) t.
Proof.
  intros [A B C D E]. split; auto.
  - apply (map_b_le n); [lia|exact D].
  - apply (map_b_le (2 * n + 1)); [lia|exact E].
Qed.

Lemma topic_b_new n leader : leader < two64 -> topic_b n (new_topic leader).
Proof.
  intros H. split; [reflexivity|exact H|reflexivity|apply map_b_nil|].
  apply nmap_b_ins; [reflexivity|exact H|apply map_b_nil].
Qed.

Lemma topic_b_rollover oc n t nl count t' p :
  nl < two64 -> count < two64 -> topic_b n t -> rollover oc t nl count = (t', p) -> topic_b (n + 1) t'.
Proof.
  intros Hnl Hc [A B C D E]. unfold rollover.
  assert (M : forall x, x mod two64 < two64) by (intros x; now apply N.mod_lt).
  pose proof (nmap_b_ins A Hc D) as D'.
  pose proof (nmap_b_ins A B E) as E1.
  pose proof (nmap_b_ins (M (t_cur t + 1)) Hnl E1) as E2.
  apply (map_b_le _ (2 * (n + 1) + 1)) in E1; [|lia].
  replace (2 * n + 1 + 1 + 1) with (2 * (n + 1) + 1) in E2 by lia.
  destruct (oc && (two64 <=? t_last t + count)); [|destruct (oc && (two64 <=? t_cur t + 1))];
    intros H; inversion H; subst; split; cbn [t_cur t_last]; auto.
Qed.

Lemma topics_b_mono n m (ts : list (str * tstate)) :
  map_b str_cmp (fun nt => str_ok (fst nt) /\ topic_b n (snd nt)) m ts ->
  map_b str_cmp (fun nt => str_ok (fst nt) /\ topic_b (n + 1) (snd nt)) m ts.
Proof.
  intros [F LS]. split; [|exact LS]. eapply Forall_impl; [|exact F].
  intros a [A B]. split; [exact A|now apply topic_b_mono].
Qed.

Lemma cluster_b_mono n c : cluster_b n c -> cluster_b (n + 1) c.
Proof. intros [T Nd]. split; apply (map_b_le n); try lia; [now apply topics_b_mono|exact Nd]. Qed.

Lemma cluster_b_apply_cmd oc n s c :
  cmd_wf c -> cluster_b n (m_cl s) -> cluster_b (n + 1) (m_cl (fst (apply_cmd oc s c))).
Proof.
  intros Hc Hb. pose proof (cluster_b_mono n _ Hb) as Hm. pose proof Hb as [T Nd]. apply topics_b_mono in T.
  assert (Ht : forall name t', str_ok name -> topic_b (n + 1) t' ->
            cluster_b (n + 1) (mkCluster (ins str_cmp name t' (c_topics (m_cl s))) (c_nodes (m_cl s)))).
  { intros name t' Hn Ht'. split; [|apply (map_b_le n); [lia|exact Nd]].
    apply (map_b_ins str_cmp_ok); [now split|exact T]. }
  destruct c as [name leader|name nl count|id addr]; cbn [apply_cmd cmd_wf] in *.
  - destruct (lookup str_cmp name (c_topics (m_cl s))); [exact Hm|]. apply Ht; [apply Hc|apply topic_b_new, Hc].
  - destruct Hc as (Hn & Hl & Hcnt).
    destruct (lookup str_cmp name (c_topics (m_cl s))) as [t|] eqn:El; [|exact Hm].
    destruct (rollover oc t nl count) as [t' p] eqn:Er.
    assert (G : topic_b (n + 1) t').
    { apply (topic_b_rollover oc n t nl count t' p Hl Hcnt); [|exact Er].
      destruct Hb as [(F & _) _]. exact (proj2 (lookup_Forall str_cmp_ok _ _ _ _ F El)). }
    destruct p; exact (Ht name t' Hn G).
  - split; [apply (map_b_le n); [lia|exact T]|apply (map_b_ins N_cmp_ok); [exact Hc|exact Nd]].
Qed.

Lemma cluster_b_apply oc n s bs :
  input_ok bs -> cluster_b n (m_cl s) -> cluster_b (n + 1) (m_cl (fst (apply oc s bs))).
Proof.
  intros [Hi _] Hb. unfold apply. destruct (dec_cmd bs) as [[c r]|] eqn:E; [|now apply cluster_b_mono].
  destruct (m_poisoned s); [now apply cluster_b_mono|].
  apply cluster_b_apply_cmd; [|exact Hb]. exact (proj1 (dec_cmd_sound _ _ _ Hi E)).
Qed.

Lemma cluster_b_mexec oc inputs : forall n s,
  Forall input_ok inputs -> cluster_b n (m_cl s) -> cluster_b (n + N.of_nat (length inputs)) (m_cl (mexec oc s inputs)).
Proof.
  induction inputs as [|b r IH]; intros n s Hi Hb; cbn [mexec length].
  - now rewrite N.add_0_r.
  - inversion Hi; subst. replace (n + N.of_nat (S (length r))) with (n + 1 + N.of_nat (length r)) by lia.
    apply IH; [assumption|]. now apply cluster_b_apply.
Qed.

Lemma perm_ok {A} {P : A -> Prop} {a b} :
  Permutation a b -> Forall P b /\ N.of_nat (length b) < two64 -> Forall P a /\ N.of_nat (length a) < two64.
Proof. intros Hp H. now rewrite Hp. Qed.

Lemma topic_wf_listing l t : topic_listing l t -> topic_wf t -> topic_wf l.
Proof.
  intros (E1 & E2 & E3 & P1 & P2) (A & B & C & D & E). unfold topic_wf. rewrite E1, E2, E3.
  exact (conj A (conj B (conj C (conj (perm_ok P1 D) (perm_ok P2 E))))).
Qed.

Lemma cluster_wf_listing l c : cluster_listing l c -> cluster_wf c -> cluster_wf l.
Proof.
  intros [[mid [P1 F]] P2] (H1 & H2 & H34). rewrite <- (Forall2_len F) in H2.
  assert (Fm : Forall (fun nt => str_ok (fst nt) /\ topic_wf (snd nt)) mid).
  { clear P1 H2. induction F as [|a b mid' ts' [Ea Ta] F IH]; [constructor|].
    inversion H1 as [|? ? [Hb1 Hb2] H1']; subst. constructor; [|now apply IH].
    rewrite Ea. split; [exact Hb1|]. eapply topic_wf_listing; eauto. }
  destruct (perm_ok P1 (conj Fm H2)) as [A B]. exact (conj A (conj B (perm_ok P2 H34))).
Qed.

(* adapters reachable by the adapter's own operations, snapshots coming from such adapters *)
Inductive areach : adapter -> Prop :=
| ar_init : areach a_init
| ar_apply oc a entries : areach a -> areach (fst (a_apply oc a entries))
| ar_build a : areach a -> areach (fst (build_snapshot a))
| ar_install a b : areach a -> areach b -> areach (fst (install_snapshot a (snd (build_snapshot b)))).

Lemma a_apply_data oc entries : forall a, a_data (fst (a_apply oc a entries)) = a_data a.
Proof.
  induction entries as [|[idx p] r IH]; intros a; cbn [a_apply]; [reflexivity|].
  destruct p as [|bs|m]; [now rewrite IH| |now rewrite IH].
  cbn [a_app]. destruct (apply oc (a_app a) bs) as [app' [b| |ps]]; [now rewrite IH|reflexivity|reflexivity].
Qed.

(* The snapshot of an empty private map is enc_smap [] = 8 zero bytes, ONE empty map; install_snapshot
   re-encodes it for Meta.restore, whose dec_cluster wants TWO maps and meets the end of input at the
   count of the node map.  So the install fails; with a_data b = [] all of this is evaluation. *)
Lemma install_empty a b : a_data b = [] ->
  install_snapshot a (snd (build_snapshot b)) = (mkA (a_app a) (a_last b) (a_memb b) [] (a_cur a), false).
Proof. intros Hb. unfold build_snapshot. cbn [snd]. now rewrite Hb. Qed.

Lemma areach_data a : areach a -> a_data a = [].
Proof.
  induction 1 as [|oc a entries Ha IH|a Ha IH|a b Ha IHa Hb IHb].
  - reflexivity.
  - now rewrite a_apply_data.
  - exact IH.
  - rewrite (install_empty a b IHb). reflexivity.
Qed.

(* the log of the witness sender in props/C20.v: create topic "t", roll it over once *)
Definition c20_sender_entries : list (N * payload) :=
  [(1, Normal (enc_cmd (CreateTopic [116] 1))); (2, Normal (enc_cmd (RolloverTopic [116] 2 5)))].

(* the property as stated, for the adapter path *)
Definition C20_adapter_full : Prop :=
  forall a b, areach a -> areach b ->
    a_visible (fst (install_snapshot a (snd (build_snapshot b)))) = a_visible b.

