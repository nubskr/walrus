(* FrameSpecP.v — the model's output is accepted by the spec acceptor c24_ok, for EVERY byte
   stream a client can send (d = true), resp. every byte stream outside the class of finding D12
   (d = false: the loop before fix a215ffe).  Ingredients: the loop answers the parse of its input
   (FrameP.serve_parse); responses never reach 2^32 bytes (so the response framing parses back);
   a step-by-step simulation between the mock controller and the acceptor's abstract queues.
   Then the frame of finding D12 and how its bytes read (props/C24.v runs both loops on it). *)
From W Require Import model.Base model.Utf8 model.Frame spec.FrameSpec
  proofs.BytesP proofs.Utf8P proofs.FrameP.

Definition resp_bytes (r : fresp) : list N := utf8_encode (resp_text r).
Definition resp_frame (r : fresp) : frame := text_frame (resp_text r).

Lemma enc_resps_frames rs : enc_resps rs = enc_frames (map resp_frame rs).
Proof. unfold enc_resps, enc_frames. rewrite map_map. reflexivity. Qed.

(* holds of a decoded frame body within the limit and of every piece parse_cmd cuts out of it *)
Definition good (x : str) : Prop := scalars x /\ blen (utf8_encode x) <= max_frame_len.

Lemma good_app a b : good (a ++ b) -> good a /\ good b.
Proof.
  unfold good. rewrite utf8_encode_app, blen_app. intros [Hs Hl].
  apply Forall_app in Hs. destruct Hs. repeat split; (assumption || lia).
Qed.

Lemma good_cons x b : good (x :: b) -> good b.
Proof. intros H. change (x :: b) with ([x] ++ b) in H. now apply good_app in H. Qed.

Lemma good_first r : good r -> good (fst (split_sp r)).
Proof.
  intros H. destruct (split_sp r) as [a o] eqn:E. apply split_sp_sound in E.
  destruct o; subst; cbn [fst]; [now apply good_app in H|exact H].
Qed.

Lemma good_trim s : good s -> good (trim_end s).
Proof. intros H. destruct (trim_end_prefix s) as [w Hw]. rewrite Hw in H. now apply good_app in H. Qed.

(* 32: above the longest message handle_command refuses with (m_reg_topic, 25 bytes) *)
Definition cmd_good (cm : fcmd) : Prop :=
  match cm with
  | FRegister t | FGet t | FState t => good t
  | FPut t p => good t /\ good p
  | FMetrics => True
  | FBad m => blen (utf8_encode m) <= 32
  end.

Lemma parse_cmd_good line : good line -> cmd_good (parse_cmd line).
Proof.
  intros G. unfold parse_cmd. destruct (split_sp line) as [verb r1] eqn:E.
  apply split_sp_sound in E.
  assert (G1 : match r1 with Some r => good r | None => True end).
  { destruct r1; [|exact I]. subst. apply good_app in G. destruct G as [_ G]. now apply good_cons in G. }
  destruct (str_eqb verb s_REGISTER).
  { destruct r1; [now apply good_first|now vm_compute]. }
  destruct (str_eqb verb s_PUT).
  { destruct r1 as [r|]; [|now vm_compute].
    destruct (split_sp r) as [t r2] eqn:E2. apply split_sp_sound in E2.
    destruct r2; [|now vm_compute]. subst r. apply good_app in G1. destruct G1 as [Ga Gb].
    apply good_cons in Gb. now split. }
  destruct (str_eqb verb s_GET).
  { destruct r1; [now apply good_first|now vm_compute]. }
  destruct (str_eqb verb s_STATE).
  { destruct r1; [now apply good_first|now vm_compute]. }
  destruct (str_eqb verb s_METRICS); [exact I|now vm_compute].
Qed.

Lemma max_frame_big : 32 <= max_frame_len.
Proof. now vm_compute. Qed.

(* pay_ok: so that from_utf8_lossy gives the str back and "OK " ++ payload fits a response.  sim compares
   queue by queue, not the lists of pairs: REGISTER creates an empty queue in the controller only. *)
Definition pay_ok (x : list N) : Prop :=
  exists p, scalars p /\ x = utf8_encode p /\ blen x <= max_frame_len.
Definition ctl_ok (c : ctl) : Prop := forall t x, In x (ctl_queue c t) -> pay_ok x.
Definition sim (c q : ctl) : Prop := forall t, ctl_queue c t = ctl_queue q t.

Lemma ctl_ok0 : ctl_ok ctl0.
Proof. intros t x H. destruct H. Qed.

Lemma respond_classify c f :
  respond c f = match classify_frame f with
                | KBadLen => (c, FErr m_len)
                | KBadUtf8 => (c, FErr m_utf8)
                | KCmd cm => exec c cm
                end.
Proof.
  unfold respond, classify_frame, handle_body. destruct (bad_len (f_len f)); [reflexivity|].
  now destruct (utf8_decode (f_body f)).
Qed.

Lemma classify_good f : wf f ->
  match classify_frame f with KCmd cm => cmd_good cm | _ => True end.
Proof.
  intros [_ Hlen]. unfold classify_frame. destruct (bad_len (f_len f)) eqn:Eb; [exact I|].
  destruct (utf8_decode (f_body f)) as [text|] eqn:Ed; [|exact I].
  apply utf8_encode_decode in Ed. destruct Ed as [Eenc Hsc]. apply parse_cmd_good, good_trim.
  split; [exact Hsc|]. rewrite Eenc, Hlen. unfold bad_len in Eb. lia.
Qed.

Lemma exec_get_queue c t : is_fail t = false ->
  exec c (FGet t) = match ctl_queue c t with
                    | x :: q => (ctl_set c t q, FData (lossy x))
                    | [] => (c, FEmpty)
                    end.
Proof. intros H. unfold ctl_queue. cbn [exec]. rewrite H. destruct (ctl_get c t) as [[|x q]|]; reflexivity. Qed.

(* a response that leaves controller and abstract queues as they are *)
Ltac same q := exists q; split; [reflexivity|split; [assumption|split; [assumption|]]].

(* 8: above the longest text a response puts in front of a piece of the request ("STATE ", 6 bytes);
   "ERR " ++ a refusal message has at most 4 + 32 bytes (max_frame_big) *)
Lemma step_sim c q f : sim c q -> ctl_ok c -> wf f ->
  exists q', check1 q f (resp_bytes (snd (respond c f))) = Some q' /\
             sim (fst (respond c f)) q' /\ ctl_ok (fst (respond c f)) /\
             blen (resp_bytes (snd (respond c f))) <= max_frame_len + 8.
Proof.
  intros HR Hok Hwf. pose proof (classify_good f Hwf) as G. pose proof max_frame_big as Hbig.
  rewrite respond_classify. unfold check1.
  (* refused length, invalid UTF-8, then the commands in the order of [fcmd] *)
  destruct (classify_frame f) as [| |[t|t p|t|t| |m]]; cbn [cmd_good] in G.
  - same q. now vm_compute.
  - same q. now vm_compute.
  - (* REGISTER: at most a new, empty queue *)
    cbn [exec]. destruct (is_fail t); [same q; now vm_compute|].
    exists q. cbn [fst snd]. split; [reflexivity|].
    split; [|split; [|now vm_compute]]; destruct (ctl_get c t) eqn:Eg; try assumption.
    + intros t'. rewrite ctl_queue_set. destruct (str_eqb t t') eqn:Et; [|apply HR].
      apply str_eqb_eq in Et. subst t'. rewrite <- HR. unfold ctl_queue. now rewrite Eg.
    + intros t' x Hin. rewrite ctl_queue_set in Hin. destruct (str_eqb t t'); [destruct Hin|].
      now apply (Hok t').
  - cbn [exec]. destruct (is_fail t); [same q; now vm_compute|].
    exists (ctl_set q t (ctl_queue q t ++ [utf8_encode p])).
    split; [reflexivity|]. split; [|split; [|now vm_compute]].
    + intros t'. cbn [fst]. rewrite !ctl_queue_set. now rewrite HR, (HR t').
    + intros t' x Hin. cbn [fst] in Hin. rewrite ctl_queue_set in Hin.
      destruct (str_eqb t t'); [|now apply (Hok t')].
      apply in_app_or in Hin. destruct Hin as [Hin|[<-|[]]]; [now apply (Hok t)|].
      exists p. destruct G as [_ [Hs Hl]]. repeat split; assumption.
  - destruct (is_fail t) eqn:Ef; [cbn [exec]; rewrite Ef; same q; now vm_compute|].
    rewrite exec_get_queue by exact Ef. destruct (ctl_queue c t) as [|x rest] eqn:Eq.
    + cbn [fst snd]. change (is_err (resp_bytes FEmpty)) with false. rewrite <- HR, Eq.
      same q. now vm_compute.
    + (* the payload handed out is the queued one, byte for byte *)
      destruct (Hok t x) as (p0 & Hp0 & Ex & Hbx); [rewrite Eq; now left|].
      assert (El : resp_bytes (FData (lossy x)) = s_OK_sp ++ x).
      { unfold lossy, resp_bytes. rewrite Ex, utf8_decode_encode by exact Hp0. apply utf8_encode_app. }
      exists (ctl_set q t rest). cbn [fst snd]. rewrite El.
      change (is_err (s_OK_sp ++ x)) with false. rewrite <- HR, Eq, str_eqb_refl.
      split; [reflexivity|split; [|split]].
      * intros t'. rewrite !ctl_queue_set. now rewrite (HR t').
      * intros t' y Hin. rewrite ctl_queue_set in Hin. destruct (str_eqb t t'); [|now apply (Hok t')].
        apply (Hok t). rewrite Eq. now right.
      * rewrite blen_app. change (blen s_OK_sp) with 3. lia.
  - cbn [exec]. destruct (is_fail t); [same q; now vm_compute|]. same q. cbn [snd].
    unfold resp_bytes. cbn [resp_text]. rewrite utf8_encode_app, blen_app.
    change (blen (utf8_encode s_STATE_sp)) with 6. destruct G. lia.
  - same q. now vm_compute.
  - (* a command refused before it reaches the controller *)
    cbn [exec fst snd]. unfold resp_bytes, is_err. cbn [resp_text]. rewrite utf8_encode_app.
    change (utf8_encode s_ERR_sp) with s_ERR_sp. rewrite strip_prefix_app, blen_app. same q.
    change (blen s_ERR_sp) with 4. lia.
Qed.

(* [extra]: what is written behind the frames' responses, i.e. the refusal of a truncated tail ([tail_resp]) *)
Lemma check_sim fs : forall c q, sim c q -> ctl_ok c -> Forall wf fs ->
  (forall tl extra, check q tl fs (map resp_bytes (responses_from c fs) ++ extra) = tail_ok tl extra) /\
  Forall (fun r => blen (resp_bytes r) < two32) (responses_from c fs) /\ ctl_ok (ctl_after c fs).
Proof.
  induction fs as [|f fs IH]; intros c q HR Hok Hwf.
  - split; [reflexivity|split; [constructor|exact Hok]].
  - inversion Hwf as [|? ? Hf Hfs]; subst. rewrite responses_from_cons. cbn [map app check ctl_after].
    destruct (step_sim c q f HR Hok Hf) as (q' & E1 & HR' & Hok' & Hb). rewrite E1.
    destruct (IH _ q' HR' Hok' Hfs) as (E2 & F2 & K2).
    split; [exact E2|split; [|exact K2]]. constructor; [|exact F2]. pose proof max_frame_small. lia.
Qed.

(* responses never reach 2^32 bytes, so what the model writes parses back into them *)
Lemma split_resps rs : Forall (fun r => blen (resp_bytes r) < two32) rs ->
  split_frames (enc_resps rs) = (map resp_frame rs, []).
Proof.
  intros H. rewrite enc_resps_frames, <- (app_nil_r (enc_frames _)). apply split_frames_enc; [|exact I].
  apply Forall_map. eapply Forall_impl; [|exact H]. intros r Hr. split; [exact Hr|reflexivity].
Qed.

(* a truncated tail may have been answered once (tail_ok): only a surplus of two is always refused *)
Lemma check_surplus fs : forall q tl rs, (length fs + 1 < length rs)%nat -> check q tl fs rs = false.
Proof.
  induction fs as [|f fs IH]; intros q tl rs H.
  - destruct rs as [|r1 [|r2 rs]]; cbn [length] in H; try lia. reflexivity.
  - destruct rs as [|r rs]; [reflexivity|]. cbn [check length] in *.
    destruct (check1 q f r); [apply IH; lia|reflexivity].
Qed.

Lemma c24_ok_surplus fs rs :
  Forall wf fs -> Forall (fun r => blen (resp_bytes r) < two32) rs -> (length fs + 1 < length rs)%nat ->
  c24_ok (enc_frames fs) (enc_resps rs) = false.
Proof.
  intros Hwf Hrs Hl. unfold c24_ok.
  rewrite <- (app_nil_r (enc_frames fs)), split_frames_enc, split_resps by (assumption || exact I).
  apply check_surplus. now rewrite !map_length.
Qed.

Lemma c24_known_frames fs : Forall wf fs ->
  c24_known (enc_frames fs) = existsb (fun f => max_frame_len <? f_len f) fs.
Proof.
  intros Hwf. unfold c24_known. rewrite <- (app_nil_r (enc_frames fs)), split_frames_enc; [|assumption|exact I].
  apply orb_false_r.
Qed.

(* The acceptor parses the input as the loop does (serve_parse) and the output back into the responses
   (split_resps); what is left is the simulation.  For d = false, on every byte stream in which no header
   announces more than MAX_FRAME_LEN bytes. *)
Theorem accepted d inp : bytes inp -> (d = false -> c24_known inp = false) -> c24_ok inp (serve_gen d inp) = true.
Proof.
  intros Hb Hk. rewrite serve_parse by exact Hk. unfold c24_ok.
  destruct (split_frames inp) as [fs tl] eqn:E. cbn [fst snd].
  apply split_frames_spec in E; [|exact Hb]. destruct E as (_ & Hwf & _).
  destruct (check_sim fs ctl0 ctl0 (fun _ => eq_refl) ctl_ok0 Hwf) as (Hc & Hsm & _).
  assert (Ht : tail_ok tl (map resp_bytes (tail_resp tl)) = true /\
               Forall (fun r => blen (resp_bytes r) < two32) (tail_resp tl)).
  { unfold tail_resp. destruct (tail_oversize tl) eqn:Eo; cbn [map tail_ok]; rewrite ?Eo; repeat constructor. }
  rewrite split_resps by (apply Forall_app; split; [exact Hsm|apply Ht]).
  rewrite map_map, map_app. change (fun x => f_body (resp_frame x)) with resp_bytes.
  unfold responses. rewrite Hc. apply Ht.
Qed.

(* a refused frame (announces MAX_FRAME_LEN+1 bytes and carries exactly that many) whose body
   starts with the frames "PUT t smug" and "GET t"; the rest of the body is a header
   announcing MAX_FRAME_LEN bytes followed by fewer zero bytes (there serve_v0 stops: read_exact fails).
   d12_inner has 23 bytes: (4 + 10) for "PUT t smug" and (4 + 5) for "GET t". *)
Definition d12_topic : str := [116].
Definition d12_payload : str := [115; 109; 117; 103].
Definition d12_inner : list N :=
  enc_frame (text_frame (put_line d12_topic d12_payload)) ++ enc_frame (text_frame (get_line d12_topic)).
Definition d12_frame : frame :=
  let n := max_frame_len + 1 in
  {| f_len := n;
     f_body := d12_inner ++ le32 max_frame_len ++ repeat 0 (N.to_nat (n - blen d12_inner - 4)) |}.

(* what the refused frame's body reads as: two frames and a truncated third *)
Definition d12_smuggled : list frame :=
  [text_frame (put_line d12_topic d12_payload); text_frame (get_line d12_topic)].
Definition d12_tail : list N :=
  le32 max_frame_len ++ repeat 0 (N.to_nat (max_frame_len + 1 - blen d12_inner - 4)).

Lemma d12_stream :
  enc_frames [d12_frame] = le32 (max_frame_len + 1) ++ enc_frames d12_smuggled ++ d12_tail.
Proof.
  unfold enc_frames, d12_smuggled. cbn [map concat]. rewrite !app_nil_r. reflexivity.
Qed.

Lemma blen_repeat (x : N) n : blen (repeat x (N.to_nat n)) = n.
Proof. unfold blen. rewrite repeat_length. apply N2Nat.id. Qed.

Lemma d12_wf : wf d12_frame.
Proof.
  pose proof max_frame_small. pose proof max_frame_big.
  unfold wf, d12_frame. cbn [f_len f_body]. split; [lia|].
  rewrite !blen_app, blen_repeat. change (blen (le32 max_frame_len)) with 4.
  change (blen d12_inner) with 23. lia.
Qed.
