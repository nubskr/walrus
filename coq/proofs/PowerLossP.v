(* PowerLossP.v — what the C10 acceptors of spec/PowerLoss.v accept: the deliveries are the first
   acknowledged entries, and what the recovered instance holds is the acknowledged entries from
   some point p on, followed by a subsequence of the in-flight ones; [c10_one_means] for p in a
   window.  Strict: p at most [gap] past the deliveries and not before them; appends only: not past
   them by more than [gap] (both in props/C10.v). *)
From W Require Import model.Base spec.Queue spec.PowerLoss proofs.CrashP.

Inductive subseq {A : Type} : list A -> list A -> Prop :=
| ss_nil l : subseq [] l
| ss_take x s l : subseq s l -> subseq (x :: s) (x :: l)
| ss_skip x s l : subseq s l -> subseq s (x :: l).

Lemma is_subseq_sound os es : is_subseq os es = true -> exists sub, subseq sub es /\ outs_are os sub = true.
Proof.
  revert os. induction es as [|e es IH]; intros os H; cbn in H.
  - destruct os; [|discriminate]. exists []. split; [constructor|reflexivity].
  - destruct os as [|o os]; [exists []; split; [constructor|reflexivity]|].
    destruct (out_is o e) eqn:E; destruct (IH _ H) as (sub & Hs & Ho).
    + exists (e :: sub). split; [now constructor|]. cbn. now rewrite E, Ho.
    + exists sub. split; [now constructor|assumption].
Qed.

Theorem c10_one_means lo hi acked inflight deliv rec :
  c10_one lo hi acked inflight deliv rec = true ->
  outs_are deliv (firstn (length deliv) acked) = true /\
  exists p sub, (lo <= p <= hi)%nat /\ subseq sub inflight /\ outs_are rec (skipn p acked ++ sub) = true.
Proof.
  unfold c10_one. intros H. apply andb_prop in H as (Hd & H). split; [assumption|].
  apply existsb_exists in H as (p & Hin & Hp). apply in_seq in Hin.
  unfold c10_at in Hp. apply andb_prop in Hp as (Hp & Hs). apply andb_prop in Hp as (Hl & Ho).
  destruct (is_subseq_sound _ _ Hs) as (sub & Hsub & Hos).
  exists p, sub. split; [lia|]. split; [assumption|].
  rewrite <- (firstn_skipn (length (skipn p acked)) rec). now apply outs_are_app.
Qed.

(* with no read in flight the recovered instance continues exactly where the consumer stood *)
Corollary c10_strict_exact acked deliv rec :
  c10_strict_ok acked [] deliv rec 0 = true -> outs_are (deliv ++ rec) acked = true.
Proof.
  unfold c10_strict_ok. intros H. apply c10_one_means in H as (Hd & p & sub & Hp & Hs & Ho).
  inversion Hs; subst. rewrite app_nil_r in Ho. assert (p = length deliv) by lia. subst p.
  rewrite <- (firstn_skipn (length deliv) acked). now apply outs_are_app.
Qed.
