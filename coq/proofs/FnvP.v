(* FnvP.v — FNV-1a (model/Fnv.v): every round is injective in the state and in the byte,
   hence changing exactly one byte of the input always changes the checksum. *)
From W Require Import model.Base model.Fnv.

(* the prime is odd, hence a unit modulo 2^64 *)
Definition fnv_prime_inv : N := 14886173955864302971.

Lemma fnv_prime_inv_ok : (fnv_prime * fnv_prime_inv) mod two64 = 1.
Proof. vm_compute. reflexivity. Qed.

Lemma two64_nz : two64 <> 0. Proof. discriminate. Qed.

Lemma mulP_inj x y : x < two64 -> y < two64 ->
  (x * fnv_prime) mod two64 = (y * fnv_prime) mod two64 -> x = y.
Proof.
  intros Hx Hy E.
  assert (K : forall z, z < two64 -> ((z * fnv_prime) mod two64 * fnv_prime_inv) mod two64 = z).
  { intros z Hz. rewrite N.mul_mod_idemp_l by exact two64_nz.
    rewrite <- N.mul_assoc. rewrite <- N.mul_mod_idemp_r by exact two64_nz.
    rewrite fnv_prime_inv_ok. rewrite N.mul_1_r. now apply N.mod_small. }
  rewrite <- (K x Hx), <- (K y Hy). now rewrite E.
Qed.

Lemma lxor_lt64 h b : h < two64 -> b < 256 -> N.lxor h b < two64.
Proof.
  intros Hh Hb. change two64 with (2 ^ 64) in *.
  destruct (N.eq_dec (N.lxor h b) 0) as [->|Hnz]; [reflexivity|].
  apply N.log2_lt_pow2; [lia|].
  eapply N.le_lt_trans; [apply N.log2_lxor|].
  apply N.max_lub_lt.
  - destruct (N.eq_dec h 0) as [->|]; [reflexivity|]. apply N.log2_lt_pow2; lia.
  - destruct (N.eq_dec b 0) as [->|]; [reflexivity|]. apply N.log2_lt_pow2; [lia|].
    eapply N.lt_trans; [exact Hb|reflexivity].
Qed.

Lemma fnv_step_lt h b : fnv_step h b < two64.
Proof. unfold fnv_step. apply N.mod_lt. exact two64_nz. Qed.

Lemma fnv_step_inj_state h1 h2 b : h1 < two64 -> h2 < two64 -> b < 256 ->
  fnv_step h1 b = fnv_step h2 b -> h1 = h2.
Proof.
  intros H1 H2 Hb E. unfold fnv_step in E.
  apply mulP_inj in E; try (apply lxor_lt64; assumption).
  apply (f_equal (fun z => N.lxor z b)) in E.
  now rewrite !N.lxor_assoc, N.lxor_nilpotent, !N.lxor_0_r in E.
Qed.

Lemma fnv_step_inj_byte h b1 b2 : h < two64 -> b1 < 256 -> b2 < 256 ->
  fnv_step h b1 = fnv_step h b2 -> b1 = b2.
Proof.
  intros Hh H1 H2 E. unfold fnv_step in E.
  apply mulP_inj in E; try (apply lxor_lt64; assumption).
  apply (f_equal (N.lxor h)) in E.
  now rewrite <- !N.lxor_assoc, N.lxor_nilpotent, !N.lxor_0_l in E.
Qed.

Lemma fnv_from_inj_state bs : forall h1 h2, h1 < two64 -> h2 < two64 ->
  Forall (fun b => b < 256) bs -> fnv_from h1 bs = fnv_from h2 bs -> h1 = h2.
Proof.
  induction bs as [|b r IH]; intros h1 h2 H1 H2 Hb E; cbn [fnv_from] in E; [exact E|].
  inversion Hb; subst. apply IH in E; auto using fnv_step_lt. eapply fnv_step_inj_state; eauto.
Qed.

(* the bytes in front of the changed one only move the state: they need not be bytes *)
Lemma fnv_from_single_byte pre : forall b b' post h0,
  h0 < two64 -> Forall (fun x => x < 256) (b :: post) -> b' < 256 -> b <> b' ->
  fnv_from h0 (pre ++ b :: post) <> fnv_from h0 (pre ++ b' :: post).
Proof.
  induction pre as [|p pr IH]; intros b b' post h0 Hh Hall Hb' Hne E; cbn [app fnv_from] in *.
  - inversion Hall as [|x l Hb Hpost]; subst.
    apply fnv_from_inj_state in E; [|apply fnv_step_lt|apply fnv_step_lt|exact Hpost].
    apply fnv_step_inj_byte in E; [contradiction|exact Hh|exact Hb|exact Hb'].
  - exact (IH b b' post (fnv_step h0 p) (fnv_step_lt _ _) Hall Hb' Hne E).
Qed.

Lemma fnv_offset_lt : fnv_offset < two64. Proof. reflexivity. Qed.

Theorem checksum64_single_byte pre b b' post :
  Forall (fun x => x < 256) (pre ++ b :: post) -> b' < 256 -> b <> b' ->
  checksum64 (pre ++ b :: post) <> checksum64 (pre ++ b' :: post).
Proof. intros H. apply fnv_from_single_byte; [exact fnv_offset_lt|exact (proj2 (proj1 (Forall_app _ _ _) H))]. Qed.

Lemma checksum64_lt bs : checksum64 bs < two64.
Proof.
  unfold checksum64. generalize fnv_offset_lt. generalize fnv_offset.
  induction bs as [|b r IH]; intros h Hh; cbn [fnv_from]; [exact Hh|].
  apply IH. apply fnv_step_lt.
Qed.
