(* RaftStoreP.v — model/RaftStore.v against spec/RaftSpec.v.  C21: a ghost run accounts for what
   each reopen loses ([Inv], [ghost_split]); [raft_law]: a restarted store is the replay of what
   the ghost says survived; outside the known class (nothing acknowledged before the previous
   reopen; so with at most one reopen, or on the Replaying wrapper) restarts are invisible ([Sim]
   against the never-restarting store); [d11_hist] is the two-reopen history that refutes the rest.
   C19: the state-machine adapter hands on the Normal payloads of a prefix ([sm_apply_handed]);
   [store_contract]. *)
From W Require Import model.Base model.RaftStore spec.RaftSpec proofs.BytesP.

Lemma replay_from_app : forall a b m, replay_from m (a ++ b) = replay_from (replay_from m a) b.
Proof. induction a as [|r a IH]; intros b m; cbn; [reflexivity|apply IH]. Qed.

Lemma replay_app a b : replay (a ++ b) = replay_from (replay a) b.
Proof. apply replay_from_app. Qed.

Lemma live_append_replay : forall es m, live_append m es = replay_from m (map RLog es).
Proof.
  induction es as [|e es IH]; intros m; cbn.
  - destruct m; reflexivity.
  - rewrite <- IH. unfold live_append. cbn. reflexivity.
Qed.

Lemma live_truncate_apply m l : live_truncate m l = apply_record m (RTruncated l).
Proof. reflexivity. Qed.
Lemma live_vote_apply m v : live_vote m v = apply_record m (RVote v).
Proof. reflexivity. Qed.
Lemma live_committed_apply m c : live_committed m c = apply_record m (RCommitted c).
Proof. reflexivity. Qed.
Lemma live_purge_apply m l m' : live_purge m l = Some m' -> m' = apply_record m (RPurged l).
Proof. unfold live_purge. destruct (opt_logid_le _ _); intros H; inversion H; reflexivity. Qed.

Lemma wal_append_all_log {A} : forall (ps : list A) w, w_log (wal_append_all w ps) = w_log w ++ ps.
Proof.
  induction ps as [|p ps IH]; intros w; cbn; [now rewrite app_nil_r|].
  rewrite IH. cbn. now rewrite <- app_assoc.
Qed.
Lemma wal_append_all_cur {A} : forall (ps : list A) w, w_cur (wal_append_all w ps) = w_cur w.
Proof. induction ps as [|p ps IH]; intros w; cbn; [reflexivity|]. now rewrite IH. Qed.

Lemma filter_keep_all {A} (l : list A) : filter keep_all l = l.
Proof. induction l as [|x l IH]; cbn; [reflexivity|now rewrite IH]. Qed.

Lemma wal_unread {A} (w : wal A) lost rs :
  w_log w = lost ++ rs -> w_cur w = length lost -> skipn (w_cur w) (w_log w) = rs.
Proof. intros -> ->. rewrite skipn_app, skipn_all, Nat.sub_diag. reflexivity. Qed.

(* opt_n_eqb, opt_logid_eqb and opt_vote_eqb are this match at their element test *)
Lemma opt_eqb_eq {A} (f : A -> A -> bool) (a b : option A) :
  (forall x y, f x y = true <-> x = y) ->
  match a, b with Some x, Some y => f x y | None, None => true | _, _ => false end = true <-> a = b.
Proof. intros F. destruct a, b; rewrite ?F; split; congruence. Qed.

Lemma opt_n_eqb_eq x y : opt_n_eqb x y = true <-> x = y.
Proof. apply (opt_eqb_eq N.eqb), N.eqb_eq. Qed.
Lemma opt_n_eqb_refl x : opt_n_eqb x x = true.
Proof. now apply opt_n_eqb_eq. Qed.

Lemma pb_get_set k k' a b : pb_get k (pb_set k' a b) = if k =? k' then Some a else pb_get k b.
Proof.
  induction b as [|[k0 a0] b IH]; cbn [pb_set pb_get]; [reflexivity|].
  destruct (k' <? k0); [reflexivity|].
  destruct (N.eqb_spec k' k0); cbn [pb_get]; rewrite ?IH;
    destruct (N.eqb_spec k k'), (N.eqb_spec k k0); congruence.
Qed.

Lemma book_same_refl b : book_same b b.
Proof. intros k; reflexivity. Qed.
Lemma book_same_sym a b : book_same a b -> book_same b a.
Proof. intros H k; symmetry; apply H. Qed.
Lemma book_same_trans a b c : book_same a b -> book_same b c -> book_same a c.
Proof. intros H1 H2 k; now rewrite H1. Qed.
Lemma book_same_set k a b b' : book_same b b' -> book_same (pb_set k a b) (pb_set k a b').
Proof. intros H k0. rewrite !pb_get_set. destruct (k0 =? k); [reflexivity|apply H]. Qed.

Lemma forallb_app_true {A} (f : A -> bool) (l1 l2 : list A) :
  forallb f (l1 ++ l2) = true <-> forallb f l1 = true /\ forallb f l2 = true.
Proof. rewrite forallb_app. apply andb_true_iff. Qed.

Lemma pb_get_not_in k b : ~ In k (map fst b) -> pb_get k b = None.
Proof.
  induction b as [|[k0 a0] b IH]; cbn; intros H; [reflexivity|].
  destruct (N.eqb_spec k k0); [subst; tauto|apply IH; tauto].
Qed.

Lemma book_eqb_same a b : book_eqb a b = true <-> book_same a b.
Proof.
  unfold book_eqb. split.
  - intros H k. destruct (in_dec N.eq_dec k (map fst a ++ map fst b)) as [HI|HN].
    + apply opt_n_eqb_eq. exact (proj1 (forallb_forall _ _) H k HI).
    + rewrite in_app_iff in HN. now rewrite !pb_get_not_in by tauto.
  - intros H. apply forallb_forall. intros k _. apply opt_n_eqb_eq. apply H.
Qed.

Lemma replay_peers_from_app : forall a b m,
  replay_peers_from m (a ++ b) = replay_peers_from (replay_peers_from m a) b.
Proof. induction a as [|[k x] a IH]; intros b m; cbn; [reflexivity|apply IH]. Qed.

Lemma replay_peers_from_agree (P : N -> Prop) : forall rs m m',
  (forall k, P k -> pb_get k m = pb_get k m') ->
  forall k, P k -> pb_get k (replay_peers_from m rs) = pb_get k (replay_peers_from m' rs).
Proof.
  induction rs as [|[k0 a0] rs IH]; intros m m' H k Hk; cbn; [now apply H|].
  apply IH; [|exact Hk]. intros k1 Hk1. rewrite !pb_get_set.
  destruct (k1 =? k0); [reflexivity|now apply H].
Qed.

Lemma peer_assert_emits node : forall ps b w,
  peer_assert node ps b w =
  (replay_peers_from b (assert_emits node ps b), wal_append_all w (assert_emits node ps b)).
Proof.
  induction ps as [|p ps IH]; intros b w; cbn [peer_assert assert_emits]; [reflexivity|].
  destruct (negb _ && _); [|apply IH].
  unfold peer_upsert. destruct (opt_n_eqb _ _); rewrite IH; reflexivity.
Qed.

Lemma ideal_assert_same node : forall ps b b', book_same b b' ->
  book_same (replay_peers_from b (assert_emits node ps b)) (ideal_assert node ps b').
Proof.
  induction ps as [|p ps IH]; intros b b' H; cbn [ideal_assert assert_emits]; [exact H|].
  destruct (negb _ && _); [|now apply IH].
  rewrite (H (peer_id_of p)).
  destruct (opt_n_eqb _ _); cbn [replay_peers_from]; apply IH; [exact H|now apply book_same_set].
Qed.

(* the book of a node whose start loaded [vis] and which has appended [cur] since (the start's own
   records included): node_open sets the own address after the load, before anything else *)
Definition book_of (c : ncfg) (vis cur : list prec) : book :=
  replay_peers_from (pb_set (c_node c) (c_bind c) (replay_peers vis)) cur.

(* no acknowledged record lies before the previous reopen *)
Definition lossless (g : ghost) : Prop := g_lost g = [] /\ p_lost g = [].

Record Inv (c : ncfg) (n : node) (g : ghost) : Prop := mkInv {
  i_llog : w_log (n_lw n) = g_lost g ++ g_vis g ++ g_cur g;
  i_lcur : w_cur (n_lw n) = length (g_lost g ++ g_vis g);
  i_mem : n_mem n = replay (g_vis g ++ g_cur g);
  i_plog : w_log (n_pw n) = p_lost g ++ p_vis g ++ p_cur g;
  i_pcur : w_cur (n_pw n) = length (p_lost g ++ p_vis g);
  i_book : n_book n = book_of c (p_vis g) (p_cur g);
  i_lost : c_mode c = Replaying -> lossless g
}.

(* opening a store whose logs are lost ++ rs, read up to lost: the recovery read returns rs *)
Lemma inv_open c lw pw lost rs plost prs :
  w_log lw = lost ++ rs -> w_cur lw = length lost ->
  w_log pw = plost ++ prs -> w_cur pw = length plost ->
  (c_mode c = Replaying -> lost = [] /\ plost = []) ->
  Inv c (node_open c lw pw) (mkGhost lost rs [] plost prs (start_emits c prs)).
Proof.
  intros Hl Hc Hp Hpc HL. unfold node_open, wal_read_all.
  rewrite !filter_keep_all, peer_assert_emits, (wal_unread lw lost rs Hl Hc), (wal_unread pw plost prs Hp Hpc).
  constructor; cbn [n_lw n_mem n_pw n_book g_lost g_vis g_cur p_lost p_vis p_cur w_log w_cur].
  - now rewrite app_nil_r.
  - now rewrite Hl.
  - now rewrite app_nil_r.
  - rewrite wal_append_all_log. cbn [w_log]. now rewrite Hp, app_assoc.
  - rewrite wal_append_all_cur. cbn [w_cur]. now rewrite Hp.
  - reflexivity.
  - exact HL.
Qed.

Lemma inv_init c : Inv c (node_init c) (ghost_init c).
Proof. now apply inv_open. Qed.

Lemma is_reopen_true o : is_reopen o = true -> o = SReopen.
Proof. destruct o; now try discriminate. Qed.

Lemma node_step_other c n o : is_reopen o = false ->
  let x := snd (node_step c n o) in
  fst (node_step c n o) =
  mkNode (wal_append_all (n_lw n) (acks o x)) (replay_from (n_mem n) (acks o x))
         (wal_append_all (n_pw n) (packs o x)) (replay_peers_from (n_book n) (packs o x)).
Proof.
  intros R x. subst x. destruct n as [lw m pw b].
  destruct o as [es|l|l|v|cm|k a| | |]; try discriminate R; cbn [node_step n_lw n_mem n_pw n_book];
    try reflexivity.   (* all but append, purge and peer by computation *)
  - cbn. now rewrite live_append_replay.
  - destruct (live_purge m l) as [m'|] eqn:E; [|reflexivity].
    apply live_purge_apply in E. now subst m'.
  - unfold peer_upsert. now destruct (opt_n_eqb (pb_get k b) (Some a)).
Qed.

Lemma ghost_step_other c g o x : is_reopen o = false ->
  ghost_step c g o x
  = mkGhost (g_lost g) (g_vis g) (g_cur g ++ acks o x) (p_lost g) (p_vis g) (p_cur g ++ packs o x).
Proof. destruct o; try discriminate; reflexivity. Qed.

Lemma inv_step c n g o :
  Inv c n g -> Inv c (fst (node_step c n o)) (ghost_step c g o (snd (node_step c n o))).
Proof.
  intros [Hl Hlc Hm Hp Hpc Hb HL]. destruct (is_reopen o) eqn:R.
  - apply is_reopen_true in R. subst o. cbn [node_step fst snd ghost_step].
    destruct (c_mode c) eqn:EM.
    + (* the cursors survive: what was visible is lost, what was current is read *)
      apply inv_open; cbn [wal_reopen w_log w_cur]; try assumption.
      * now rewrite Hl, app_assoc.
      * now rewrite Hp, app_assoc.
      * congruence.
    + (* the cursors are dropped: everything is read, and nothing was lost *)
      destruct (HL eq_refl) as [E1 E2]. rewrite E1, E2 in *. now apply inv_open.
  - rewrite node_step_other, ghost_step_other by exact R.
    constructor; cbn [n_lw n_mem n_pw n_book g_lost g_vis g_cur p_lost p_vis p_cur].
    + now rewrite wal_append_all_log, Hl, <- !app_assoc.
    + now rewrite wal_append_all_cur.
    + rewrite Hm, app_assoc. symmetry. apply replay_app.
    + now rewrite wal_append_all_log, Hp, <- !app_assoc.
    + now rewrite wal_append_all_cur.
    + rewrite Hb. unfold book_of. now rewrite replay_peers_from_app.
    + exact HL.
Qed.

Lemma run_from_cons c n o r :
  run_from c n (o :: r) =
  (fst (run_from c (fst (node_step c n o)) r), (o, snd (node_step c n o)) :: snd (run_from c (fst (node_step c n o)) r)).
Proof.
  cbn [run_from]. destruct (node_step c n o) as [n' x]. cbn [fst snd]. now destruct (run_from c n' r).
Qed.

Lemma inv_run c : forall h n g, Inv c n g ->
  Inv c (fst (run_from c n h)) (ghost_run c g (snd (run_from c n h))).
Proof.
  induction h as [|o r IH]; intros n g I; [exact I|].
  rewrite run_from_cons. cbn [fst snd ghost_run]. apply IH. now apply inv_step.
Qed.

Lemma inv_final c h : Inv c (final c h) (ghost_of c h).
Proof. unfold final, ghost_of, trace, node_run. apply inv_run. apply inv_init. Qed.

Lemma run_from_ops c : forall h n, map fst (snd (run_from c n h)) = h.
Proof.
  induction h as [|o r IH]; intros n; [reflexivity|].
  rewrite run_from_cons. cbn [snd map fst]. now rewrite IH.
Qed.

Lemma ghost_run_lost_nil c : forall tr g, lossless (ghost_run c g tr) -> lossless g.
Proof.
  induction tr as [|[o x] tr IH]; intros g H; [exact H|].
  destruct (IH _ H) as [L1 L2]. destruct (is_reopen o) eqn:R.
  - apply is_reopen_true in R. subst o. cbn [ghost_step] in L1, L2.
    destruct (c_mode c); cbn [g_lost p_lost] in L1, L2; [|now split].
    apply app_eq_nil in L1, L2. split; tauto.
  - rewrite ghost_step_other in L1, L2 by exact R. now split.
Qed.

Lemma ackl_app a b : ackl (a ++ b) = ackl a ++ ackl b.
Proof. unfold ackl. apply flat_map_app. Qed.

Lemma ackl_snoc a o x : ackl (a ++ [(o, x)]) = ackl a ++ acks o x.
Proof. rewrite ackl_app. unfold ackl at 2. cbn. now rewrite app_nil_r. Qed.

Lemma ghost_step_total c g o x : let g' := ghost_step c g o x in
  g_lost g' ++ g_vis g' ++ g_cur g' = (g_lost g ++ g_vis g ++ g_cur g) ++ acks o x.
Proof.
  cbn zeta.
  destruct (is_reopen o) eqn:R.
  - apply is_reopen_true in R. subst o. cbn [ghost_step acks].
    destruct (c_mode c); cbn [g_lost g_vis g_cur]; now rewrite !app_nil_r, <- ?app_assoc.
  - rewrite ghost_step_other by exact R. cbn [g_lost g_vis g_cur]. now rewrite <- !app_assoc.
Qed.

Lemma ghost_total c : forall tr g, let g' := ghost_run c g tr in
  g_lost g' ++ g_vis g' ++ g_cur g' = (g_lost g ++ g_vis g ++ g_cur g) ++ ackl tr.
Proof.
  induction tr as [|[o x] tr IH]; intros g; cbn [ghost_run].
  - unfold ackl. cbn. now rewrite app_nil_r.
  - rewrite IH, ghost_step_total, <- app_assoc. reflexivity.
Qed.

(* how lost and vis account for the lifetimes e (before the previous reopen) and p (the previous one) *)
Definition accounted (m : wmode) (g : ghost) (e p : list (sop * sres)) : Prop :=
  match m with
  | Consuming => g_lost g = ackl e /\ g_vis g = ackl p
  | Replaying => g_lost g = [] /\ g_vis g = ackl (e ++ p)
  end.

Lemma ghost_split c : forall tr g e p cu,
  accounted (c_mode c) g e p -> g_cur g = ackl cu ->
  let '(e', p', cu') := split3 e p cu tr in
  accounted (c_mode c) (ghost_run c g tr) e' p' /\ g_cur (ghost_run c g tr) = ackl cu'.
Proof.
  induction tr as [|[o x] tr IH]; intros g e p cu A C; cbn [split3 ghost_run]; [now split|].
  destruct (is_reopen o) eqn:R; apply IH.
  - apply is_reopen_true in R. subst o. cbn [ghost_step]. unfold accounted in *.
    destruct (c_mode c), A as [A1 A2]; cbn [g_lost g_vis]; rewrite ackl_app, A2.
    + now rewrite A1.
    + now rewrite C.
  - apply is_reopen_true in R. subst o. cbn [ghost_step]. now destruct (c_mode c).
  - now rewrite ghost_step_other.
  - rewrite ghost_step_other by exact R. cbn [g_cur]. now rewrite ackl_snoc, C.
Qed.

Lemma ghost_split_replaying c : c_mode c = Replaying -> forall tr g e p cu,
  g_lost g = [] -> g_vis g = ackl (e ++ p) -> g_cur g = ackl cu ->
  let '(e', p', cu') := split3 e p cu tr in
  g_lost (ghost_run c g tr) = [] /\ g_vis (ghost_run c g tr) = ackl (e' ++ p') /\ g_cur (ghost_run c g tr) = ackl cu'.
Proof.
  intros EM tr g e p cu H1 H2 H3. pose proof (ghost_split c tr g e p cu) as G. rewrite EM in G.
  destruct (split3 e p cu tr) as [[e' p'] cu']. apply and_assoc, G; [now split|exact H3].
Qed.

(* left: the first lifetime, nothing read back yet, so the one reopen to come loses nothing; right: no reopen to come *)
Lemma ghost_lost_le1 c : forall tr g,
  lossless g ->
  (g_vis g = [] /\ p_vis g = [] /\ (length (filter is_reopen (map fst tr)) <= 1)%nat)
  \/ length (filter is_reopen (map fst tr)) = 0%nat ->
  lossless (ghost_run c g tr).
Proof.
  induction tr as [|[o x] tr IH]; intros g [H1 H2] H; cbn [ghost_run]; [now split|].
  cbn [map fst filter] in H. destruct (is_reopen o) eqn:R.
  - apply is_reopen_true in R. subst o. cbn [length] in H.
    destruct H as [(V1 & V2 & HL)|HL]; [|discriminate].
    apply IH; [|right; lia]. cbn [ghost_step].
    destruct (c_mode c); split; cbn [g_lost p_lost]; rewrite ?H1, ?H2, ?V1, ?V2; reflexivity.
  - rewrite ghost_step_other by exact R. now apply IH.
Qed.

Lemma ghost_reopen_kept c g x : let g' := ghost_step c g SReopen x in
  lossless g' ->
  g_vis g' ++ g_cur g' = g_vis g ++ g_cur g
  /\ p_vis g' = p_vis g ++ p_cur g /\ p_cur g' = start_emits c (p_vis g').
Proof.
  cbn [ghost_step]. destruct (c_mode c); intros [L1 L2]; cbn [g_lost g_vis g_cur p_lost p_vis p_cur] in *.
  - apply app_eq_nil in L1, L2. destruct L1 as [_ ->], L2 as [_ ->]. now rewrite app_nil_r.
  - rewrite L2. now rewrite app_nil_r.
Qed.

Lemma logid_eqb_eq a b : logid_eqb a b = true <-> a = b.
Proof.
  destruct a, b. unfold logid_eqb. cbn. rewrite !andb_true_iff, !N.eqb_eq. intuition congruence.
Qed.
Lemma opt_logid_eqb_eq a b : opt_logid_eqb a b = true <-> a = b.
Proof. apply (opt_eqb_eq logid_eqb), logid_eqb_eq. Qed.
Lemma payload_eqb_eq a b : payload_eqb a b = true <-> a = b.
Proof. destruct a, b; cbn; rewrite ?str_eqb_eq, ?N.eqb_eq; split; congruence. Qed.
Lemma lentry_eqb_eq a b : lentry_eqb a b = true <-> a = b.
Proof.
  destruct a, b. unfold lentry_eqb. cbn. rewrite andb_true_iff, logid_eqb_eq, payload_eqb_eq.
  intuition congruence.
Qed.
Lemma entries_eqb_eq : forall a b, entries_eqb a b = true <-> a = b.
Proof.
  induction a as [|x a IH]; intros [|y b]; cbn; try (split; congruence).
  rewrite andb_true_iff, lentry_eqb_eq, IH. intuition congruence.
Qed.
Lemma vote_eqb_eq a b : vote_eqb a b = true <-> a = b.
Proof.
  destruct a, b. unfold vote_eqb. cbn. rewrite !andb_true_iff, !N.eqb_eq, Bool.eqb_true_iff.
  intuition congruence.
Qed.
Lemma opt_vote_eqb_eq a b : opt_vote_eqb a b = true <-> a = b.
Proof. apply (opt_eqb_eq vote_eqb), vote_eqb_eq. Qed.
Lemma mem_eqb_eq a b : mem_eqb a b = true <-> a = b.
Proof.
  destruct a, b. unfold mem_eqb. cbn.
  rewrite !andb_true_iff, !opt_logid_eqb_eq, entries_eqb_eq, opt_vote_eqb_eq.
  intuition congruence.
Qed.
Lemma mem_eqb_refl m : mem_eqb m m = true.
Proof. now apply mem_eqb_eq. Qed.

(* books up to [book_same], which is what the C21 statements compare *)
Definition Sim (n : node) (i : ideal) : Prop := n_mem n = fst i /\ book_same (n_book n) (snd i).

Lemma book_of_reload c vis cur b :
  book_same (book_of c vis cur) b ->
  book_same (pb_set (c_node c) (c_bind c) (replay_peers (vis ++ cur))) (pb_set (c_node c) (c_bind c) b).
Proof.
  intros H k. rewrite !pb_get_set. destruct (k =? c_node c) eqn:E; [reflexivity|].
  rewrite <- H. unfold book_of, replay_peers. rewrite replay_peers_from_app.
  apply (replay_peers_from_agree (fun k => k =? c_node c = false)); [|exact E].
  intros k1 Hk1. now rewrite pb_get_set, Hk1.
Qed.

Lemma start_same c prs b :
  book_same (pb_set (c_node c) (c_bind c) (replay_peers prs)) (pb_set (c_node c) (c_bind c) b) ->
  book_same (book_of c prs (start_emits c prs)) (ideal_start c b).
Proof.
  intros H. unfold book_of, start_emits, ideal_start. now apply ideal_assert_same.
Qed.

Lemma sim_init c : Sim (node_init c) (ideal_init c).
Proof.
  destruct (inv_init c) as [_ _ Hm _ _ Hb _]. split; [exact Hm|].
  rewrite Hb. apply start_same, book_same_refl.
Qed.

(* the model has no I/O faults *)
Lemma node_step_no_err c n o : snd (node_step c n o) <> XErr.
Proof.
  destruct o; cbn [node_step]; try discriminate.
  - now destruct (live_purge _ _).
  - unfold peer_upsert. now destruct (opt_n_eqb _ _).
Qed.

Lemma sim_step c n g i o :
  let nx := node_step c n o in let ix := ideal_step c i o in
  Inv c n g -> Sim n i ->
  lossless (ghost_step c g o (snd nx)) ->
  sres_eqb (snd nx) (snd ix) = true /\ Sim (fst nx) (fst ix).
Proof.
  cbn zeta. intros I [SM SB] L. destruct i as [im ib]. cbn [fst snd] in SM, SB. subst im.
  destruct (is_reopen o) eqn:R.
  - (* the node that comes up satisfies the invariant, and nothing it should read back is lost *)
    apply is_reopen_true in R. subst o.
    destruct (ghost_reopen_kept c g _ L) as (V & PV & PC).
    destruct (inv_step c n g SReopen I) as [_ _ Hm' _ _ Hb' _]. destruct I as [_ _ Hm _ _ Hb _].
    repeat split; cbn [ideal_step fst snd].
    + now rewrite Hm', V, <- Hm.
    + rewrite Hb', PC, PV. apply start_same, book_of_reload. now rewrite <- Hb.
  - destruct o as [es|l|l|v|cm|k a| | |]; try discriminate R; cbn [node_step ideal_step];
      try (repeat split; exact SB).   (* append, truncate, vote, committed *)
    + destruct (live_purge (n_mem n) l); repeat split; exact SB.
    + unfold peer_upsert. rewrite (SB k).
      destruct (opt_n_eqb (pb_get k ib) (Some a)); repeat split; [exact SB|now apply book_same_set].
    + repeat split; [apply mem_eqb_refl|exact SB].
    + repeat split; [now apply book_eqb_same|exact SB].
Qed.

Lemma accept_cons c s o x rest : x <> XErr ->
  c21_accept_from c s ((o, x) :: rest)
  = sres_eqb x (snd (ideal_step c s o)) && c21_accept_from c (fst (ideal_step c s o)) rest.
Proof.
  intros H. cbn [c21_accept_from]. destruct (ideal_step c s o) as [s' y]. cbn [fst snd].
  destruct x; try reflexivity. now elim H.
Qed.

Lemma ideal_run_from_cons c s o r :
  ideal_run_from c s (o :: r) =
  (fst (ideal_run_from c (fst (ideal_step c s o)) r),
   (o, snd (ideal_step c s o)) :: snd (ideal_run_from c (fst (ideal_step c s o)) r)).
Proof.
  cbn [ideal_run_from]. destruct (ideal_step c s o) as [s' x]. cbn [fst snd].
  now destruct (ideal_run_from c s' r).
Qed.

Lemma sim_run c : forall h n g i,
  Inv c n g -> Sim n i ->
  lossless (ghost_run c g (snd (run_from c n h))) ->
  c21_accept_from c i (snd (run_from c n h)) = true
  /\ Sim (fst (run_from c n h)) (fst (ideal_run_from c i h)).
Proof.
  induction h as [|o r IH]; intros n g i I S L.
  - cbn. split; [reflexivity|exact S].
  - rewrite run_from_cons in *. cbn [fst snd ghost_run] in *.
    destruct (sim_step c n g i o I S (ghost_run_lost_nil _ _ _ L)) as [R S'].
    destruct (IH _ _ _ (inv_step c n g o I) S' L) as [A S''].
    rewrite accept_cons, R, A by apply node_step_no_err. split; [reflexivity|].
    rewrite ideal_run_from_cons. exact S''.
Qed.

Lemma known_false c h : c21_known c h = false <-> lossless (ghost_of c h).
Proof. unfold c21_known, lossless. destruct (g_lost _), (p_lost _); cbn; intuition discriminate. Qed.

(* the general law of the code as it is: a restarted store is the replay of what was acknowledged
   since the previous reopen, and of nothing older *)
Theorem raft_law c h :
  let n := final c h in let g := ghost_of c h in
  n_mem n = replay (g_vis g ++ g_cur g)
  /\ n_book n = book_of c (p_vis g) (p_cur g)
  /\ w_log (n_lw n) = ackl (trace c h)
  /\ g_lost g ++ g_vis g ++ g_cur g = ackl (trace c h).
Proof.
  cbn zeta. destruct (inv_final c h) as [Hl _ Hm _ _ Hb _].
  pose proof (ghost_total c (trace c h) (ghost_init c)) as T. cbn [ghost_init g_lost g_vis g_cur app] in T.
  fold (ghost_of c h) in T. repeat split; try assumption. now rewrite Hl.
Qed.

(* C21 for one history: every answer is the never-restarting store's, and the reopened log store is
   the replay of everything acknowledged; props/C21.v writes the four conjuncts out in every statement *)
Definition Restarts_invisible (c : ncfg) (h : list sop) : Prop :=
  c21_ok c (trace c h) = true
  /\ n_mem (final c h) = fst (ideal_final c h)
  /\ book_same (n_book (final c h)) (snd (ideal_final c h))
  /\ n_mem (final c h) = replay (ackl (trace c h)).

(* nothing acknowledged lies before the previous reopen: the restarted store is the ideal store *)
Theorem raft_outside_known c h : c21_known c h = false -> Restarts_invisible c h.
Proof.
  intros K. apply known_false in K.
  destruct (raft_law c h) as (Hm & _ & _ & T). cbn zeta in Hm, T. rewrite (proj1 K) in T.
  destruct (sim_run c h _ _ _ (inv_init c) (sim_init c) K) as [A [S1 S2]].
  repeat split; try assumption. now rewrite Hm, <- T.
Qed.

Theorem raft_one_reopen c h : (reopens h <= 1)%nat -> c21_known c h = false.
Proof.
  intros H. apply known_false, ghost_lost_le1; [now split|].
  left. repeat split; try reflexivity. unfold trace, node_run. now rewrite run_from_ops.
Qed.

Theorem raft_replaying_never_known c h : c_mode c = Replaying -> c21_known c h = false.
Proof.
  intros EM. apply known_false, (i_lost _ _ _ (inv_final c h)), EM.
Qed.

Theorem raft_law_replaying c h : c_mode c = Replaying ->
  n_mem (final c h) = replay (ackl (trace c h)).
Proof.
  intros EM. apply raft_outside_known. now apply raft_replaying_never_known.
Qed.

Lemma wal_run_appends {A} m keep : forall (ps : list A) w rest,
  wal_run m keep w (map WAppend ps ++ rest) =
  map (fun k => WOff (w_off w + N.of_nat k)) (seq 0 (length ps))
  ++ wal_run m keep (mkWal (w_log w ++ ps) (w_cur w) (w_off w + N.of_nat (length ps))) rest.
Proof.
  induction ps as [|p ps IH]; intros w rest.
  - cbn. rewrite app_nil_r, N.add_0_r. now destruct w.
  - cbn [map app wal_run wal_step wal_append length seq]. rewrite IH. cbn [w_log w_cur w_off].
    rewrite N.add_0_r. f_equal.
    rewrite <- seq_shift, map_map. f_equal.
    + apply map_ext. intros k. f_equal. lia.
    + f_equal. f_equal; [now rewrite <- app_assoc|lia].
Qed.

Lemma normals_app : forall a b, normals (a ++ b) = normals a ++ normals b.
Proof.
  induction a as [|e a IH]; intros b; cbn [app normals]; [reflexivity|].
  destruct (e_pl e); rewrite IH; reflexivity.
Qed.

Lemma prefix_normals_firstn k a b : Prefix a b -> Prefix (normals (firstn k a)) (normals b).
Proof.
  intros [t ->]. exists (normals (skipn k a ++ t)). now rewrite <- normals_app, app_assoc, firstn_skipn.
Qed.

Lemma prefix_common {A} : forall (a b c : list A), Prefix a c -> Prefix b c -> Comparable a b.
Proof.
  induction a as [|x a IH]; intros b c Ha Hb; [left; now exists b|].
  destruct b as [|y b]; [right; now exists (x :: a)|].
  destruct Ha as [t1 ->], Hb as [t2 [= <- E]].
  destruct (IH b (a ++ t1)) as [[t ->]|[t ->]]; [now exists t1|now exists t2|left|right]; now exists t.
Qed.

(* last_applied_log after [es]: the id of the last entry, [l0] if there is none *)
Definition last_ids (es : list (lentry * bool)) (l0 : option logid) : option logid :=
  fold_left (fun _ e => Some (e_id (fst e))) es l0.

Lemma if_app {A} (w : bool) (l t : list A) : (if w then l ++ t else l) = l ++ if w then t else [].
Proof. destruct w; [reflexivity|symmetry; apply app_nil_r]. Qed.

Section Adapter.
Context {St : Type} (app : St -> list N -> St * option (list N)).

(* res continues from st as the observation o says *)
Definition meets (st : smdata St) (o : list (list N) * list (N * list N) * option logid * bool)
           (res : smdata St * bool) : Prop :=
  sm_cmds (fst res) = sm_cmds st ++ fst (fst (fst o))
  /\ sm_resp (fst res) = sm_resp st ++ snd (fst (fst o))
  /\ sm_last (fst res) = match snd (fst o) with Some l => Some l | None => sm_last st end
  /\ snd res = snd o.

Lemma meets_cons (st st1 : smdata St) c0 r0 l o res :
  meets st1 o res ->
  sm_cmds st1 = sm_cmds st ++ c0 -> sm_resp st1 = sm_resp st ++ r0 -> sm_last st1 = Some l ->
  meets st (let '(cs, rs, last, ok) := o in
            (c0 ++ cs, r0 ++ rs, match last with Some l' => Some l' | None => Some l end, ok)) res.
Proof.
  destruct o as [[[cs rs] last] ok]. unfold meets. cbn [fst snd]. intros (I1 & I2 & I3 & I4) C R L.
  rewrite I1, I2, I3, I4, C, R, L, <- !app_assoc. repeat split. now destruct last.
Qed.

Lemma sm_apply_meets_spec (app_ok : list N -> option (list N)) :
  (forall s d, snd (app s d) = app_ok d) ->
  forall es (st : smdata St), meets st (apply_spec app_ok es) (sm_apply app st es).
Proof.
  intros Happ. induction es as [|[[id pl] w] r IH]; intros st.
  - unfold meets. cbn. now rewrite !app_nil_r.
  - cbn [sm_apply apply_spec e_pl e_id sm_app sm_last sm_memb sm_cmds sm_resp]. destruct pl as [|d|k].
    2: { rewrite <- (Happ (sm_app st) d). destruct (app (sm_app st) d) as [s' [resp|]]; cbn [snd].
      - eapply meets_cons with (c0 := [d]); [apply IH|reflexivity|apply if_app|reflexivity].
      - unfold meets. cbn. now rewrite !app_nil_r. }
    (* Blank and Membership hand the application nothing *)
    all: eapply meets_cons with (c0 := []); [apply IH|symmetry; apply app_nil_r|apply if_app|reflexivity].
Qed.

(* res has handed the application the commands of a prefix of es, of all of es if it reports success *)
Definition handed (st : smdata St) (es : list (lentry * bool)) (res : smdata St * bool) : Prop :=
  exists k, (k <= length es)%nat
    /\ sm_cmds (fst res) = sm_cmds st ++ normals (map fst (firstn k es))
    /\ (snd res = true -> k = length es /\ sm_last (fst res) = last_ids es (sm_last st)).

Lemma handed_cons (st st1 : smdata St) e w r res :
  handed st1 r res -> sm_cmds st1 = sm_cmds st ++ normals [e] -> sm_last st1 = Some (e_id e) ->
  handed st ((e, w) :: r) res.
Proof.
  intros (k & Hk & I1 & I2) C L. exists (S k). cbn [length firstn map fst]. split; [lia|]. split.
  - rewrite I1, C, <- app_assoc. f_equal. symmetry. apply (normals_app [e]).
  - intros T. destruct (I2 T) as [-> I3]. split; [reflexivity|]. rewrite I3, L. reflexivity.
Qed.

Lemma sm_apply_handed : forall es (st : smdata St),
  handed st es (sm_apply app st es).
Proof.
  induction es as [|[[id pl] w] r IH]; intros st.
  - exists 0%nat. cbn. now rewrite app_nil_r.
  - cbn [sm_apply e_pl e_id sm_app sm_last sm_memb sm_cmds sm_resp]. destruct pl as [|d|k].
    2: { destruct (app (sm_app st) d) as [s' [resp|]].
      - eapply handed_cons; [apply IH|reflexivity|reflexivity].
      - exists 0%nat. cbn. split; [lia|]. split; [now rewrite app_nil_r|discriminate]. }
    all: eapply handed_cons; [apply IH|symmetry; apply app_nil_r|reflexivity].
Qed.

End Adapter.

(* D11 at store level: one vote, one entry, one learned peer; two reopens *)
Definition d11_cfg : ncfg := mkCfg Consuming 1 (2130706433 * 65536 + 9321) [2130706433 * 65536 + 9322].
Definition d11_hist : list sop :=
  [SVote (mkVote 1 1 false);
   SAppend [mkEntry (mkLogId 1 1 1) (PNormal [97; 98])];
   SPeer 3 (167772163 * 65536 + 9323);
   SReopen; SState; SPeers;
   SReopen; SState; SPeers].

(* the same history on the repaired wrapper *)
Example raft_fixed_witness :
  let c := mkCfg Replaying 1 (2130706433 * 65536 + 9321) [2130706433 * 65536 + 9322] in
  c21_ok c (trace c d11_hist) = true
  /\ m_vote (n_mem (final c d11_hist)) = Some (mkVote 1 1 false)
  /\ pb_get 3 (n_book (final c d11_hist)) = Some (167772163 * 65536 + 9323).
Proof. vm_compute. repeat split; reflexivity. Qed.

(* what openraft requires of a RaftLogStorage, for the store of this repository as it is *)
Definition store_contract : Prop :=
  forall c h, c_mode c = Consuming -> n_mem (final c h) = replay (ackl (trace c h)).

Definition fed (es : list lentry) : list (lentry * bool) := map (fun e => (e, false)) es.

Lemma fed_fst es : map fst (fed es) = es.
Proof. unfold fed. rewrite map_map. cbn. apply map_id. Qed.
