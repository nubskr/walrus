(* EngineReopen.v — a clean restart, outside block-id drift ([id_drift]).
   One topic (section OneTopic): [reopen] rebuilds the chain from the blocks that held entries and leaves no writer
   and the un-hydrated startup reader; a position that lagged by [pre] then lags by nothing, in either hydration
   flavour, and [pre] is unread again (the relation [Reopened] between the topic before and after, proved in the section
   as [Reopened_Lag]; [reopen_Reopened] has it of every topic).  That needs neither ledger nor position clause and
   serves every mode.
   Strict: if no persisted position is stale the restart re-establishes G with the SAME ledger, and every position
   is good afterwards ([G_reopen_nonstale]; under the invariant PG, which excludes stale positions, [G_reopen_pg]).
   Stream, unread entries and count of every topic are then what they were: two states with one ledger agree
   ([G_same_ledger]). *)
From W Require Import model.Base model.Engine spec.Queue proofs.EngineWF proofs.EngineInv
  proofs.EngineRec proofs.EngineDisk proofs.EnginePos proofs.EngineP3 proofs.EngineBlk
  proofs.EngineNorm proofs.EngineRestart.

Lemma sum_counts_app a b : sum_counts (a ++ b) = sum_counts a + sum_counts b.
Proof. unfold sum_counts. induction a as [|x a IH]; cbn [app fold_right]; [lia|]. rewrite IH. lia. Qed.

Lemma sum_counts_len l : sum_counts l = N.of_nat (length (chain_ents l)).
Proof.
  induction l as [|b l IH]; [reflexivity|]. unfold sum_counts in *. cbn [fold_right]. rewrite IH.
  unfold chain_ents. cbn [flat_map]. rewrite app_length. unfold blk_count. lia.
Qed.

Lemma count_upto_okoff c (Hh : 0 < c_hdr c) : forall es pos n off, okoff c es off ->
  count_upto c es pos (pos + off) n + N.of_nat (length (ents_from c es off)) = n + N.of_nat (length es).
Proof.
  induction es as [|e r IH]; intros pos n off Hok; cbn [count_upto ents_from length].
  - lia.
  - pose proof (need_pos c e Hh) as Hne. unfold okoff in Hok. cbn [ents_from sum_need] in Hok.
    destruct (off =? 0) eqn:E0.
    + replace (pos + off <=? pos) with true by lia. cbn [length]. lia.
    + destruct (off <? need c e) eqn:E1; [cbn [sum_need] in Hok; lia|].
      replace (pos + off <=? pos) with false by lia.
      replace (pos + off <? pos + need c e) with false by lia.
      assert (Hok' : okoff c r (off - need c e)) by (unfold okoff; lia).
      specialize (IH (pos + need c e) (n + 1) (off - need c e) Hok').
      replace (pos + need c e + (off - need c e)) with (pos + off) in IH by lia. lia.
Qed.

Lemma from_len c (Hh : 0 < c_hdr c) ch j b off : nth_error ch j = Some b -> bwf c b -> okoff c (b_ents b) off ->
  consumed_at c ch j off + N.of_nat (length (from c ch j off)) = sum_counts ch.
Proof.
  intros Hb (Hu & _) Hok. unfold consumed_at, from. rewrite Hb, (nth_error_split_skipn _ _ _ Hb).
  rewrite <- (firstn_skipn j ch) at 3. rewrite (nth_error_split_skipn _ _ _ Hb), sum_counts_app.
  change (sum_counts (b :: skipn (S j) ch)) with (blk_count b + sum_counts (skipn (S j) ch)).
  rewrite app_length, (sum_counts_len (skipn (S j) ch)). unfold blk_count.
  pose proof (okoff_le _ _ _ Hok) as Hle.
  destruct (b_used b <=? off) eqn:E.
  - rewrite (ents_from_end c Hh) by lia. cbn [length]. lia.
  - replace (N.min off (b_used b)) with off by lia.
    pose proof (count_upto_okoff c Hh (b_ents b) 0 0 off Hok) as H. rewrite N.add_0_l in H. lia.
Qed.

Lemma nth_error_map_eq {A B} (f : A -> B) l l' j x : map f l = map f l' -> nth_error l j = Some x ->
  exists x', nth_error l' j = Some x' /\ f x' = f x.
Proof.
  intros H Hx. assert (Hm : nth_error (map f l') j = Some (f x)) by (rewrite <- H; now apply map_nth_error).
  destruct (nth_error l' j) as [x'|] eqn:E.
  - exists x'. split; [reflexivity|]. rewrite (map_nth_error f _ _ E) in Hm. now inversion Hm.
  - apply nth_error_None in E. assert (nth_error (map f l') j = None) by (apply nth_error_None; now rewrite map_length). congruence.
Qed.

Lemma from_ents_eq c l l' j o : map b_ents l = map b_ents l' -> from c l j o = from c l' j o.
Proof.
  revert l l'. induction j as [|j IH]; intros l l' H.
  - unfold from. cbn [skipn]. destruct l as [|b l], l' as [|b' l']; cbn in H; try discriminate; [reflexivity|].
    inversion H. rewrite H1. f_equal. now apply chain_ents_map_eq.
  - destruct l as [|b l], l' as [|b' l']; cbn in H; try discriminate; [reflexivity|]. inversion H.
    unfold from in *. cbn [skipn]. now apply IH.
Qed.

Lemma find_id_nodup l : NoDup (map b_id l) -> forall j b i, nth_error l j = Some b -> find_id l (b_id b) i = Some (i + j)%nat.
Proof.
  induction l as [|x l IH]; intros Hnd j b i Hb; [destruct j; discriminate|].
  cbn [map] in Hnd. inversion Hnd as [|y ys Hnin Hnd']; subst. cbn [find_id].
  destruct j as [|j]; cbn in Hb.
  - inversion Hb; subst. rewrite N.eqb_refl. f_equal. lia.
  - destruct (b_id x =? b_id b) eqn:E.
    + exfalso. apply Hnin. replace (b_id x) with (b_id b) by lia. apply in_map. eapply nth_error_In; eauto.
    + rewrite (IH Hnd' j b (S i) Hb). f_equal. lia.
Qed.

Lemma existsb_id_false l a : existsb (fun b => b_id b =? a) l = false <-> Forall (fun b => b_id b <> a) l.
Proof.
  induction l as [|b l IH]; cbn [existsb]; [split; [constructor|reflexivity]|].
  rewrite orb_false_iff, IH. split.
  - intros (A & B). constructor; [lia|exact B].
  - intros H. inversion H; subst. split; [lia|assumption].
Qed.

Lemma nlist_eqb_eq a b : nlist_eqb a b = true -> a = b.
Proof.
  revert b; induction a as [|x a IH]; intros b H; destruct b as [|y b]; cbn in H; try discriminate; [reflexivity|].
  apply andb_true_iff in H. destruct H as (H1 & H2). f_equal; [lia|now apply IH].
Qed.

Lemma memne_raw ts :
  filter (fun b => match b_ents b with [] => false | _ => true end)
         ((match ts_reader ts with Some r => r_chain r | None => [] end) ++
          (match ts_writer ts with Some w => [w] | None => [] end)) = memne ts.
Proof. unfold memne, chain_of, reader_of, w_list. destruct (ts_reader ts); reflexivity. Qed.

Lemma nodrift_ids c s t old : id_drift c s = false -> In (t, old) (s_topics s) ->
  map b_id (rc_get (rc_chains (fst (scan0 c s))) t) = map b_id (memne old).
Proof.
  unfold id_drift, scan0. destruct (scan_files _ _ _ _ _ _) as [rc nid]. cbn [fst]. intros H Hin.
  pose proof (existsb_false_in _ _ (t, old) H Hin) as Hall. cbn [fst snd] in Hall.
  apply negb_false_iff, nlist_eqb_eq in Hall. rewrite memne_raw in Hall. exact Hall.
Qed.

Lemma nostale s t old p : stale_tail s = false -> In (t, old) (s_topics s) -> ts_index old = Some p ->
  stale_p (memne old) p = false.
Proof.
  unfold stale_tail. intros H Hin Hp.
  pose proof (existsb_false_in _ _ (t, old) H Hin) as Hall. cbn [snd] in Hall. now rewrite Hp in Hall.
Qed.

(* outside the stale class a persisted position has no lag: a provisional or dead position is a tail position, and
   if it is not stale some block [b] with entries has its id *)
Lemma P3_nolag c nid T : TInv c nid T -> P3 c nid T -> (forall p, ts_index T = Some p -> stale_p (memne T) p = false) -> Lag c T [].
Proof.
  intros Hinv Hp3 Hst. apply P3_Lag in Hp3. destruct Hp3 as (_ & [H|(p & Hi & Hbad)]); [exact H|exfalso].
  specialize (Hst p Hi). unfold stale_p in Hst.
  assert (A1 : p_tail p = true) by (destruct Hbad as [(A1 & _)|(A1 & _)]; exact A1).
  rewrite A1 in Hst. apply negb_false_iff, existsb_exists in Hst.
  destruct Hst as (b & Hin & Hb). apply filter_In in Hin. destruct Hin as (Hin & Hne).
  destruct Hbad as [(_ & w & Hw & Hid & He & _)|(_ & _ & A3)].
  - pose proof (ti_nodup _ _ _ Hinv) as Hnd. unfold w_list in Hin, Hnd. rewrite Hw in Hin, Hnd.
    apply in_app_or in Hin. destruct Hin as [Hin|[Hin|[]]].
    + rewrite map_app in Hnd. cbn [map] in Hnd. apply NoDup_remove_2 in Hnd. apply Hnd. rewrite app_nil_r.
      replace (b_id w) with (b_id b) by lia. now apply in_map.
    + subst b. apply nonempty_b_true in Hne. congruence.
  - eapply Forall_forall in A3; [|exact Hin]. lia.
Qed.

(* If a position lagged by [pre] (flavour [y]), after a restart it lags by nothing, in either flavour, and what is
   unread is [pre] again and then what was unread: the restart re-delivers the lag. *)
Definition Reopened (c : Cfg) (nid' : N) (ts ts' : tstate) : Prop :=
  forall nid y pre, TInv c nid (nrm y ts) -> Lag c (nrm y ts) pre ->
  SC ts' /\ stream ts' = stream ts /\ forall x,
    TInv c nid' (nrm x ts') /\ CNE (nrm x ts') /\ Lag c (nrm x ts') [] /\ unread c (nrm x ts') = pre ++ unread c (nrm y ts).

(* One topic across a restart.  [ts'] is what [reopen] makes of the topic state [ts] outside block-id drift
   ([reopen_Reopened] below): the rebuilt chain consists of the blocks of [ts] that held entries (same entries, same
   ids), there is no writer, and the reader is the un-hydrated startup reader.  The order of the Context is the
   argument order of the section's lemmas: [reopen_Reopened] passes all of it by position.  [TInv_reopened] takes
   [Hix Hwr Hpo Hum Hbwf Hrange Hnd] from the context by [assumption] / [congruence], without naming them. *)
Section OneTopic.
Context (c : Cfg) (nid' : N) (ts ts' : tstate) (Hh : 0 < c_hdr c) (Hn' : 0 < nid')
  (Hrd : reader_of ts' = mk_reader (chain_of ts') (startup_cursor (chain_of ts') (ts_index ts)))
  (Hix : ts_index ts' = ts_index ts) (Hwr : ts_writer ts' = None) (Hpo : ts_poisoned ts' = false)
  (Hum : ts_unmodelled ts' = ts_unmodelled ts)
  (Hcnt : cnt ts' = rebuilt_count c (chain_of ts') (ts_index ts))
  (Hents : map b_ents (chain_of ts') = map b_ents (memne ts)) (Hids : map b_id (chain_of ts') = map b_id (memne ts))
  (Hbwf : Forall (bwf c) (chain_of ts')) (Hrange : Forall (fun b => 0 < b_id b < nid') (chain_of ts'))
  (Hnd : NoDup (map b_id (chain_of ts'))).

Lemma Reopened_blocks : stream ts' = stream ts /\ forall x, CNE (nrm x ts') /\ memne (nrm x ts') = chain_of ts'.
Proof.
  assert (Hcne : CNE ts').
  { apply Forall_forall. intros b Hin.
    assert (Hi2 : In (b_ents b) (map b_ents (memne ts))) by (rewrite <- Hents; now apply in_map).
    apply in_map_iff in Hi2. destruct Hi2 as (b0 & He0 & Hin0). apply filter_In in Hin0.
    destruct Hin0 as (_ & Hne). apply nonempty_b_true in Hne. congruence. }
  split.
  - unfold stream, w_ents. now rewrite Hwr, app_nil_r, (chain_ents_map_eq _ _ Hents), chain_ents_memne.
  - intros x. split; [unfold CNE; now rewrite nrm_chain|].
    rewrite nrm_memne, (memne_cne ts' Hcne). unfold w_list. rewrite Hwr. apply app_nil_r.
Qed.

(* there is no writer and the scan vouches for the chain: what is left of TInv is the cursor and the count *)
Lemma TInv_reopened x : let R := reader_of (nrm x ts') in
  ts_unmodelled ts = false -> r_tail_bid R < nid' -> (r_idx R <= length (chain_of ts'))%nat ->
  (r_idx R = length (chain_of ts') -> r_off R = 0) ->
  (forall b, nth_error (chain_of ts') (r_idx R) = Some b -> okoff c (b_ents b) (r_off R)) ->
  (r_hydrated R = false -> ts_index ts = None) -> cnt ts' = N.of_nat (length (unread c (nrm x ts'))) ->
  TInv c nid' (nrm x ts').
Proof.
  cbv zeta. intros Hum0 Htl Hidx Hend Hcur Hhyd Hc.
  assert (Hwl : w_list (nrm x ts') = []) by (unfold w_list; now rewrite nrm_writer, Hwr).
  constructor; unfold cnt; rewrite ?Hwl, ?app_nil_r, ?nrm_chain, ?nrm_poisoned, ?nrm_unmodelled, ?nrm_writer, ?nrm_index, ?nrm_count, ?Hix;
    try assumption; try congruence.
  - constructor.
Qed.

(* the position names block [j] of the rebuilt chain: either hydration flavour puts the cursor there.  The tail progress
   stays 0 or (batch-read flavour, tail position) becomes the id of [b'], which is below the next id. *)
Lemma nrm_reopened x p j b' : ts_unmodelled ts = false -> ts_index ts = Some p -> nth_error (chain_of ts') j = Some b' ->
  okoff c (b_ents b') (p_off p) -> (if p_tail p then b_id b' = p_a p else p_a p = N.of_nat j) ->
  TInv c nid' (nrm x ts') /\ unread c (nrm x ts') = from c (chain_of ts') j (p_off p).
Proof.
  intros Hum0 Eidx Hb Hok Hpos.
  assert (Hj : (j < length (chain_of ts'))%nat) by (apply nth_error_Some; congruence).
  assert (Hbw : bwf c b') by (eapply Forall_forall in Hbwf; [exact Hbwf|eapply nth_error_In; eauto]).
  assert (Hid' : 0 < b_id b' < nid') by (eapply Forall_forall in Hrange; [exact Hrange|eapply nth_error_In; eauto]).
  assert (Hmin : N.min (p_off p) (b_used b') = p_off p) by (pose proof (okoff_le _ _ _ Hok); destruct Hbw; lia).
  assert (Hfind : p_tail p = true -> find_id (chain_of ts') (p_a p) 0 = Some j).
  { intros Et. rewrite Et in Hpos. rewrite <- Hpos. exact (find_id_nodup _ Hnd j b' 0%nat Hb). }
  assert (Hclamp : p_tail p = false -> clamp_idx (p_a p) (length (chain_of ts')) = j).
  { intros Et. rewrite Et in Hpos. unfold clamp_idx. rewrite Hpos. replace (N.of_nat (length (chain_of ts')) <? N.of_nat j) with false by (clear - Hj; lia). apply Nat2N.id. }
  assert (H : exists tb tof, tb < nid' /\ nrm x ts' = with_reader ts'
    {| r_chain := chain_of ts'; r_idx := j; r_off := p_off p; r_tail_bid := tb; r_tail_off := tof; r_since := 0; r_hydrated := true |}).
  { unfold nrm. rewrite Hrd, Hix, Eidx. unfold hyd, hydrate, mk_reader. cbn [r_hydrated r_chain]. destruct (p_tail p) eqn:Et.
    - destruct x; unfold fold_tail, set_hydrated, set_cur, set_tail; cbn [r_chain r_idx r_off r_tail_bid r_tail_off r_since r_hydrated];
        rewrite (Hfind eq_refl); unfold used_at; rewrite Hb, Hmin; eexists _, _; (split; [|reflexivity]); clear - Hn' Hid' Hpos; lia.
    - unfold fold_tail, set_hydrated, set_cur; cbn [r_chain r_idx r_off r_tail_bid r_tail_off r_since r_hydrated].
      rewrite (Hclamp eq_refl). unfold used_at. rewrite Hb, Hmin. eexists _, _. split; [exact Hn'|reflexivity]. }
  destruct H as (tb & tof & Htb & Hnrm).
  assert (Hun' : unread c (nrm x ts') = from c (chain_of ts') j (p_off p)).
  { rewrite Hnrm. unfold unread, from, w_ents. cbn [reader_of with_reader ts_reader ts_writer r_idx r_chain r_off].
    now rewrite (nth_error_split_skipn _ _ _ Hb), Hwr, app_nil_r. }
  split; [|exact Hun'].
  apply TInv_reopened; [exact Hum0|rewrite Hnrm..|]; cbn [reader_of with_reader ts_reader r_idx r_off r_tail_bid r_hydrated];
    try assumption; try congruence.
  - clear - Hj. lia.
  - clear - Hj. lia.
  - (* the count the restart rebuilds: all entries minus those in front of the position, [from_len] *)
    rewrite Hcnt, Eidx, Hun'. unfold rebuilt_count. pose proof (from_len c Hh _ j b' (p_off p) Hb Hbw Hok) as Hfl.
    destruct (p_tail p) eqn:Et; [rewrite (Hfind eq_refl)|rewrite (Hclamp eq_refl)]; clear - Hfl; lia.
Qed.

Lemma Reopened_Lag : Reopened c nid' ts ts'.
Proof.
  intros nid y pre Hti HL. pose proof (ti_unm _ _ _ Hti) as Hum0. rewrite nrm_unmodelled in Hum0.
  destruct Reopened_blocks as (Hst & Hblk).
  unfold Lag in *. rewrite nrm_index in HL. destruct (ts_index ts) as [p|] eqn:Eidx in HL.
  - (* the persisted position resolves to block [j] of the blocks that held entries: the rebuilt chain has a block with
       the same entries and id at [j], both hydration flavours put the cursor there, and what is unread is what lay
       behind the position *)
    destruct HL as (j & b & Hb & Hpos0 & Hok0 & Hfrom). rewrite nrm_memne in Hb, Hfrom. rewrite nrm_chain in Hpos0.
    destruct (nth_error_map_eq b_ents _ _ j b (eq_sym Hents) Hb) as (b' & Hb' & He').
    destruct (nth_error_map_eq b_id _ _ j b (eq_sym Hids) Hb) as (b'' & Hb'' & Hi').
    rewrite Hb' in Hb''. injection Hb'' as <-.
    assert (Hpos : if p_tail p then b_id b' = p_a p else p_a p = N.of_nat j) by (destruct (p_tail p); [congruence|exact (proj1 Hpos0)]).
    assert (Hok : okoff c (b_ents b') (p_off p)) by (now rewrite He').
    assert (Hj : (j < length (chain_of ts'))%nat) by (apply nth_error_Some; congruence).
    split.
    { intros _ p0 Hp0. rewrite Hix, Eidx in Hp0. injection Hp0 as <-. rewrite Hrd. split; [reflexivity|].
      destruct (p_tail p); [exists j; rewrite <- Hpos; exact (find_id_nodup _ Hnd j b' 0%nat Hb')|rewrite Hpos; clear - Hj; lia]. }
    split; [exact Hst|]. intros x. destruct (Hblk x) as (Hcne & Hmem).
    destruct (nrm_reopened x p j b' Hum0 Eidx Hb' Hok Hpos) as (Hti' & Hun').
    split; [exact Hti'|]. split; [exact Hcne|]. rewrite nrm_index, Hix, Eidx. split.
    + exists j, b'. rewrite Hmem, nrm_chain. split; [exact Hb'|]. split; [|split; [exact Hok|now rewrite Hun']].
      destruct (p_tail p); [exact Hpos|split; [exact Hpos|exact Hj]].
    + rewrite Hun', <- Hfrom. symmetry. now apply from_ents_eq.
  - (* no position was ever persisted: the restarted consumer stands at the very beginning *)
    split; [intros _ p0 Hp0; congruence|]. split; [exact Hst|]. intros x. rewrite nrm_stream in HL.
    assert (Hnrm : nrm x ts' = ts') by (unfold nrm; rewrite Hrd, Hix, Eidx; reflexivity).
    assert (Hun' : unread c ts' = stream ts).
    { rewrite <- Hst. unfold unread, stream, w_ents. rewrite Hrd, Eidx, Hwr. cbn [mk_reader r_idx r_off r_chain startup_cursor fst snd skipn].
      destruct (chain_of ts') as [|b0 r0]; [reflexivity|]. rewrite ents_from_0, !app_nil_r. reflexivity. }
    split; [|split; [apply Hblk|rewrite nrm_index, Hix, Eidx, nrm_stream, Hst, Hnrm, Hun'; split; [reflexivity|exact HL]]].
    apply TInv_reopened; rewrite ?Hnrm, ?Hrd, ?Eidx; cbn [mk_reader r_tail_bid r_idx r_off r_hydrated startup_cursor fst snd]; auto.
    + lia.
    + intros b _. apply okoff_0.
    + rewrite Hcnt, Eidx, Hun', <- Hst. unfold rebuilt_count, stream, w_ents. rewrite Hwr, app_nil_r, sum_counts_len. lia.
Qed.
End OneTopic.

(* outside the stale class the old position has no lag, so the same ledger fits *)
Lemma TG_reopen c nid nid' ts ts' l B Bb :
  TG c nid ts l B Bb -> Reopened c nid' ts ts' ->
  (forall p, ts_index ts = Some p -> stale_p (memne ts) p = false) ->
  TG c nid' ts' l B Bb /\ (forall x p, ts_index ts' = Some p -> PGood c (nrm x ts') p).
Proof.
  intros (Hsc & Hx) HR Hstale.
  destruct (Hx false) as (Hti & Hp3 & Hdl & Hs & Hu & Hbb).
  assert (HL : Lag c (nrm false ts) []) by (apply (P3_nolag c nid _ Hti Hp3); intros p; rewrite nrm_index, nrm_memne; apply Hstale).
  destruct (HR nid false [] Hti HL) as (Hsc' & Hst & Hnew). rewrite nrm_stream in Hs.
  split.
  - split; [exact Hsc'|]. intros x. destruct (Hnew x) as (A1 & A2 & A3 & A4).
    split; [exact A1|]. split; [apply P3_Lag; auto|]. rewrite nrm_stream, Hst, A4. auto.
  - intros x p Hp. destruct (Hnew x) as (_ & _ & A3 & _). unfold Lag in A3. rewrite nrm_index, Hp in A3. now apply PGood_LagAt.
Qed.

Definition restart_known (c : Cfg) (s : st) : bool := id_drift c s || stale_tail s.

Lemma reopen_disk c s : cfg_ok c -> DIs c s -> BIs c s -> DLim c s ->
  0 < a_next (s_alloc (reopen c s)) /\ DIs c (reopen c s) /\ BIs c (reopen c s) /\ DLim c (reopen c s).
Proof.
  intros Hc Hd Hb Hl. split.
  { destruct (reopen_fields c s) as (_ & _ & F3). rewrite F3. cbn [a_next]. lia. }
  split; [now apply reopen_DIs|].
  split; [now apply reopen_BIs|now apply reopen_DLim].
Qed.

(* every topic after a restart outside block-id drift (a topic the instance never touched is a case of it) *)
Lemma reopen_Reopened c s t : cfg_ok c -> DIs c s -> BIs c s -> DLim c s -> id_drift c s = false ->
  Reopened c (a_next (s_alloc (reopen c s))) (get_ts s t) (get_ts (reopen c s) t).
Proof.
  intros Hc Hd Hb Hl Hdrift. pose proof Hc as (Hh & Hb0 & _).
  destruct (reopen_shape c s t) as (S1 & S2 & S3 & S4 & S6 & Hcase). cbn zeta in *.
  destruct (reopen_chain c s t Hc Hd Hb Hl) as (C1 & C2 & C3 & C4 & _). cbn zeta in *.
  assert (Hum_ids : ts_unmodelled (get_ts (reopen c s) t) = ts_unmodelled (get_ts s t) /\
                map b_id (chain_of (get_ts (reopen c s) t)) = map b_id (memne (get_ts s t))).
  { destruct Hcase as [(old & Hin & Hold & Hrch & S5)|(-> & ->)]; [|split; reflexivity].
    split; [|rewrite Hrch, Hold; now apply nodrift_ids].
    (* the image is well-formed, so the scan flags nothing *)
    rewrite S5, (proj1 (scan0_spec c (fun _ => True) s _ _ Hc Hd)). apply orb_false_r. }
  destruct Hum_ids as (S5 & C0). rewrite mblocks_memne in C1.
  exact (Reopened_Lag c _ _ _ Hh (proj1 (reopen_disk c s Hc Hd Hb Hl)) S1 S2 S3 S4 S5 S6 C1 C0 C2 C3 C4).
Qed.

Theorem G_reopen_nonstale c s g B Bb : cfg_ok c -> G c s g B Bb -> id_drift c s = false ->
  (forall t p, ts_index (get_ts s t) = Some p -> stale_p (memne (get_ts s t)) p = false) ->
  G c (reopen c s) g B Bb /\ PG c (reopen c s).
Proof.
  intros Hc (Hn & Hd & Hb & Hl & Hall) Hdrift Hstale.
  destruct (reopen_disk c s Hc Hd Hb Hl) as (Hn' & Hd' & Hb' & Hl').
  assert (Htopic : forall t, TG c (a_next (s_alloc (reopen c s))) (get_ts (reopen c s) t) (lget g t) B Bb /\
                             (forall x p, ts_index (get_ts (reopen c s) t) = Some p -> PGood c (nrm x (get_ts (reopen c s) t)) p))
    by (intros t; exact (TG_reopen c _ _ _ _ _ B Bb (Hall t) (reopen_Reopened c s t Hc Hd Hb Hl Hdrift) (Hstale t))).
  split; [|intros t x p; exact (proj2 (Htopic t) x p)].
  exact (conj Hn' (conj Hd' (conj Hb' (conj Hl' (fun t => proj1 (Htopic t)))))).
Qed.

Theorem G_reopen c s g B Bb : cfg_ok c -> G c s g B Bb -> restart_known c s = false -> G c (reopen c s) g B Bb.
Proof.
  intros Hc HG Hk. apply orb_false_iff in Hk. destruct Hk as (Hdrift & Hstale).
  apply (G_reopen_nonstale c s g B Bb Hc HG Hdrift). intros t p Hp.
  unfold get_ts in *. destruct (find (fun q => fst q =? t) (s_topics s)) as [[k old]|] eqn:Ef; [|discriminate].
  destruct (find_eqb fst _ _ _ Ef) as (Hin & Hk). cbn in Hk. subst k. cbn [snd] in *.
  eapply nostale; eauto.
Qed.

(* a good position is not stale, so under the invariant PG block-id drift is the only condition *)
Corollary G_reopen_pg c s g B Bb : cfg_ok c -> G c s g B Bb -> PG c s -> id_drift c s = false ->
  G c (reopen c s) g B Bb /\ PG c (reopen c s).
Proof. intros Hc HG Hpg Hd. apply G_reopen_nonstale; auto. now apply (PG_nonstale c). Qed.

(* two states that satisfy the invariant with one and the same ledger agree on every topic's stream, unread
   entries (whichever read path hydrates the reader first) and count *)
Lemma G_same_ledger c s s' g B Bb B' Bb' : G c s g B Bb -> G c s' g B' Bb' ->
  forall t x y,
    stream (get_ts s' t) = stream (get_ts s t) /\
    unread c (nrm x (get_ts s' t)) = unread c (nrm y (get_ts s t)) /\
    cnt (get_ts s' t) = cnt (get_ts s t) /\
    cnt (get_ts s' t) = N.of_nat (length (unread c (nrm x (get_ts s' t)))).
Proof.
  intros HG HG' t x y. destruct (GQ_view P3 c _ g B Bb HG t y) as (_ & S1 & U1 & C1).
  destruct (GQ_view P3 c _ g B' Bb' HG' t x) as (_ & S2 & U2 & C2). rewrite S2, U2, C2, S1, U1, C1, skipn_length. auto.
Qed.

Corollary reopen_cursor c s g B Bb : cfg_ok c -> G c s g B Bb -> restart_known c s = false ->
  forall t x y,
    stream (get_ts (reopen c s) t) = stream (get_ts s t) /\
    unread c (nrm x (get_ts (reopen c s) t)) = unread c (nrm y (get_ts s t)) /\
    cnt (get_ts (reopen c s) t) = cnt (get_ts s t) /\
    cnt (get_ts (reopen c s) t) = N.of_nat (length (unread c (nrm x (get_ts (reopen c s) t)))).
Proof. intros Hc HG Hk. apply (G_same_ledger c s _ g B Bb B Bb HG). now apply G_reopen. Qed.
