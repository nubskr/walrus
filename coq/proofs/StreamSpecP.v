(* StreamSpecP.v — the queue acceptor for histories without overlapping operations is sound
   for the positional C22 acceptor: seq_hist + c22_seq_scan imply c22_verdict_evs = 0.

   [acks]/[vals] are the payloads acknowledged (PUT answered OK) / returned (GET
   answered with a value), in trace order.  The scan gives, for every prefix, the FIFO
   equation  acks pre = vals pre ++ queue  ([scan_split]); seq_hist gives that [acks] lists, per
   client, strictly increasing indices ([seq_acks]; hence no duplicates) and that every answer is
   preceded by its invocation ([seq_resp_inv]).  Positions of [numbered evs] are turned into splits
   evs = pre ++ e :: post. *)
From W Require Import model.Base model.Map model.Cluster spec.StreamSpec proofs.MapP.

Lemma pl_eqb_eq (a b : cpayload) : pl_eqb a b = true -> a = b.
Proof.
  destruct a as [a1 a2], b as [b1 b2]. unfold pl_eqb. cbn [fst snd]. intros H.
  apply andb_true_iff in H. destruct H as [H1 H2].
  apply N.eqb_eq in H1. apply N.eqb_eq in H2. now subst.
Qed.

Lemma pl_eqb_refl (a : cpayload) : pl_eqb a a = true.
Proof. unfold pl_eqb. now rewrite !N.eqb_refl. Qed.

Definition ack1 (e : csub) : list cpayload := match e with EResp c k CROk => [(c, k)] | _ => [] end.
Definition val1 (e : csub) : list cpayload := match e with EResp _ _ (CRVal p) => [p] | _ => [] end.
Definition acks (evs : list csub) : list cpayload := flat_map ack1 evs.
Definition vals (evs : list csub) : list cpayload := flat_map val1 evs.

Lemma acks_cons e r : acks (e :: r) = ack1 e ++ acks r.
Proof. reflexivity. Qed.
Lemma vals_cons e r : vals (e :: r) = val1 e ++ vals r.
Proof. reflexivity. Qed.
Lemma acks_app a b : acks (a ++ b) = acks a ++ acks b.
Proof. apply flat_map_app. Qed.
Lemma vals_app a b : vals (a ++ b) = vals a ++ vals b.
Proof. apply flat_map_app. Qed.

Lemma in_flat_map_split {A B} (f : A -> list B) l p :
  In p (flat_map f l) -> exists pre e post, l = pre ++ e :: post /\ In p (f e).
Proof.
  intros H. apply in_flat_map in H. destruct H as (e & He & Hp). destruct (in_split _ _ He) as (pre & post & ->). eauto.
Qed.

Lemma in_acks_split l p : In p (acks l) ->
  exists pre c k post, l = pre ++ EResp c k CROk :: post /\ p = (c, k).
Proof.
  intros H. destruct (in_flat_map_split _ _ _ H) as (pre & e & post & -> & Hp).
  destruct e as [c k ip n|c k res| | |]; try destruct res; cbn [ack1 In] in Hp; try contradiction.
  destruct Hp as [<-|[]]. eauto 6.
Qed.

Lemma in_vals_split l p : In p (vals l) ->
  exists pre c k post, l = pre ++ EResp c k (CRVal p) :: post.
Proof.
  intros H. destruct (in_flat_map_split _ _ _ H) as (pre & e & post & -> & Hp).
  destruct e as [c k ip n|c k res| | |]; try destruct res; cbn [val1 In] in Hp; try contradiction.
  destruct Hp as [<-|[]]. eauto.
Qed.

Lemma scan_split : forall pre post q, c22_seq_scan q (pre ++ post) = true ->
  exists q1, q ++ acks pre = vals pre ++ q1 /\ c22_seq_scan q1 post = true.
Proof.
  induction pre as [|e pre IH]; intros post q H.
  - exists q. cbn [acks vals flat_map app]. now rewrite app_nil_r.
  - cbn [app] in H. rewrite acks_cons, vals_cons.
    destruct e as [c k ip n|c k res| | |]; try destruct res; cbn [c22_seq_scan ack1 val1 app] in *;
      try (apply IH; assumption).
    + destruct (IH _ _ H) as (q1 & E & Hs). exists q1. split; auto.
      rewrite <- E. rewrite <- app_assoc. reflexivity.
    + destruct q; [|discriminate]. apply IH; auto.
    + destruct q as [|a q0]; [discriminate|]. apply andb_true_iff in H. destruct H as [Ha H].
      apply pl_eqb_eq in Ha. subst a. destruct (IH _ _ H) as (q1 & E & Hs). exists q1. split; auto.
      cbn [app]. now rewrite E.
Qed.

Lemma scan_val pre c k p post : c22_seq_scan [] (pre ++ EResp c k (CRVal p) :: post) = true ->
  exists q, acks pre = vals pre ++ p :: q.
Proof.
  intros H. destruct (scan_split _ _ _ H) as (q1 & E & Hs). cbn [app] in E.
  cbn [c22_seq_scan] in Hs. destruct q1 as [|a q0]; [discriminate|].
  apply andb_true_iff in Hs. destruct Hs as [Ha _]. apply pl_eqb_eq in Ha. subst a.
  now exists q0.
Qed.

Lemma scan_empty pre c k post : c22_seq_scan [] (pre ++ EResp c k CREmpty :: post) = true ->
  acks pre = vals pre.
Proof.
  intros H. destruct (scan_split _ _ _ H) as (q1 & E & Hs). cbn [app] in E.
  cbn [c22_seq_scan] in Hs. destruct q1; [|discriminate]. now rewrite app_nil_r in E.
Qed.

Lemma scan_all evs : c22_seq_scan [] evs = true -> exists q, acks evs = vals evs ++ q.
Proof.
  intros H. rewrite <- (app_nil_r evs) in H. destruct (scan_split _ _ _ H) as (q1 & E & _).
  now exists q1.
Qed.

(* per client (fst) the operation indices (snd) increase strictly along the list *)
Fixpoint cinc (l : list cpayload) : Prop :=
  match l with
  | [] => True
  | a :: r => (forall b, In b r -> fst a = fst b -> snd a < snd b) /\ cinc r
  end.

Lemma cinc_app_l l1 l2 : cinc (l1 ++ l2) -> cinc l1.
Proof.
  induction l1 as [|a l1 IH]; cbn [app cinc]; auto.
  intros [H1 H2]. split; auto. intros b Hb. apply H1. apply in_or_app; auto.
Qed.

Lemma cinc_split l1 a l2 b l3 : cinc (l1 ++ a :: l2 ++ b :: l3) -> fst a = fst b -> snd a < snd b.
Proof.
  induction l1 as [|x l1 IH]; cbn [app cinc].
  - intros [H _]. apply H. apply in_or_app. right. left. reflexivity.
  - intros [_ H]. auto.
Qed.

Lemma cinc_nodup l : cinc l -> nodup_pl l = true.
Proof.
  induction l as [|a l IH]; cbn [cinc nodup_pl]; auto.
  intros [H1 H2]. rewrite (IH H2), andb_true_r.
  destruct (existsb (pl_eqb a) l) eqn:E; auto.
  apply existsb_exists in E. destruct E as (b & Hb & Hab). apply pl_eqb_eq in Hab. subst b.
  specialize (H1 a Hb eq_refl). lia.
Qed.

Definition above (last : list (N * N)) (b : cpayload) : Prop :=
  forall k0, lookup N.compare (fst b) last = Some k0 -> k0 < snd b.

Lemma seq_hist_inv last cur c k ip n r : seq_hist last cur (EInv c k ip n :: r) = true ->
  cur = None /\ (forall k0, lookup N.compare c last = Some k0 -> k0 < k) /\
  seq_hist (ins N.compare c k last) (Some (c, k, ip)) r = true.
Proof.
  cbn [seq_hist]. destruct cur; [discriminate|]. intros H. split; [reflexivity|].
  destruct (lookup N.compare c last) as [k0|]; [|split; [discriminate|exact H]].
  apply andb_true_iff in H. destruct H as [H1 H2]. split; [|exact H2].
  intros k1 E. inversion E; subst. now apply N.ltb_lt.
Qed.

Lemma seq_hist_resp last cur c k res r : seq_hist last cur (EResp c k res :: r) = true ->
  exists ip, cur = Some (c, k, ip) /\ res_fits ip res = true /\ seq_hist last None r = true.
Proof.
  cbn [seq_hist]. destruct cur as [[[c0 k0] ip]|]; [|discriminate]. intros H.
  apply andb_true_iff in H. destruct H as [H H4].
  apply andb_true_iff in H. destruct H as [H H3].
  apply andb_true_iff in H. destruct H as [H1 H2].
  apply N.eqb_eq in H1. apply N.eqb_eq in H2. subst c0 k0. eauto.
Qed.

(* [last0]: [last] before the open operation's invocation put its index in.  The acknowledgements to
   come lie above last0: the open operation's own by its invocation's test, the later ones because
   they lie above [last] *)
Lemma seq_acks : forall evs last cur last0, seq_hist last cur evs = true ->
  match cur with
  | None => last0 = last
  | Some (c, k, _) => last = ins N.compare c k last0 /\ above last0 (c, k)
  end -> cinc (acks evs) /\ Forall (above last0) (acks evs).
Proof.
  induction evs as [|e r IH]; intros last cur last0 H Hc.
  - split; constructor.
  - destruct e as [c k ip n|c k res| | |].
    + (* EInv *) destruct (seq_hist_inv _ _ _ _ _ _ _ H) as (-> & Hlt & H2). subst last0.
      apply (IH _ _ last H2). split; [reflexivity|exact Hlt].
    + (* EResp *) destruct (seq_hist_resp _ _ _ _ _ _ H) as (ip & -> & _ & H4). destruct Hc as [-> Hlt].
      destruct (IH _ _ _ H4 eq_refl) as [Hc Hf]. rewrite Forall_forall in Hf.
      assert (Hf1 : Forall (above last0) (acks r)).
      { apply Forall_forall. intros b Hb k0 E. specialize (Hf b Hb). unfold above in Hf.
        destruct (N.eq_dec (fst b) c) as [e|e].
        - rewrite e in *. rewrite (lookup_ins_same N_cmp_ok) in Hf.
          specialize (Hf k eq_refl). specialize (Hlt k0 E). cbn [snd] in Hlt. lia.
        - rewrite (lookup_ins_other N_cmp_ok) in Hf by auto. auto. }
      rewrite acks_cons. destruct res; cbn [ack1 app]; auto.
      split; [|constructor; assumption]. split; [|exact Hc].
      intros b Hb E. apply (Hf b Hb). cbn [fst] in E. rewrite <- E. apply (lookup_ins_same N_cmp_ok).
    + (* EW *) exact (IH _ _ _ H Hc).
    + (* EX *) exact (IH _ _ _ H Hc).
    + (* EL *) exact (IH _ _ _ H Hc).
Qed.

Definition inv1 (e : csub) : list (N * N * bool) := match e with EInv c k ip _ => [(c, k, ip)] | _ => [] end.
Definition invs (evs : list csub) : list (N * N * bool) := flat_map inv1 evs.
Definition pend (cur : option (N * N * bool)) : list (N * N * bool) := match cur with Some x => [x] | None => [] end.

(* every answer is to an invocation of a fitting kind.  The open operation stands in front of the
   invocations of the prefix: an invocation moves it there, an answer drops it *)
Lemma seq_resp_inv c k res post : forall pre last cur,
  seq_hist last cur (pre ++ EResp c k res :: post) = true ->
  exists ip, res_fits ip res = true /\ In (c, k, ip) (pend cur ++ invs pre).
Proof.
  induction pre as [|e pre IH]; intros last cur H.
  - destruct (seq_hist_resp _ _ _ _ _ _ H) as (ip & -> & F & _). exists ip. split; [exact F|now left].
  - cbn [app] in H. destruct e as [c' k' ip' n'|c' k' res'| | |].
    + (* EInv *) destruct (seq_hist_inv _ _ _ _ _ _ _ H) as (-> & _ & H2). exact (IH _ _ H2).
    + (* EResp *) destruct (seq_hist_resp _ _ _ _ _ _ H) as (ip0 & -> & _ & H').
      destruct (IH _ _ H') as (ip & F & Hin). exists ip. split; [exact F|now right].
    + (* EW *) exact (IH _ _ H).
    + (* EX *) exact (IH _ _ H).
    + (* EL *) exact (IH _ _ H).
Qed.

Lemma seq_resp_inv0 evs pre c k res post : seq_hist [] None evs = true ->
  evs = pre ++ EResp c k res :: post ->
  exists pre1 ip n pre2, pre = pre1 ++ EInv c k ip n :: pre2 /\ res_fits ip res = true.
Proof.
  intros H E. subst evs. destruct (seq_resp_inv _ _ _ _ _ _ _ H) as (ip & F & Hin).
  destruct (in_flat_map_split _ _ _ Hin) as (pre1 & e & pre2 & -> & He).
  destruct e as [c' k' ip' n'| | | |]; try contradiction. destruct He as [He|[]].
  inversion He; subst. eauto 6.
Qed.

Lemma in_number_from {A : Type} (l : list A) : forall i j e, In (j, e) (number_from i l) <->
  exists pre post, l = pre ++ e :: post /\ j = (i + length pre)%nat.
Proof.
  induction l as [|a l IH]; intros i j e; cbn [number_from In].
  - split; [intros []|intros ([|] & post & E & _); discriminate E].
  - rewrite IH. split.
    + intros [H|(pre & post & -> & ->)].
      * inversion H; subst. exists [], l. split; [reflexivity|cbn [length]; lia].
      * exists (a :: pre), post. split; [reflexivity|cbn [length]; lia].
    + intros ([|b pre] & post & E & ->); inversion E; subst; cbn [length].
      * left. f_equal. lia.
      * right. exists pre, post. split; [reflexivity|lia].
Qed.

Lemma in_numbered {A : Type} (l : list A) j e : In (j, e) (numbered l) <->
  exists pre post, l = pre ++ e :: post /\ j = length pre.
Proof. apply (in_number_from l 0%nat). Qed.

Lemma split_nest {A : Type} (pre1 pre2 post : list A) x y :
  (pre1 ++ x :: pre2) ++ y :: post = pre1 ++ x :: (pre2 ++ y :: post).
Proof. now rewrite <- app_assoc. Qed.

Lemma split_lt {A : Type} : forall (preA preB postA postB : list A) x y,
  preA ++ x :: postA = preB ++ y :: postB -> (length preA < length preB)%nat ->
  exists mid, preB = preA ++ x :: mid.
Proof.
  induction preA as [|a preA IH]; intros preB postA postB x y E L.
  - destruct preB as [|b preB]; cbn [length] in L; [lia|].
    cbn [app] in E. inversion E; subst. now exists preB.
  - destruct preB as [|b preB]; cbn [length] in L; [lia|].
    cbn [app] in E. inversion E; subst.
    destruct (IH preB postA postB x y H1) as (mid & Em); [lia|].
    exists mid. cbn [app]. now rewrite Em.
Qed.

Definition ipos (all : list (nat * csub)) (c k : N) (j : nat) : nat :=
  match inv_pos all c k with Some i => i | None => j end.

Definition delivery_of (all : list (nat * csub)) (je : nat * csub) : list (nat * nat * cpayload) :=
  match je with (j, EResp c k (CRVal p)) => [(j, ipos all c k j, p)] | _ => [] end.

Lemma deliv_flat all h : deliveries h all = flat_map (delivery_of all) h.
Proof.
  induction h as [|[j e] h IH]; [reflexivity|].
  destruct e as [c k ip n|c k res| | |]; try destruct res; cbn [deliveries flat_map delivery_of app]; now rewrite IH.
Qed.

Lemma deliv_split evs all d : In d (deliveries (numbered evs) all) <->
  exists pre c k p post, evs = pre ++ EResp c k (CRVal p) :: post /\ d = (length pre, ipos all c k (length pre), p).
Proof.
  rewrite deliv_flat, in_flat_map. split.
  - intros ([j e] & Hi & Hd). destruct e as [c k ip n|c k res| | |]; try destruct res; try contradiction.
    destruct Hd as [<-|[]]. apply in_numbered in Hi. destruct Hi as (pre & post & -> & ->). eauto 7.
  - intros (pre & c & k & p & post & E & ->). eexists (_, _). split; [apply in_numbered; eauto|now left].
Qed.

Lemma deliv_vals all : forall evs i, map snd (deliveries (number_from i evs) all) = vals evs.
Proof.
  induction evs as [|e evs IH]; intros i; [reflexivity|].
  cbn [number_from deliveries vals].
  destruct e as [c k ip n|c k res| | |]; auto.
  destruct res; auto. cbn [map snd]. now rewrite IH.
Qed.

(* [m]: any bound on the invocation's position, so that the bound stays put while the list is walked *)
Lemma inv_pos_le c k ip n post : forall pre s m, (s + length pre <= m)%nat ->
  exists i, inv_pos (number_from s (pre ++ EInv c k ip n :: post)) c k = Some i /\ (i <= m)%nat.
Proof.
  induction pre as [|e pre IH]; intros s m L; cbn [app number_from inv_pos length] in *.
  - rewrite !N.eqb_refl. exists s. split; [reflexivity|lia].
  - specialize (IH (S s) m ltac:(lia)). destruct e as [c' k' ip' n'| | | |]; auto.
    destruct ((c =? c') && (k =? k')); auto. exists s. split; [reflexivity|lia].
Qed.

Lemma ipos_le evs pre c k res post : seq_hist [] None evs = true ->
  evs = pre ++ EResp c k res :: post ->
  (ipos (numbered evs) c k (length pre) <= length pre)%nat.
Proof.
  intros H E. destruct (seq_resp_inv0 _ _ _ _ _ _ H E) as (pre1 & ip & n & pre2 & Ep & _).
  subst pre. rewrite split_nest in E. subst evs.
  destruct (inv_pos_le c k ip n (pre2 ++ EResp c k res :: post) pre1 0%nat (length (pre1 ++ EInv c k ip n :: pre2))) as (i & Ei & Li).
  - rewrite app_length. lia.
  - unfold ipos, numbered. now rewrite Ei.
Qed.

Lemma in_acked evs b p : In p (acked_before (numbered evs) b) ->
  exists pre c k post, evs = pre ++ EResp c k CROk :: post /\ p = (c, k) /\ (length pre < b)%nat.
Proof.
  intros H. apply in_flat_map in H. destruct H as ([i e] & Hi & Hp).
  destruct e as [c k ip n|c k res| | |]; try destruct res; try contradiction.
  destruct (Nat.ltb_spec i b) as [L|]; [|contradiction]. destruct Hp as [<-|[]].
  apply in_numbered in Hi. destruct Hi as (pre & post & -> & ->). eauto 8.
Qed.

(* the values returned are a prefix of the acknowledgements: exactly-once and order in one *)
Lemma seq_vals_cinc evs : seq_hist [] None evs = true -> c22_seq_scan [] evs = true -> cinc (vals evs).
Proof.
  intros Hh Hs. destruct (scan_all _ Hs) as (q & E). apply (cinc_app_l _ q). rewrite <- E.
  apply (seq_acks _ _ _ [] Hh eq_refl).
Qed.

Lemma seq_dup_ok evs : seq_hist [] None evs = true -> c22_seq_scan [] evs = true ->
  c22_dup_ok (numbered evs) = true.
Proof.
  intros Hh Hs. unfold c22_dup_ok, numbered. rewrite deliv_vals. now apply cinc_nodup, seq_vals_cinc.
Qed.

Lemma seq_src_ok evs : seq_hist [] None evs = true -> c22_seq_scan [] evs = true ->
  c22_src_ok (numbered evs) = true.
Proof.
  intros Hh Hs. unfold c22_src_ok. apply forallb_forall. intros d Hd.
  apply deliv_split in Hd. destruct Hd as (pre & c & k & p & post & E & ->). cbn [fst snd].
  assert (Hs' := Hs). rewrite E in Hs'. destruct (scan_val _ _ _ _ _ Hs') as (q & Eq).
  assert (Hp : In p (acks pre)). { rewrite Eq. apply in_or_app. right. now left. }
  destruct (in_acks_split _ _ Hp) as (pre1 & c' & k' & pre2 & Epre & Ep).
  subst pre. rewrite split_nest in E.
  destruct (seq_resp_inv0 _ _ _ _ _ _ Hh E) as (pre0 & ip & n & pre01 & Epre1 & Hfit).
  cbn [res_fits] in Hfit. subst ip. subst pre1. rewrite split_nest in E.
  unfold is_put_inv. apply existsb_exists.
  exists (length pre0, EInv c' k' true n). split.
  - apply in_numbered. eauto.
  - subst p. rewrite pl_eqb_refl. cbn [andb]. apply Nat.ltb_lt.
    rewrite !app_length. cbn [length]. lia.
Qed.

Lemma seq_order_ok evs : seq_hist [] None evs = true -> c22_seq_scan [] evs = true ->
  c22_order_ok (numbered evs) = true.
Proof.
  intros Hh Hs. unfold c22_order_ok. cbv zeta. apply forallb_forall. intros d1 Hd1.
  apply forallb_forall. intros d2 Hd2.
  apply deliv_split in Hd1. destruct Hd1 as (preA & c1 & k1 & p1 & postA & EA & ->).
  apply deliv_split in Hd2. destruct Hd2 as (preB & c2 & k2 & p2 & postB & EB & ->). cbn [fst snd].
  destruct (Nat.ltb (length preA) (ipos (numbered evs) c2 k2 (length preB)) && (fst p1 =? fst p2)) eqn:C; auto.
  apply andb_true_iff in C. destruct C as [C1 C2]. apply Nat.ltb_lt in C1. apply N.eqb_eq in C2.
  assert (L := ipos_le _ _ _ _ _ _ Hh EB).
  assert (E : preA ++ EResp c1 k1 (CRVal p1) :: postA = preB ++ EResp c2 k2 (CRVal p2) :: postB) by congruence.
  destruct (split_lt _ _ _ _ _ _ E) as (mid & Em); [lia|].
  assert (Hc := seq_vals_cinc _ Hh Hs). rewrite EB, Em, !vals_app, !vals_cons in Hc. cbn [val1] in Hc.
  rewrite <- app_assoc in Hc. cbn [app] in Hc.
  apply N.ltb_lt. eapply cinc_split; eauto.
Qed.

Lemma seq_empty_ok evs : seq_hist [] None evs = true -> c22_seq_scan [] evs = true ->
  c22_empty_ok (numbered evs) = true.
Proof.
  intros Hh Hs. unfold c22_empty_ok. cbv zeta. apply forallb_forall. intros [j e] He.
  destruct e as [c k ip n|c k res| | |]; auto. destruct res; auto.
  apply in_numbered in He. destruct He as (pre & post & E & ->).
  change (match inv_pos (numbered evs) c k with Some i => i | None => length pre end)
    with (ipos (numbered evs) c k (length pre)).
  assert (L := ipos_le _ _ _ _ _ _ Hh E).
  apply forallb_forall. intros p Hp.
  destruct (in_acked _ _ _ Hp) as (pre' & c' & k' & post' & E' & Ep & L').
  assert (E2 : pre' ++ EResp c' k' CROk :: post' = pre ++ EResp c k CREmpty :: post) by congruence.
  destruct (split_lt _ _ _ _ _ _ E2) as (mid & Em); [lia|].
  assert (Hs' := Hs). rewrite E in Hs'. assert (Eq := scan_empty _ _ _ _ Hs').
  assert (Hin : In p (vals pre)).
  { rewrite <- Eq, Em, acks_app. apply in_or_app. right. now left. }
  destruct (in_vals_split _ _ Hin) as (preV & cv & kv & postV & EV).
  assert (E3 : evs = preV ++ EResp cv kv (CRVal p) :: (postV ++ EResp c k CREmpty :: post)).
  { rewrite E, EV. apply split_nest. }
  apply existsb_exists.
  exists (length preV, ipos (numbered evs) cv kv (length preV), p). split.
  - apply deliv_split. eauto 7.
  - cbn [fst snd]. rewrite pl_eqb_refl. cbn [andb]. apply Nat.ltb_lt.
    assert (L2 := ipos_le _ _ _ _ _ _ Hh E3).
    rewrite EV, app_length. cbn [length]. lia.
Qed.

Lemma c22_seq_sound : forall evs : list csub,
  seq_hist [] None evs = true -> c22_seq_scan [] evs = true -> c22_verdict_evs evs = 0.
Proof.
  intros evs Hh Hs. unfold c22_verdict_evs. cbv zeta.
  rewrite (seq_dup_ok _ Hh Hs), (seq_src_ok _ Hh Hs), (seq_order_ok _ Hh Hs), (seq_empty_ok _ Hh Hs).
  reflexivity.
Qed.
