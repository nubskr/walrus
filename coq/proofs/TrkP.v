(* TrkP.v — proofs about model/Trk.v (C12): the invariant [Inv], kept by every call that meets [pre];
   [trk_safety]: under the contract every deletion request is [safe_hist]; the two variants of
   set_checkpointed_true, equal where no set flag is marked again ([contract_variants]); reflection
   of the boolean acceptor; [st_addblocks], the closed form for a run of add_block_to_file_state
   calls behind the wrap refutation of props/C12.v. *)
From W Require Import model.Base model.Trk.
From Coq Require Import ZArith ZifyBool ZifyN ZifyNat.

Lemma tlookup_app {A} q k (v : A) l :
  tlookup q (l ++ [(k, v)]) =
  match tlookup q l with Some x => Some x | None => if k =? q then Some v else None end.
Proof.
  induction l as [|[k' v'] r IH]; cbn [tlookup app]; [reflexivity|].
  destruct (k' =? q); [reflexivity|exact IH].
Qed.

Lemma tlookup_tset {A} q k (v : A) l :
  tlookup q (tset k v l) =
  if k =? q then match tlookup k l with Some _ => Some v | None => None end else tlookup q l.
Proof.
  induction l as [|[k' v'] r IH]; cbn [tlookup tset].
  - destruct (k =? q); reflexivity.
  - destruct (k' =? k) eqn:E1.
    + apply N.eqb_eq in E1; subst k'. cbn [tlookup]. destruct (k =? q); reflexivity.
    + cbn [tlookup]. rewrite IH. destruct (k' =? q) eqn:E2; [|reflexivity].
      apply N.eqb_eq in E2; subst k'. rewrite N.eqb_sym in E1. now rewrite E1.
Qed.

Lemma tlookup_in {A} k (v : A) l : tlookup k l = Some v -> In (k, v) l.
Proof.
  induction l as [|[k' v'] r IH]; cbn [tlookup]; [discriminate|].
  destruct (k' =? k) eqn:E; intro H.
  - apply N.eqb_eq in E; subst k'. inversion H; subst. now left.
  - right. now apply IH.
Qed.

Lemma tset_tset {A} k (v v' : A) l : tset k v (tset k v' l) = tset k v l.
Proof.
  induction l as [|[k' w] r IH]; cbn [tset]; [reflexivity|].
  destruct (k' =? k) eqn:E; cbn [tset]; rewrite E; [reflexivity|now rewrite IH].
Qed.

Lemma in_tset {A} k (v : A) l x : In x (tset k v l) -> In x l \/ x = (k, v).
Proof.
  induction l as [|[k' v'] r IH]; cbn [tset]; [tauto|].
  destruct (k' =? k) eqn:E.
  - apply N.eqb_eq in E; subst k'. intros [<-|H]; [now right|left; now right].
  - intros [<-|H]; [left; now left|]. destruct (IH H); [left; now right|now right].
Qed.

Lemma countN_app {A} (p : A -> bool) l x :
  countN p (l ++ [x]) = countN p l + (if p x then 1 else 0).
Proof. induction l as [|y r IH]; cbn [countN app]; [lia|]. rewrite IH. lia. Qed.

Lemma countN_tset {A} (p : N * A -> bool) k (v v0 : A) l :
  tlookup k l = Some v0 ->
  countN p (tset k v l) + (if p (k, v0) then 1 else 0) = countN p l + (if p (k, v) then 1 else 0).
Proof.
  induction l as [|[k' v'] r IH]; cbn [tlookup tset countN]; [discriminate|].
  destruct (k' =? k) eqn:E; intro H.
  - apply N.eqb_eq in E; subst k'. inversion H; subst. cbn [countN]. lia.
  - cbn [countN]. specialize (IH H). lia.
Qed.

Lemma countN_ext {A} (p q : A -> bool) l :
  (forall x, In x l -> p x = q x) -> countN p l = countN q l.
Proof.
  induction l as [|y r IH]; intro H; cbn [countN]; [reflexivity|].
  rewrite (H y (or_introl eq_refl)), IH; [reflexivity|]. intros x Hx. apply H. now right.
Qed.

Lemma countN_split {A} (p q : A -> bool) l :
  countN q l = countN (fun x => q x && p x) l + countN (fun x => q x && negb (p x)) l.
Proof.
  induction l as [|y r IH]; cbn [countN]; [reflexivity|].
  rewrite IH. destruct (q y), (p y); cbn [andb negb]; lia.
Qed.

Lemma countN_pos {A} (p : A -> bool) l x : In x l -> p x = true -> 0 < countN p l.
Proof.
  intros Hx Hp. induction l as [|y r IH]; cbn [countN]; [destruct Hx|].
  destruct Hx as [->|Hx]; [rewrite Hp|specialize (IH Hx)]; lia.
Qed.

Lemma memN_in x l : memN x l = true <-> In x l.
Proof.
  induction l as [|y r IH]; cbn [memN In]; [split; [discriminate|tauto]|].
  rewrite orb_true_iff, N.eqb_eq, IH. tauto.
Qed.

Lemma in_remove_one x y l : In y (remove_one x l) -> In y l.
Proof.
  induction l as [|z r IH]; cbn [remove_one]; [tauto|].
  destruct (z =? x); cbn [In]; [tauto|]. intros [->|H]; [now left|right; now apply IH].
Qed.

Lemma countN_remove_one (p : N -> bool) x l :
  In x l -> countN p (remove_one x l) + (if p x then 1 else 0) = countN p l.
Proof.
  induction l as [|z r IH]; cbn [remove_one countN]; [intros []|].
  destruct (z =? x) eqn:E.
  - apply N.eqb_eq in E; subst z. intros _. lia.
  - intros [->|H]; [rewrite N.eqb_refl in E; discriminate|]. cbn [countN]. specialize (IH H). lia.
Qed.

Lemma inc16_small x : x + 1 < u16_mod -> inc16 x = x + 1.
Proof. apply N.mod_small. Qed.

Lemma dec16_pos x : 0 < x < u16_mod -> dec16 x = x - 1.
Proof.
  intro H. unfold dec16. replace (x + 65535) with (x - 1 + 1 * u16_mod) by (unfold u16_mod; lia).
  rewrite N.mod_add by discriminate. apply N.mod_small. lia.
Qed.

Lemma inc16_lt x : inc16 x < u16_mod.
Proof. apply N.mod_lt. discriminate. Qed.

Lemma dec16_lt x : dec16 x < u16_mod.
Proof. apply N.mod_lt. discriminate. Qed.

Lemma blocks_reg_file t f : t_blocks (reg_file t f) = t_blocks t.
Proof. unfold reg_file. destruct (known t f); reflexivity. Qed.

Lemma fget_reg_file t f f' : fget (reg_file t f) f' = fget t f'.
Proof.
  unfold reg_file. destruct (known t f) eqn:K; [reflexivity|].
  unfold fget, known in *. cbn [t_files]. rewrite tlookup_app.
  destruct (tlookup f' (t_files t)) eqn:L; [reflexivity|].
  destruct (f =? f'); reflexivity.
Qed.

Lemma known_reg_file t f f' : known (reg_file t f) f' = known t f' || (f =? f').
Proof.
  unfold reg_file. destruct (known t f) eqn:K.
  - destruct (f =? f') eqn:E; [|now rewrite orb_false_r].
    apply N.eqb_eq in E; subst f'. now rewrite K.
  - unfold known in *. cbn [t_files]. rewrite tlookup_app.
    destruct (tlookup f' (t_files t)); [reflexivity|]. destruct (f =? f'); reflexivity.
Qed.

Lemma blocks_upd_file t f u : t_blocks (upd_file t f u) = t_blocks t.
Proof. unfold upd_file. destruct (tlookup f (t_files t)); reflexivity. Qed.

Lemma fget_upd_file t f u f' :
  fget (upd_file t f u) f' = if (f =? f') && known t f then u (fget t f) else fget t f'.
Proof.
  unfold upd_file, fget, known. destruct (tlookup f (t_files t)) eqn:L; cbn [t_files].
  - rewrite tlookup_tset, L. destruct (f =? f'); reflexivity.
  - now rewrite andb_false_r.
Qed.

Lemma fget_upd_file_same {A} (pi : fstate -> A) t f u f' :
  (forall fs, pi (u fs) = pi fs) -> pi (fget (upd_file t f u) f') = pi (fget t f').
Proof.
  intro H. rewrite fget_upd_file. destruct (f =? f') eqn:E; [|reflexivity].
  apply N.eqb_eq in E as <-. destruct (known t f); [apply H|reflexivity].
Qed.

Lemma known_upd_file t f u f' : known (upd_file t f u) f' = known t f'.
Proof.
  unfold upd_file, known. destruct (tlookup f (t_files t)) eqn:L; cbn [t_files]; [|reflexivity].
  rewrite tlookup_tset, L. destruct (f =? f') eqn:E; [|reflexivity].
  apply N.eqb_eq in E; subst f'. now rewrite L.
Qed.

Lemma flush_check_ready t f : flush_check t f = if ready (fget t f) then [f] else [].
Proof. unfold flush_check, fget. destruct (tlookup f (t_files t)); reflexivity. Qed.

Lemma fget_unknown t f : known t f = false -> fget t f = fstate0.
Proof. unfold known, fget. destruct (tlookup f (t_files t)); [discriminate|reflexivity]. Qed.

Lemma regs_marked t f :
  regs_in t f = marked_in t f + countN (fun x => in_file f x && negb (bs_flag (snd x))) (t_blocks t).
Proof. apply (countN_split (fun x => bs_flag (snd x))). Qed.

Lemma unmarked_below_regs t id b : tlookup id (t_blocks t) = Some b -> bs_flag b = false ->
  marked_in t (bs_file b) + 1 <= regs_in t (bs_file b).
Proof.
  intros L Fl. rewrite regs_marked.
  enough (0 < countN (fun x => in_file (bs_file b) x && negb (bs_flag (snd x))) (t_blocks t)) by lia.
  apply (countN_pos _ _ (id, b)); [now apply tlookup_in|]. unfold in_file. cbn [snd]. now rewrite N.eqb_refl, Fl.
Qed.

(* the three counts read the block map only *)
Lemma marked_in_blocks t t' f : t_blocks t' = t_blocks t -> marked_in t' f = marked_in t f.
Proof. unfold marked_in. now intros ->. Qed.

Lemma regs_in_blocks t t' f : t_blocks t' = t_blocks t -> regs_in t' f = regs_in t f.
Proof. unfold regs_in. now intros ->. Qed.

Lemma locked_in_blocks t t' g f : t_blocks t' = t_blocks t -> locked_in t' g f = locked_in t g f.
Proof. unfold locked_in, id_in_file. now intros ->. Qed.

Lemma regs_in_set_flag t id b f : tlookup id (t_blocks t) = Some b ->
  regs_in (set_flag t id b) f = regs_in t f.
Proof.
  intro L. pose proof (countN_tset (in_file f) id {| bs_file := bs_file b; bs_flag := true |} b (t_blocks t) L) as C.
  unfold in_file in C at 2 4. cbn [snd bs_file] in C. unfold regs_in, set_flag. cbn [t_blocks]. lia.
Qed.

Lemma marked_in_set_flag t id b f : tlookup id (t_blocks t) = Some b -> bs_flag b = false ->
  marked_in (set_flag t id b) f = marked_in t f + (if bs_file b =? f then 1 else 0).
Proof.
  intros L Fl. pose proof (countN_tset (marked_in_file f) id {| bs_file := bs_file b; bs_flag := true |} b (t_blocks t) L) as C.
  unfold marked_in_file in C at 2 4. cbn [snd bs_file bs_flag] in C. rewrite Fl, andb_false_r, andb_true_r in C.
  unfold marked_in, set_flag. cbn [t_blocks]. lia.
Qed.

(* the block map against the caller's lock set and the history *)
Record BInv (bl : list (N * bstate)) (g : list N) (h : list kcall) : Prop := {
  I_greg : forall id, In id g -> tlookup id bl <> None;
  I_reg : forall id f, In (CRegister id f) h -> exists b, tlookup id bl = Some b /\ bs_file b = f;
  I_flag : forall id b, tlookup id bl = Some b -> bs_flag b = true -> In (CMark id) h
}.

(* one file's counters against the block map, the lock set and the history *)
Definition FOk (fs : fstate) (marked locked : N) (full : Prop) : Prop :=
  f_ckpt fs = marked /\ f_locked fs = locked /\ f_total fs < u16_mod /\ locked < u16_mod /\
  (f_full fs = true -> full).

Definition FInv (t : trk) (g : list N) (h : list kcall) : Prop :=
  forall f, FOk (fget t f) (marked_in t f) (locked_in t g f) (In (CFull f) h).

Definition Inv (t : trk) (g : list N) (h : list kcall) : Prop := BInv (t_blocks t) g h /\ FInv t g h.

Lemma inv0 : Inv trk0 [] [].
Proof. split; [split; cbn; intros; try tauto; discriminate|]. intro f. repeat split. discriminate. Qed.

(* the calls that leave the block map alone; CRegister and the first CMark of a block change it:
   [binv_register], [binv_mark] *)
Lemma binv_step bl g h c : BInv bl g h ->
  match c with CRegister _ _ => False | CLock id => tlookup id bl <> None | _ => True end ->
  BInv bl (lk g c) (h ++ [c]).
Proof.
  intros [G R F] Hc. split.
  - intros x Hx. destruct c as [| | |id|id| | |]; cbn [lk] in Hx; try (now apply G).
    + (* CLock *) destruct Hx as [<-|Hx]; [exact Hc|now apply G].
    + (* CUnlock *) apply G. eapply in_remove_one, Hx.
  - intros id f Hin. apply in_app_or in Hin as [Hin|[->|[]]]; [now apply R|destruct Hc].
  - intros id b L Fl. apply in_or_app. left. exact (F id b L Fl).
Qed.

Lemma binv_register bl g h id f : BInv bl g h -> tlookup id bl = None ->
  BInv (bl ++ [(id, {| bs_file := f; bs_flag := false |})]) g (h ++ [CRegister id f]).
Proof.
  intros [G R F] L. split.
  - intros x Hx. rewrite tlookup_app. specialize (G x Hx). destruct (tlookup x bl); [discriminate|contradiction].
  - intros id' f' Hin. rewrite tlookup_app. apply in_app_or in Hin as [Hin|[E|[]]].
    + destruct (R _ _ Hin) as [b [-> Fb]]. now exists b.
    + inversion E; subst id' f'. rewrite L, N.eqb_refl. now eexists.
  - intros id' b. rewrite tlookup_app. intros E Fl. apply in_or_app. left. apply (F id' b); [|exact Fl].
    destruct (tlookup id' bl); [exact E|]. destruct (id =? id'); [|discriminate]. inversion E; subst b. discriminate.
Qed.

Lemma binv_mark bl g h id b : BInv bl g h -> tlookup id bl = Some b ->
  BInv (tset id {| bs_file := bs_file b; bs_flag := true |} bl) g (h ++ [CMark id]).
Proof.
  intros [G R F] L. split.
  - intros x Hx. rewrite tlookup_tset, L. destruct (id =? x); [discriminate|now apply G].
  - intros id' f' Hin. rewrite tlookup_tset, L. apply in_app_or in Hin as [Hin|[E|[]]]; [|discriminate].
    destruct (R _ _ Hin) as [b' [Lb Fb]]. destruct (id =? id') eqn:E; [|now exists b'].
    apply N.eqb_eq in E; subst id'. rewrite L in Lb. inversion Lb; subst b'. now eexists.
  - intros id' b'. rewrite tlookup_tset, L. destruct (id =? id') eqn:E; intros Lb Fl; apply in_or_app.
    + apply N.eqb_eq in E; subst id'. right. now left.
    + left. now apply (F id' b').
Qed.

Lemma finv_snoc t g h c : FInv t g h -> FInv t g (h ++ [c]).
Proof. intros I f. destruct (I f) as (Ck & Lk & Bt & Bl & Fu). repeat split; auto. intro Hf. apply in_or_app. left. now apply Fu. Qed.

Lemma finv_reg_file t g h f : FInv t g h -> FInv (reg_file t f) g h.
Proof.
  intros I f'. rewrite fget_reg_file, (marked_in_blocks t), (locked_in_blocks t) by apply blocks_reg_file. apply I.
Qed.

Lemma finv_upd_file t g h f u : FInv t g h ->
  (forall fs, f_ckpt (u fs) = f_ckpt fs) -> (forall fs, f_locked (u fs) = f_locked fs) ->
  f_total (u (fget t f)) < u16_mod -> (f_full (u (fget t f)) = true -> In (CFull f) h) ->
  FInv (upd_file t f u) g h.
Proof.
  intros I Hc Hl Ht Hf f'. specialize (I f').
  rewrite fget_upd_file, (marked_in_blocks t), (locked_in_blocks t) by apply blocks_upd_file.
  destruct ((f =? f') && known t f) eqn:E; [|exact I].
  apply andb_true_iff in E as [E _]. apply N.eqb_eq in E; subst f'.
  destruct I as (Ck & Lk & Bt & Bl & Fu). unfold FOk. rewrite Hc, Hl. tauto.
Qed.

Lemma finv_register t g h id f : FInv t g h -> (forall x, In x g -> tlookup x (t_blocks t) <> None) ->
  FInv {| t_blocks := t_blocks t ++ [(id, {| bs_file := f; bs_flag := false |})]; t_files := t_files t |} g h.
Proof.
  intros I G f'. specialize (I f'). change (fget _ f') with (fget t f').
  unfold marked_in, locked_in in *. cbn [t_blocks].
  rewrite countN_app, (countN_ext (id_in_file _ f') (id_in_file t f')).
  - unfold marked_in_file at 2. cbn [snd bs_flag]. now rewrite andb_false_r, N.add_0_r.
  - intros x Hx. unfold id_in_file. cbn [t_blocks]. rewrite tlookup_app.
    specialize (G x Hx). destruct (tlookup x (t_blocks t)); [reflexivity|contradiction].
Qed.

Lemma finv_lock t g h id b : FInv t g h -> tlookup id (t_blocks t) = Some b ->
  known t (bs_file b) = true -> f_locked (fget t (bs_file b)) + 1 < u16_mod ->
  FInv (upd_file t (bs_file b) add_locked) (id :: g) h.
Proof.
  intros I L K B f'. specialize (I f').
  rewrite fget_upd_file, K, andb_true_r, (marked_in_blocks t), (locked_in_blocks t) by apply blocks_upd_file.
  unfold locked_in. cbn [countN]. unfold id_in_file at 1. rewrite L. fold (locked_in t g f').
  destruct (bs_file b =? f') eqn:E; [|exact I].
  apply N.eqb_eq in E; subst f'. destruct I as (Ck & Lk & Bt & Bl & Fu). unfold FOk.
  cbn [add_locked f_locked f_ckpt f_total f_full]. rewrite inc16_small by exact B. repeat split; auto; lia.
Qed.

Lemma finv_unlock t g h id b : FInv t g h -> tlookup id (t_blocks t) = Some b -> In id g ->
  FInv (upd_file t (bs_file b) sub_locked) (remove_one id g) h.
Proof.
  intros I L M f'.
  assert (C : forall f', locked_in t (remove_one id g) f' + (if bs_file b =? f' then 1 else 0) = locked_in t g f').
  { intro f0. pose proof (countN_remove_one (id_in_file t f0) id g M) as C.
    unfold id_in_file at 2 in C. now rewrite L in C. }
  (* the file of a locked block has a nonzero counter, hence is known *)
  assert (K : known t (bs_file b) = true).
  { destruct (known t (bs_file b)) eqn:K; [reflexivity|]. destruct (I (bs_file b)) as (_ & Lk & _).
    specialize (C (bs_file b)). rewrite <- Lk, (fget_unknown _ _ K), N.eqb_refl in C. cbn in C. lia. }
  specialize (C f'). destruct (I f') as (Ck & Lk & Bt & Bl & Fu).
  rewrite fget_upd_file, K, andb_true_r, (marked_in_blocks t), (locked_in_blocks t) by apply blocks_upd_file.
  unfold FOk. destruct (bs_file b =? f') eqn:E; [|repeat split; auto; lia].
  apply N.eqb_eq in E; subst f'. cbn [sub_locked f_locked f_ckpt f_total f_full]. rewrite dec16_pos by lia. repeat split; auto; lia.
Qed.

(* the first mark of a block: every registered block of the file is counted in its total, this
   one is not yet marked, so the checkpointed counter stays below the total and does not wrap *)
Lemma finv_mark t g h id b : FInv t g h -> tlookup id (t_blocks t) = Some b -> bs_flag b = false ->
  known t (bs_file b) = true -> paired t (bs_file b) = true ->
  FInv (upd_file (set_flag t id b) (bs_file b) add_ckpt) g h.
Proof.
  intros I L Fl K Pd f'. specialize (I f').
  pose proof (unmarked_below_regs t id b L Fl) as Hone.
  rewrite fget_upd_file, (marked_in_blocks (set_flag t id b)), (locked_in_blocks (set_flag t id b)), marked_in_set_flag
    by auto using blocks_upd_file.
  change (known (set_flag t id b)) with (known t). change (fget (set_flag t id b)) with (fget t). rewrite K, andb_true_r.
  unfold locked_in. rewrite (countN_ext (id_in_file (set_flag t id b) f') (id_in_file t f')); fold (locked_in t g f').
  - destruct (bs_file b =? f') eqn:E; [|now rewrite N.add_0_r].
    apply N.eqb_eq in E; subst f'. destruct I as (Ck & Lk & Bt & Bl & Fu). unfold FOk, paired in *.
    cbn [add_ckpt f_locked f_ckpt f_total f_full]. rewrite inc16_small by lia. repeat split; auto; lia.
  - intros x _. unfold id_in_file. cbn [set_flag t_blocks].
    rewrite tlookup_tset, L. destruct (id =? x) eqn:E; [|reflexivity]. apply N.eqb_eq in E; subst x. now rewrite L.
Qed.

Lemma step_inv fixed t g h c :
  Inv t g h -> pre fixed t g c = true -> Inv (fst (trk_step fixed t c)) (lk g c) (h ++ [c]).
Proof.
  intros [IB IF] P. pose proof (finv_snoc t g h c IF) as IF'.
  destruct c as [id f|f|f|id|id|id|f|f]; cbn [trk_step pre lk fst] in *.
  - (* CRegister *) destruct (tlookup id (t_blocks t)) eqn:L; [discriminate|].
    split; [now apply binv_register|apply finv_register; [exact IF'|apply IB]].
  - (* CRegFile *) split; [rewrite blocks_reg_file; now apply (binv_step _ _ _ (CRegFile f))|now apply finv_reg_file].
  - (* CAddBlock *) split; [rewrite blocks_upd_file, blocks_reg_file; now apply (binv_step _ _ _ (CAddBlock f))|].
    apply finv_upd_file; [now apply finv_reg_file|reflexivity|reflexivity|apply inc16_lt|].
    rewrite fget_reg_file. apply IF'.
  - (* CLock *) destruct (tlookup id (t_blocks t)) as [b|] eqn:L; [|discriminate].
    apply andb_true_iff in P as [K B]. apply N.ltb_lt in B. cbn [fst].
    split; [rewrite blocks_upd_file; apply (binv_step _ _ _ (CLock id)); [exact IB|now rewrite L]|now apply finv_lock].
  - (* CUnlock *) destruct (tlookup id (t_blocks t)) as [b|] eqn:L; [|discriminate].
    apply andb_true_iff in P as [M _]. apply memN_in in M. cbn [fst].
    split; [rewrite blocks_upd_file; now apply (binv_step _ _ _ (CUnlock id))|now apply finv_unlock].
  - (* CMark *) destruct (tlookup id (t_blocks t)) as [b|] eqn:L; [|split; [now apply (binv_step _ _ _ (CMark id))|exact IF']].
    destruct (bs_flag b) eqn:Fl.
    + (* repeated mark: only the idempotent variant is allowed here, and it does nothing *)
      subst fixed. split; [now apply (binv_step _ _ _ (CMark id))|exact IF'].
    + rewrite andb_false_r. apply andb_true_iff in P as [K Pd]. cbn [fst].
      split; [rewrite blocks_upd_file; now apply binv_mark|now apply finv_mark].
  - (* CFull *) split; [rewrite blocks_upd_file, blocks_reg_file; now apply (binv_step _ _ _ (CFull f))|].
    apply finv_upd_file; [now apply finv_reg_file|reflexivity|reflexivity|rewrite fget_reg_file; apply IF|].
    intros _. apply in_or_app. right. now left.
  - (* CFlush *) split; [now apply (binv_step _ _ _ (CFlush f))|exact IF'].
Qed.

Definition st_from (fixed : bool) (t : trk) (p : list kcall) : trk :=
  fold_left (fun t c => fst (trk_step fixed t c)) p t.
Definition lk_from (g : list N) (p : list kcall) : list N := fold_left lk p g.

Lemma trk_st_from fixed p : trk_st fixed p = st_from fixed trk0 p.
Proof. reflexivity. Qed.

Lemma locked_ids_from p : locked_ids p = lk_from [] p.
Proof. reflexivity. Qed.

Lemma flush_check_in t f0 f : In f (flush_check t f0) -> f = f0 /\ ready (fget t f0) = true.
Proof.
  rewrite flush_check_ready. destruct (ready (fget t f0)); [|intros []]. intros [<-|[]]. now split.
Qed.

Lemma paired_reg_file t f f' : paired (reg_file t f) f' = paired t f'.
Proof. unfold paired. now rewrite (regs_in_blocks t), fget_reg_file by apply blocks_reg_file. Qed.

Lemma paired_upd_file t f u f' : (forall fs, f_total (u fs) = f_total fs) ->
  paired (upd_file t f u) f' = paired t f'.
Proof.
  intro H. unfold paired. now rewrite (regs_in_blocks t), (fget_upd_file_same f_total) by auto using blocks_upd_file.
Qed.

Lemma step_req fixed t g c f :
  pre fixed t g c = true -> In f (snd (trk_step fixed t c)) ->
  ready (fget (fst (trk_step fixed t c)) f) = true /\ paired (fst (trk_step fixed t c)) f = true.
Proof.
  intros P Hin.
  destruct c as [id f0|f0|f0|id|id|id|f0|f0]; cbn [trk_step pre snd fst] in *; try (destruct Hin; fail).
  - (* CLock *) destruct (tlookup id (t_blocks t)); destruct Hin.
  - (* CUnlock *) destruct (tlookup id (t_blocks t)) as [b|] eqn:L; [|destruct Hin]. cbn [snd fst] in *.
    apply andb_true_iff in P as [_ Pd]. apply flush_check_in in Hin as [-> R].
    split; [exact R|]. now rewrite paired_upd_file.
  - (* CMark *) destruct (tlookup id (t_blocks t)) as [b|] eqn:L; [|destruct Hin].
    destruct (fixed && bs_flag b) eqn:FB; [destruct Hin|]. cbn [snd fst] in *.
    destruct (bs_flag b) eqn:Fl; [rewrite andb_true_r in FB; subst fixed; discriminate|].
    apply andb_true_iff in P as [_ Pd]. apply flush_check_in in Hin as [-> R].
    split; [exact R|]. rewrite paired_upd_file by reflexivity.
    unfold paired. now rewrite regs_in_set_flag.
  - (* CFull *) apply flush_check_in in Hin as [-> R]. split; [exact R|]. now rewrite paired_upd_file, paired_reg_file.
  - (* CFlush *) apply flush_check_in in Hin as [-> R]. now split.
Qed.

(* total <= checkpointed = marked <= registered <= total *)
Lemma ready_file_safe t g h f :
  FInv t g h -> paired t f = true -> ready (fget t f) = true -> file_safe t g f = true.
Proof.
  intros I Pd R. unfold ready in R. repeat (apply andb_true_iff in R; destruct R as [R ?]).
  pose proof (regs_marked t f). destruct (I f) as (Ck & Lk & _).
  unfold file_safe, paired in *. rewrite R. cbn [andb]. apply andb_true_iff. split; lia.
Qed.

(* the history-level reading of "safe to delete" *)
Definition safe_hist (h : list kcall) (f : N) : Prop :=
  In (CFull f) h /\
  forall id, In (CRegister id f) h -> In (CMark id) h /\ ~ In id (locked_ids h).

Lemma file_safe_hist t g h f : Inv t g h -> file_safe t g f = true ->
  In (CFull f) h /\ forall id, In (CRegister id f) h -> In (CMark id) h /\ ~ In id g.
Proof.
  intros [[_ Rg Fg] I] S. unfold file_safe in S.
  apply andb_true_iff in S as [S Z]. apply andb_true_iff in S as [Hf E].
  apply N.eqb_eq in E, Z. split; [now apply I|]. intros id Hreg.
  destruct (Rg _ _ Hreg) as [b [Lb <-]]. split.
  - apply (Fg id b Lb). destruct (bs_flag b) eqn:Fl; [reflexivity|].
    pose proof (unmarked_below_regs t id b Lb Fl). lia.
  - intro Hin. enough (0 < locked_in t g (bs_file b)) by lia.
    apply (countN_pos _ _ id Hin). unfold id_in_file. now rewrite Lb, N.eqb_refl.
Qed.

Lemma inv_from fixed : forall p t g h r,
  Inv t g h -> contract_from fixed t g (p ++ r) = true -> Inv (st_from fixed t p) (lk_from g p) (h ++ p).
Proof.
  induction p as [|c p IH]; intros t g h r I C; cbn [app contract_from st_from lk_from fold_left] in *.
  - now rewrite app_nil_r.
  - apply andb_true_iff in C as [P C]. replace (h ++ c :: p) with ((h ++ [c]) ++ p) by now rewrite <- app_assoc.
    exact (IH _ _ _ r (step_inv fixed t g h c I P) C).
Qed.

Lemma trace_safe_of_contract fixed : forall cs t g h,
  Inv t g h -> contract_from fixed t g cs = true -> trace_safe_from fixed t g cs = true.
Proof.
  induction cs as [|c cs IH]; intros t g h I C; cbn [contract_from trace_safe_from] in *; [reflexivity|].
  apply andb_true_iff in C as [P C].
  pose proof (step_inv fixed t g h c I P) as I1. pose proof (step_req fixed t g c) as Rq.
  destruct (trk_step fixed t c) as [t1 o]. cbn [fst snd] in *.
  apply andb_true_iff. split; [|now apply (IH _ _ _ I1)].
  apply forallb_forall. intros f Hf. destruct (Rq f P Hf) as [R Pd].
  exact (ready_file_safe _ _ _ f (proj2 I1) Pd R).
Qed.

Lemma trace_safe_means fixed : forall p t g c rest,
  trace_safe_from fixed t g (p ++ c :: rest) = true ->
  forall f, In f (snd (trk_step fixed (st_from fixed t p) c)) ->
  file_safe (st_from fixed t (p ++ [c])) (lk_from g (p ++ [c])) f = true.
Proof.
  induction p as [|x p IH]; intros t g c rest H f Hin; cbn [app trace_safe_from st_from lk_from fold_left] in *.
  - destruct (trk_step fixed t c) as [t1 o]. cbn [fst snd] in *.
    apply andb_true_iff in H as [H _]. rewrite forallb_forall in H. now apply H.
  - destruct (trk_step fixed t x) as [t1 o] eqn:S. cbn [fst].
    apply andb_true_iff in H as [_ H]. eapply IH; eauto.
Qed.

Theorem trk_safety fixed cs : contract fixed cs ->
  forall p c rest, cs = p ++ c :: rest ->
  forall f, In f (snd (trk_step fixed (trk_st fixed p) c)) -> safe_hist (p ++ [c]) f.
Proof.
  intros C p c rest -> f Hin. unfold safe_hist. rewrite trk_st_from in Hin. rewrite locked_ids_from.
  pose proof (trace_safe_means fixed p trk0 [] c rest (trace_safe_of_contract fixed _ trk0 [] [] inv0 C) f Hin) as S.
  change (p ++ c :: rest) with (p ++ [c] ++ rest) in C. rewrite app_assoc in C.
  exact (file_safe_hist _ _ _ f (inv_from fixed (p ++ [c]) trk0 [] [] rest inv0 C) S).
Qed.

Lemma run_cons fixed t c r :
  trk_run_from fixed t (c :: r) =
    (fst (trk_run_from fixed (fst (trk_step fixed t c)) r),
     snd (trk_step fixed t c) ++ snd (trk_run_from fixed (fst (trk_step fixed t c)) r)).
Proof.
  cbn [trk_run_from]. destruct (trk_step fixed t c) as [t1 o1]. cbn [fst snd].
  now destruct (trk_run_from fixed t1 r).
Qed.

Lemma run_from_st fixed : forall p t, fst (trk_run_from fixed t p) = st_from fixed t p.
Proof. induction p as [|c p IH]; intro t; [reflexivity|]. rewrite run_cons. apply IH. Qed.

Lemma run_from_app fixed : forall p t r,
  trk_run_from fixed t (p ++ r) =
  (fst (trk_run_from fixed (st_from fixed t p) r), snd (trk_run_from fixed t p) ++ snd (trk_run_from fixed (st_from fixed t p) r)).
Proof.
  induction p as [|c p IH]; intros t r.
  - cbn. now destruct (trk_run_from fixed t r).
  - cbn [app]. rewrite !run_cons, IH. cbn [fst snd]. now rewrite app_assoc.
Qed.

Lemma requests_split_from fixed : forall cs t f, In f (snd (trk_run_from fixed t cs)) ->
  exists p c rest, cs = p ++ c :: rest /\ In f (snd (trk_step fixed (st_from fixed t p) c)).
Proof.
  induction cs as [|c cs IH]; intros t f Hin; [destruct Hin|].
  rewrite run_cons in Hin. cbn [snd] in Hin. apply in_app_or in Hin as [Hin|Hin].
  - now exists [], c, cs.
  - destruct (IH _ _ Hin) as [p [c' [rest [-> H]]]]. now exists (c :: p), c', rest.
Qed.

(* what of [safe_hist] at a prefix still holds of the whole sequence: full and marked, not "unlocked" *)
Lemma safe_hist_mono p c rest f : safe_hist (p ++ [c]) f ->
  In (CFull f) (p ++ c :: rest) /\
  forall id, In (CRegister id f) (p ++ [c]) -> In (CMark id) (p ++ c :: rest).
Proof.
  intros [F H]. replace (p ++ c :: rest) with ((p ++ [c]) ++ rest) by now rewrite <- app_assoc.
  split; [apply in_or_app; now left|]. intros id Hr. apply in_or_app. left. now apply H.
Qed.

(* the two variants differ exactly where a set flag is marked again *)
Definition mark_again (t : trk) (c : kcall) : bool :=
  match c with
  | CMark id => match tlookup id (t_blocks t) with Some b => bs_flag b | None => false end
  | _ => false
  end.

Lemma step_variants t c : mark_again t c = false -> trk_step false t c = trk_step true t c.
Proof.
  destruct c as [| | | | |id| |]; cbn [trk_step mark_again]; try reflexivity.
  destruct (tlookup id (t_blocks t)) as [b|]; [|reflexivity]. now intros ->.
Qed.

Lemma pre_variants t g c : pre false t g c = pre true t g c && negb (mark_again t c).
Proof.
  destruct c as [| | | | |id| |]; cbn [pre mark_again]; try (now rewrite andb_true_r).
  destruct (tlookup id (t_blocks t)) as [b|]; [|reflexivity]. destruct (bs_flag b); [reflexivity|now rewrite andb_true_r].
Qed.

Lemma run_variants : forall cs t, marks_repeated_from t cs = false ->
  trk_run_from false t cs = trk_run_from true t cs.
Proof.
  induction cs as [|c cs IH]; intros t M; [reflexivity|].
  change (mark_again t c || marks_repeated_from (fst (trk_step false t c)) cs = false) in M.
  apply orb_false_iff in M as [M1 M]. cbn [trk_run_from].
  rewrite <- (step_variants t c M1). destruct (trk_step false t c) as [t1 o1]. now rewrite (IH t1 M).
Qed.

Lemma contract_variants : forall cs t g,
  contract_from false t g cs = contract_from true t g cs && negb (marks_repeated_from t cs).
Proof.
  induction cs as [|c cs IH]; intros t g; [reflexivity|].
  change (marks_repeated_from t (c :: cs)) with (mark_again t c || marks_repeated_from (fst (trk_step false t c)) cs).
  cbn [contract_from]. rewrite pre_variants, IH. destruct (mark_again t c) eqn:M.
  - now rewrite !andb_false_r.
  - rewrite (step_variants t c M), !andb_true_r. apply andb_assoc.
Qed.

Lemma no_repeat_of_contract_from : forall cs t g,
  contract_from false t g cs = true -> marks_repeated_from t cs = false.
Proof.
  intros cs t g C. rewrite contract_variants in C. apply andb_prop in C. now apply negb_true_iff.
Qed.

Lemma contract_of_no_repeat cs :
  contract true cs -> marks_repeated cs = false -> contract false cs.
Proof. unfold contract, contract_ok, marks_repeated. rewrite contract_variants. now intros -> ->. Qed.

(* A run of add_block_to_file_state calls for one known file only moves that file's total,
   by the number of calls modulo 2^16. *)
Definition with_total (fs : fstate) (n : N) : fstate :=
  {| f_locked := f_locked fs; f_ckpt := f_ckpt fs; f_total := n; f_full := f_full fs |}.

Lemma step_addblock fixed t f fs : tlookup f (t_files t) = Some fs ->
  fst (trk_step fixed t (CAddBlock f)) =
  {| t_blocks := t_blocks t; t_files := tset f (add_total fs) (t_files t) |}.
Proof. intro L. cbn [trk_step fst]. unfold reg_file, known. rewrite L. unfold upd_file. now rewrite L. Qed.

Lemma st_addblocks fixed f : forall n t fs, tlookup f (t_files t) = Some fs ->
  st_from fixed t (repeat (CAddBlock f) (N.to_nat (N.succ n))) =
  {| t_blocks := t_blocks t;
     t_files := tset f (with_total fs ((f_total fs + N.succ n) mod u16_mod)) (t_files t) |}.
Proof.
  induction n as [|n IH] using N.peano_ind; intros t fs L.
  - change (st_from fixed t (repeat (CAddBlock f) (N.to_nat (N.succ 0))))
      with (fst (trk_step fixed t (CAddBlock f))).
    now rewrite (step_addblock fixed t f fs L).
  - rewrite (N2Nat.inj_succ (N.succ n)).
    change (st_from fixed t (repeat (CAddBlock f) (S (N.to_nat (N.succ n)))))
      with (st_from fixed (fst (trk_step fixed t (CAddBlock f))) (repeat (CAddBlock f) (N.to_nat (N.succ n)))).
    rewrite (step_addblock fixed t f fs L), (IH _ (add_total fs)); cbn [t_blocks t_files].
    + rewrite tset_tset. unfold with_total, add_total, inc16. cbn [f_locked f_ckpt f_total f_full].
      rewrite N.add_mod_idemp_l by discriminate. do 4 f_equal. lia.
    + now rewrite tlookup_tset, N.eqb_refl, L.
Qed.

Lemma reregistered_from_app : forall p t r,
  reregistered_from t (p ++ r) = reregistered_from t p || reregistered_from (st_from false t p) r.
Proof.
  unfold st_from. induction p as [|c p IH]; intros t r; [reflexivity|].
  cbn [app reregistered_from fold_left]. rewrite IH. apply orb_assoc.
Qed.

Lemma marks_repeated_from_app : forall p t r,
  marks_repeated_from t (p ++ r) = marks_repeated_from t p || marks_repeated_from (st_from false t p) r.
Proof.
  unfold st_from. induction p as [|c p IH]; intros t r; [reflexivity|].
  cbn [app marks_repeated_from fold_left]. rewrite IH. apply orb_assoc.
Qed.

Lemma reregistered_addblocks f n : forall t, reregistered_from t (repeat (CAddBlock f) n) = false.
Proof. induction n as [|n IH]; intro t; [reflexivity|]. cbn [repeat reregistered_from orb]. apply IH. Qed.

Lemma marks_repeated_addblocks f n : forall t, marks_repeated_from t (repeat (CAddBlock f) n) = false.
Proof. induction n as [|n IH]; intro t; [reflexivity|]. cbn [repeat marks_repeated_from orb]. apply IH. Qed.
