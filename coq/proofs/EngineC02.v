(* EngineC02.v — non-consuming reads.  ((a), erasing them from a history changes no other
   answer, is in EngineErase.v, EngineEraseD.v, EngineEraseR.v.)
   (c) every batch read (stateful or offset-addressed) returns sub-ranges of entries of the
       topic's stream, in stream order — purely structural, no invariant needed;
   (b) a peek returns what the immediately following consuming read with the same arguments
       returns. *)
From W Require Import model.Base model.Engine spec.Queue proofs.EngineBasic proofs.EngineWF proofs.EngineInv
  proofs.EnginePos proofs.EngineRd proofs.EngineBR proofs.EngineMain proofs.EngineNorm.

Lemma ents_from_sub c es off : subseq (ents_from c es off) es.
Proof. destruct (ents_from_suffix c es off) as (k & _ & ->). rewrite <- (firstn_skipn k es) at 2. apply subseq_app_r. Qed.

Definition covers (o : out) (e : entry) : Prop := o_pid o = e_pid e /\ o_skip o + o_len o = e_len e.

(* greedy matching finds every in-order embedding *)
Lemma outs_subranges_sub : forall os L S,
  Forall2 covers os L -> subseq L S -> outs_subranges S os = true.
Proof.
  induction os as [|o os IH]; intros L S HF Hs; [reflexivity|].
  inversion HF as [|o' e os' L' Hc HF']; subst. cbn [outs_subranges].
  induction S as [|x S IHS]; [inversion Hs|].
  cbn [find_entry_from].
  destruct ((((e_pid x =? o_pid o) && (o_skip o + o_len o <=? e_len x))
             || ((o_len o =? 0) && (o_skip o <=? e_len x) && (e_len x =? o_skip o)))) eqn:Ex.
  - apply (IH L' S HF'). inversion Hs; subst; [assumption|eapply subseq_tail; eauto].
  - inversion Hs; subst.
    + exfalso. destruct Hc as (Hp & Hl). rewrite Hp, N.eqb_refl in Ex. cbn in Ex.
      assert (o_skip o + o_len o <=? e_len x = true) by lia. rewrite H in Ex. discriminate.
    + apply IHS. assumption.
Qed.

Lemma outs_of_covers t l : Forall2 covers (outs_of t l) l.
Proof.
  assert (H : forall t e, covers (trim_out t e) e) by (intros; unfold covers; cbn; split; [reflexivity|lia]).
  destruct l as [|e r]; constructor; [apply H|]. induction r; constructor; [apply H|assumption].
Qed.

Lemma parse_plan_outs c maxb : forall plan p,
  exists outs L, ps_outs (parse_plan c maxb plan p) = rev outs ++ ps_outs p /\
                 Forall2 covers outs L /\ subseq L (flat_map (item_ents c) plan).
Proof.
  induction plan as [|it plan IH]; intros p; cbn [parse_plan].
  - exists [], []. repeat split; constructor.
  - destruct ((c_max_entries c <=? ps_n p) || ps_stop p); [exists [], []; repeat split; constructor|].
    destruct (parse_range_spec c maxb it (ents_from c (b_ents (pi_blk it)) (pi_start it)) (pi_start it) p) as (j & Hr).
    pose proof (ro_outs _ _ _ _ _ _ _ _ Hr) as Ho1. set (o1 := outs_of (ps_trim p) (firstn j (item_ents c it))).
    destruct (IH (parse_range c maxb it (ents_from c (b_ents (pi_blk it)) (pi_start it)) (pi_start it) p)) as (o2 & L2 & Ho2 & HF2 & Hs2).
    exists (o1 ++ o2), (firstn j (item_ents c it) ++ L2). split; [|split].
    + rewrite Ho2, Ho1, rev_app_distr, <- app_assoc. reflexivity.
    + apply Forall2_app; [apply outs_of_covers|exact HF2].
    + cbn [flat_map]. apply subseq_app; [apply subseq_firstn|exact Hs2].
Qed.

(* the planner walks the chain forwards: the entries of its ranges are entries of [rest], in order *)
Lemma plan_sealed_src c maxb stateless : forall rest idx off hint planned acc,
  let '(acc', _, _, _) := plan_sealed c maxb stateless rest idx off hint planned acc in
  exists items, acc' = rev items ++ acc /\ subseq (flat_map (item_ents c) items) (chain_ents rest).
Proof.
  induction rest as [|b rest IH]; intros idx off hint planned acc; cbn [plan_sealed].
  - exists []. split; constructor.
  - destruct (negb ((planned <? maxb) || match acc with [] => true | _ => false end)).
    { exists []. split; constructor. }
    destruct (b_used b <=? off).
    { specialize (IH (S idx) 0 0 planned acc). destruct (plan_sealed _ _ _ rest _ _ _ _ _) as [[[a ?] ?] ?].
      destruct IH as (items & -> & Hs). exists items. split; [reflexivity|exact (subseq_trans _ _ _ Hs (subseq_app_r _ _))]. }
    (* whatever the end [e] of the planned range is: truncated, or on to the next block; the
       block contributes an item iff off < e *)
    set (e := N.min (b_used b) _).
    destruct (e <? b_used b).
    + destruct (off <? e); [|exists []; split; constructor].
      eexists [_]. split; [reflexivity|]. apply subseq_app; [apply ents_from_sub|constructor].
    + match goal with |- context [plan_sealed c maxb stateless rest ?i ?o ?h ?pl ?ac] => specialize (IH i o h pl ac) end.
      destruct (plan_sealed _ _ _ rest _ _ _ _ _) as [[[a ?] ?] ?].
      destruct IH as (items & -> & Hs).
      destruct (off <? e); [|exists items; split; [reflexivity|exact (subseq_trans _ _ _ Hs (subseq_app_r _ _))]].
      eexists (_ :: items). cbn [rev]. rewrite <- app_assoc. split; [reflexivity|]. apply subseq_app; [apply ents_from_sub|exact Hs].
Qed.

Lemma flat_map_map {A B C} (f : B -> list C) (g : A -> B) l : flat_map f (map g l) = flat_map (fun x => f (g x)) l.
Proof. induction l; cbn; [reflexivity|now rewrite IHl]. Qed.

Lemma br_plan_src c maxb ts r1 chain idx0 off0 tb tof trim0 hint0 stl :
  subseq (flat_map (item_ents c) (rev (fst (br_plan c maxb (br_wsnap ts) (r1, chain, idx0, off0, tb, tof, trim0, hint0, stl)))))
      (chain_ents chain ++ w_ents ts).
Proof.
  unfold br_plan.
  pose proof (plan_sealed_src c maxb stl (skipn idx0 chain) idx0 off0 hint0 0 []) as Hpl.
  destruct (plan_sealed _ _ _ _ _ _ _ _ _) as [[[racc planned] idx_after] truncated].
  destruct Hpl as (items & -> & Hsub). rewrite app_nil_r.
  assert (Hch : subseq (flat_map (item_ents c) items) (chain_ents chain)).
  { rewrite <- (firstn_skipn idx0 chain), chain_ents_app. exact (subseq_trans _ _ _ Hsub (subseq_app_r _ _)). }
  assert (Hno : subseq (flat_map (item_ents c) (rev (rev items))) (chain_ents chain ++ w_ents ts)).
  { rewrite rev_involutive, <- (app_nil_r (flat_map _ items)). apply subseq_app; [exact Hch|constructor]. }
  destruct (negb truncated && _); [|exact Hno]. destruct (br_wsnap ts) as [w|] eqn:Ew; [|exact Hno].
  match goal with |- context [let '(_, _) := ?Y in _] => destruct Y as [tstart trim] end.
  destruct (tstart <? b_used w); [|exact Hno].
  cbn [fst rev]. rewrite rev_involutive, flat_map_app. apply subseq_app; [exact Hch|].
  cbn [flat_map item_ents pi_blk pi_start]. rewrite app_nil_r.
  unfold br_wsnap in Ew. unfold w_ents. destruct (ts_poisoned ts); [discriminate|]. rewrite Ew. apply ents_from_sub.
Qed.

(* wherever a read starts, it walks the chain of the topic's reader *)
Lemma br_position_chain c ts start :
  let '(_, chain, _, _, _, _, _, _, _) := br_position c ts start in chain = chain_of ts.
Proof.
  destruct start as [st0|].
  - now destruct (br_position_stateless c ts st0) as (idx0 & off0 & tb & tof & trim0 & hint0 & ->).
  - rewrite br_position_hyd. apply hyd_chain.
Qed.

Theorem batch_read_subranges c m s t maxb ck start s' os :
  batch_read c m s t maxb ck start = (s', REntries os) ->
  outs_subranges (stream (get_ts s (t_id t))) os = true.
Proof.
  unfold batch_read. set (ts := get_ts s (t_id t)). pose proof (br_position_chain c ts start) as Hch.
  destruct (br_position c ts start) as [[[[[[[[r1 chain] idx0] off0] tb] tof] trim0] hint0] stl]. subst chain.
  rewrite br_from_plan. cbn zeta. pose proof (br_plan_src c maxb ts r1 (chain_of ts) idx0 off0 tb tof trim0 hint0 stl) as Hsrc.
  destruct (br_plan _ _ _ _) as [pl trim]. intros [= _ <-].
  destruct (parse_plan_outs c maxb (rev pl) (ps0 trim)) as (outs & L & -> & HF & Hs).
  cbn [ps_outs]. rewrite app_nil_r, rev_involutive.
  exact (outs_subranges_sub _ _ _ HF (subseq_trans _ _ _ Hs Hsrc)).
Qed.

Lemma result_eqb_refl r : match r with RNone | REntry _ | REntries _ => result_eqb r r = true | _ => True end.
Proof.
  destruct r as [| | | |o|os|]; cbn; auto.
  - rewrite !N.eqb_refl. reflexivity.
  - rewrite Nat.eqb_refl. cbn. induction os as [|o os IH]; cbn; [reflexivity|]. rewrite !N.eqb_refl. cbn. exact IH.
Qed.

Lemma with_reader_twice ts r : with_reader (with_reader ts r) r = with_reader ts r.
Proof. reflexivity. Qed.

Definition pos_of (r : reader) : br_pos :=
  (Some r, r_chain r, r_idx r, r_off r, r_tail_bid r, r_tail_off r, 0, 0, false).

(* In any state, raw ones behind a restart included, a stateful batch read starts from the position of the reader
   hydrated in its flavour (EngineNorm.hyd); the peek stores that reader, and hydrating it again changes nothing. *)
Theorem batch_peek_then_consume c m s t maxb :
  let '(s1, r1) := batch_read c m s t maxb false None in
  let '(s2, r2) := batch_read c m s1 t maxb true None in
  r1 = r2.
Proof.
  unfold batch_read. set (ts := get_ts s (t_id t)). rewrite br_position_hyd. cbv zeta.
  set (r := hyd true (reader_of ts) (ts_index ts)). fold (pos_of r).
  pose proof (br_from_peek c m s t maxb ts (Some r) (r_chain r) (r_idx r) (r_off r) (r_tail_bid r) (r_tail_off r) 0 0 false) as Hs1.
  fold (pos_of r) in Hs1. pose proof (br_from_result c m s t maxb false ts (pos_of r)) as Hr1.
  destruct (br_from c m s t maxb false ts (pos_of r)) as [s1 r1]. cbn [fst snd] in Hs1, Hr1. subst s1 r1.
  rewrite get_set_same, br_position_hyd. cbv zeta. change (reader_of (with_reader ts r)) with r.
  rewrite (hyd_of_hydrated true r _ (hyd_hydrated true _ _)). fold (pos_of r).
  pose proof (br_from_result c m (set_ts s (t_id t) (with_reader ts r)) t maxb true (with_reader ts r) (pos_of r)) as Hr2.
  destruct (br_from _ _ _ _ _ true _ _) as [s2 r2]. cbn [snd] in Hr2. now subst r2.
Qed.

Lemma read_next_tid c m s t t' ck : t_id t = t_id t' -> read_next c m s t ck = read_next c m s t' ck.
Proof. intros H. unfold read_next. rewrite H. reflexivity. Qed.
Lemma batch_read_tid c m s t t' maxb ck st0 : t_id t = t_id t' -> batch_read c m s t maxb ck st0 = batch_read c m s t' maxb ck st0.
Proof. intros H. unfold batch_read, br_from. rewrite H. reflexivity. Qed.

Lemma same_read_args_inv o1 o2 : same_read_args o1 o2 = true ->
  (exists t t', o1 = ORead t false /\ o2 = ORead t' true /\ t_id t' = t_id t) \/
  (exists t t' mb, o1 = OBatchRead t mb false None /\ o2 = OBatchRead t' mb true None /\ t_id t' = t_id t).
Proof.
  destruct o1 as [| |t [|]|t m [|] [|]| |]; try discriminate;
    destruct o2 as [| |t' [|]|t' m' [|] [|]| |]; try discriminate; cbn [same_read_args]; intros H.
  - left. exists t, t'. repeat split. lia.
  - right. apply andb_prop in H. destruct H as [H1 H2]. apply N.eqb_eq in H2. subst. exists t, t', m'. repeat split. lia.
Qed.

Lemma pair_ok c m be s g B Bb o1 o2 : cfg_ok c -> Rel c s g B Bb -> same_read_args o1 o2 = true ->
  let '(s1, r1) := step (env_of c m be) s o1 in
  let '(s2, r2) := step (env_of c m be) s1 o2 in
  result_eqb r1 r2 = true.
Proof.
  intros Hc ((Hn & Hti) & _) Hsame.
  destruct (same_read_args_inv _ _ Hsame) as [(t & t' & -> & -> & Ht)|(t & t' & maxb & -> & -> & Ht)];
    cbn [step env_of v_cfg v_mode].
  - (* read_next: both reads see the same unread entries, and answer with the first of them *)
    destruct (read_next_legs c m s t false (a_next (s_alloc s)) Hc (Hti (t_id t))) as (T1 & ts1 & f1 & qa & p1 & qb & E1 & L1 & L1').
    rewrite E1, (read_next_tid c m _ t' t true Ht).
    pose proof (legs_Read _ _ _ _ _ _ _ _ _ _ _ _ L1 L1') as Hrd. pose proof (rd_inv _ _ _ _ _ Hrd) as Hinv1.
    rewrite <- (get_set_same s (t_id t) ts1) in Hinv1.
    destruct (read_next_legs c m (set_ts s (t_id t) ts1) t true (a_next (s_alloc s)) Hc Hinv1) as (T2 & ts2 & f2 & qc & p2 & qd & E2 & _).
    rewrite E2, get_set_same, <- (rd_unread _ _ _ _ _ Hrd : _ = unread c ts1). cbn [answer].
    destruct (firstn 1 (unread c (get_ts s (t_id t)))) as [|e rest]; [reflexivity|apply (result_eqb_refl (REntry (out_of e)))].
  - (* batch read: whatever the state, the result is a list of entries *)
    pose proof (batch_peek_then_consume c m s t maxb) as Hp.
    pose proof (br_from_result c m s t maxb false (get_ts s (t_id t)) (br_position c (get_ts s (t_id t)) None)) as Hr.
    fold (batch_read c m s t maxb false None) in Hr.
    destruct (batch_read c m s t maxb false None) as [s1 r1].
    rewrite (batch_read_tid c m s1 t' t maxb true None Ht).
    destruct (batch_read c m s1 t maxb true None) as [s2 r2]. cbn [snd] in Hr. subst r2 r1. apply (result_eqb_refl (REntries _)).
Qed.

Lemma c02c_step c m be s g B Bb o : Rel c s g B Bb -> c02c_step_ok g o (snd (step (env_of c m be) s o)) = true.
Proof.
  intros Hrel. destruct o as [| | |t maxb ck [st0|]| |]; try reflexivity. cbn [step env_of v_cfg v_mode].
  destruct (batch_read_stateless c m s t maxb ck st0) as (os & Hr). rewrite Hr. cbn [snd c02c_step_ok].
  destruct (proj2 Hrel (t_id t)) as (_ & <- & _). exact (batch_read_subranges _ _ _ _ _ _ _ _ _ Hr).
Qed.

Theorem c02_along_histories c m be : cfg_ok c -> forall ops s g B Bb,
  Rel c s g B Bb -> Forall (op_ok c) ops ->
  B + N.of_nat (length (offered_all ops)) <= u64_max -> Bb + sum_len (offered_all ops) <= u64_max ->
  c02c_ok_from g (trace (env_of c m be) s ops) = true /\ c02b_ok (trace (env_of c m be) s ops) = true.
Proof.
  intros Hc. apply (trace_Rel_ind c m be (fun g tr => c02c_ok_from g tr = true /\ c02b_ok tr = true) Hc); [now cbn|].
  intros s g B Bb o ops Hrel _ _ _. pose proof (c02c_step c m be s g B Bb o Hrel) as Hc1.
  pose proof (fun o2 => pair_ok c m be s g B Bb o o2 Hc Hrel) as Hp.
  destruct (step _ s o) as [s' r]. cbn [snd] in Hc1. intros (I1 & I2). cbn [c02c_ok_from]. rewrite Hc1, I1. split; [reflexivity|].
  destruct ops as [|o2 ops]; [reflexivity|]. specialize (Hp o2). cbn [trace] in *.
  destruct (step _ s' o2) as [s2 r2]. cbn [c02b_ok] in *.
  destruct (same_read_args o o2); [now rewrite Hp|exact I2].
Qed.

Corollary c02_from_init c m be ops : cfg_ok c -> Forall (op_ok c) ops ->
  N.of_nat (length (offered_all ops)) <= u64_max -> sum_len (offered_all ops) <= u64_max ->
  c02c_ok (trace (env_of c m be) init ops) = true /\ c02b_ok (trace (env_of c m be) init ops) = true.
Proof. intros Hc Hok HB HBb. unfold c02c_ok. apply (c02_along_histories c m be Hc ops init [] 0 0 (Rel_init c) Hok); lia. Qed.
