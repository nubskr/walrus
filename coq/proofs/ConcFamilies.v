(* ConcFamilies.v — concrete thread-program families with batch appends and batch reads, and the
   exhaustive exploration of all their schedules on the fixed model (fx = true) by [explore_graph]
   (ConcExplore.v). *)
From W Require Import model.Base model.Engine model.EngineCfg model.Conc spec.ConcSpec proofs.ConcExplore.

(* ft1, fe, fv0, fsch, fa4 are t1, e, v0, sch, a4 of props/C05.v, which imports this file *)
Definition ft1 : topic := {| t_id := 1; t_nlen := 2 |}.
Definition fe (p l : N) : entry := {| e_pid := p; e_len := l |}.
Definition fv0 : env := {| v_cfg := small_cfg; v_mode := Strict; v_backend := Fd |}.
Definition fsch (l : list N) : list nat := map N.to_nat l.
Definition fa4 := [CAppend ft1 (fe 0 1000); CAppend ft1 (fe 1 1000); CAppend ft1 (fe 2 1000); CAppend ft1 (fe 3 1000)].
Definition every_schedule_after (progs : list (list call)) (pre : list nat) : Prop :=
  forall sched, let ro := run_schedule fv0 true progs (pre ++ sched) in
    threads_done (ro_cs ro) = true -> c05_run_ok progs (cresults (ro_cs ro)) false = true.
Definition b3 := CBatch ft1 [fe 2 1000; fe 3 1000; fe 4 1000].
Definition brm := CBatchRead ft1 u64_max true.
Definition p2 := [CAppend ft1 (fe 0 1000); CAppend ft1 (fe 1 1000); b3].
(* a batch that crosses a block boundary (two entries already in the block) against a consumer *)
Definition bf1 := [p2; [CRead ft1 true; CRead ft1 true; CRead ft1 true]].
(* single appends, the fourth rotates the block, against consuming batch reads *)
Definition bf2 := [fa4; [brm; brm; CRead ft1 true]].
(* the rotating batch against consuming batch reads *)
Definition bf3 := [p2; [brm; brm; CRead ft1 true]].
(* two batch writers on one topic (the second to start gets WouldBlock) and a consumer *)
Definition bf4 := [[CBatch ft1 [fe 0 1000; fe 1 1000]]; [CBatch ft1 [fe 2 1000; fe 3 1000]]; [CRead ft1 true; CRead ft1 true]].
(* one batch over three blocks against a consumer *)
Definition bf6 := [[CBatch ft1 [fe 0 1000; fe 1 1000; fe 2 1000; fe 3 1000; fe 4 1000; fe 5 1000; fe 6 1000]];
                   [CRead ft1 true; CRead ft1 true; CRead ft1 true]].
(* the rotating batch against two consumers: a batch read and a read_next; two batch reads *)
Definition bf9 := [p2; [brm]; [CRead ft1 true]].
Definition bf10 := [p2; [brm]; [brm]].
Definition pre6 := fsch (repeat 0%N 6).   (* the two single appends of p2, serially *)
Definition pre9 := fsch (repeat 0%N 9).   (* the first three appends of fa4 *)

Lemma batches_every_schedule_bounded :
  every_schedule_after bf1 pre6 /\ every_schedule_after bf2 pre9 /\ every_schedule_after bf3 pre6 /\
  every_schedule_after bf4 [] /\ every_schedule_after bf6 [] /\
  every_schedule_after bf9 pre6 /\ every_schedule_after bf10 pre6.
Proof.
  repeat split; intro sched; (apply (accepted_after_prefix fv0 true _ false); [vm_compute; reflexivity|]).
  (* the fuel bounds the breadth-first layers, i.e. the longest run: the deepest family, bf1, has 24;
     too little fuel makes [explore_graph] answer false *)
  all: apply (explore_graph_accepted fv0 true _ false 100); vm_compute; reflexivity.
Qed.
