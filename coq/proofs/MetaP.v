(* MetaP.v — model/Meta.v (C18): the segment-history invariant ([ginv], with the step counter [cur_le]
   beside it) is kept by every step outside the sum-overflow class, which extends the history and does not
   panic.  The two additions of a rollover are read off without the invariant: where both fit the build
   profiles agree ([apply_cmd_fits]), the checked build panics at the sum exactly when the sum does not fit
   ([psum_iff_ovf]), the arm with checked_add refuses exactly where one does not ([apply_cmd_fx_cases]); the
   walk under the invariant ([step_cmd]) is over the wrapping arm alone.  One induction over any iterated
   step function ([run_good]) serves the RolloverTopic arm before fix 15a0232 in both build profiles
   ([run_apply]) and the arm with checked_add, the code of /repo ([run_fx]). *)
From W Require Import model.Base model.Map model.Bincode model.Meta proofs.MapP.
(* the Cluster* proofs get lia's instances for bool, N and nat through this import *)
From Coq Require Import ZArith ZifyBool ZifyN ZifyNat.

Lemma is_range_app from a b :
  is_range from (a ++ b) = is_range from a && is_range (from + N.of_nat (length a)) b.
Proof.
  revert from. induction a as [|x a IH]; intros from; cbn [app is_range length].
  - now rewrite N.add_0_r.
  - rewrite IH. replace (from + 1 + N.of_nat (length a)) with (from + N.of_nat (S (length a))) by lia.
    now rewrite andb_assoc.
Qed.

Lemma is_range_bounds from l k :
  is_range from l = true -> In k l -> from <= k < from + N.of_nat (length l).
Proof.
  revert from. induction l as [|x l IH]; intros from H Hin; [destruct Hin|].
  cbn [is_range] in H. apply andb_prop in H. destruct H as [H1 H2]. cbn [length].
  destruct Hin as [Hin|Hin].
  - subst. lia.
  - specialize (IH _ H2 Hin). lia.
Qed.

Lemma keys_length {K V} (l : list (K * V)) : length (keys l) = length l.
Proof. apply map_length. Qed.

Lemma in_keys {K V} (k : K) (v : V) l : In (k, v) l -> In k (keys l).
Proof. intros H. apply in_map_iff. now exists (k, v). Qed.

Lemma range_sorted {V} from (l : list (N * V)) : is_range from (keys l) = true -> sortedb N.compare l = true.
Proof.
  revert from. induction l as [|[k v] r IH]; intros from H; [reflexivity|].
  cbn [keys map is_range fst] in H. apply andb_prop in H. destruct H as [H1 H2].
  apply (sortedb_cons N_cmp_ok). split; [|now apply (IH (from + 1))].
  apply Forall_forall. intros [k0 v0] Hin. apply N.compare_lt_iff.
  pose proof (is_range_bounds _ _ k0 H2 (in_keys _ _ _ Hin)). cbn [fst]. lia.
Qed.

Lemma lookup_some_in_keys {V} k (v : V) l : lookup N.compare k l = Some v -> In k (keys l).
Proof. intros H. eapply in_keys. apply (lookup_In N_cmp_ok). exact H. Qed.

Lemma range_lookup {V} from (l : list (N * V)) k :
  is_range from (keys l) = true -> from <= k < from + N.of_nat (length l) -> exists v, lookup N.compare k l = Some v.
Proof.
  revert from. induction l as [|[k' v'] r IH]; intros from H Hb; cbn [length] in Hb; [lia|].
  cbn [keys map is_range fst] in H. apply andb_prop in H. destruct H as [H1 H2]. cbn [lookup].
  destruct (N.compare_spec k k') as [E|E|E].
  - now exists v'.
  - lia.
  - apply (IH (from + 1)); [exact H2|lia].
Qed.

Lemma ins_range_next {V} from k (v : V) l :
  is_range from (keys l) = true -> k = from + N.of_nat (length l) -> ins N.compare k v l = l ++ [(k, v)].
Proof.
  intros Hr Hk. apply (ins_last N_cmp_ok). apply Forall_forall. intros [k0 v0] Hin. cbn [fst].
  apply N.compare_lt_iff. pose proof (is_range_bounds _ _ k0 Hr (in_keys _ _ _ Hin)) as B.
  rewrite keys_length in B. lia.
Qed.

Lemma ins_range_same {V} from k (v : V) l :
  is_range from (keys l) = true -> lookup N.compare k l = Some v -> ins N.compare k v l = l.
Proof.
  revert from. induction l as [|[k' v'] r IH]; intros from Hr Hl; [discriminate|].
  cbn [keys map is_range fst] in Hr. apply andb_prop in Hr. destruct Hr as [H1 H2].
  cbn [lookup] in Hl. cbn [ins]. destruct (N.compare_spec k k') as [E|E|E].
  - subst. now inversion Hl.
  - exfalso. pose proof (is_range_bounds _ _ k H2 (lookup_some_in_keys _ _ _ Hl)). lia.
  - f_equal. eapply IH; eauto.
Qed.

Lemma keys_are_spec {V} from count (l : list (N * V)) :
  keys_are from count l = true <-> is_range from (keys l) = true /\ N.of_nat (length l) = count.
Proof. unfold keys_are. rewrite andb_true_iff, N.eqb_eq. tauto. Qed.

Lemma keys_are_snoc {V} from count count' (l : list (N * V)) k v :
  keys_are from count l = true -> k = from + count -> count' = count + 1 ->
  keys_are from count' (l ++ [(k, v)]) = true.
Proof.
  rewrite !keys_are_spec. intros [H1 H2] Hk Hc. split.
  - unfold keys in *. rewrite map_app, is_range_app, H1, map_length. cbn [map fst is_range andb].
    rewrite andb_true_r. apply N.eqb_eq. lia.
  - rewrite app_length. cbn [length]. lia.
Qed.

Lemma keys_are_lookup {V} from count (l : list (N * V)) k :
  keys_are from count l = true -> (exists v, lookup N.compare k l = Some v) <-> from <= k < from + count.
Proof.
  rewrite keys_are_spec. intros [R L]. split.
  - intros [v Hv]. pose proof (is_range_bounds _ _ _ R (lookup_some_in_keys _ _ _ Hv)) as B.
    rewrite keys_length in B. lia.
  - intros B. apply (range_lookup from); [exact R|lia].
Qed.

Lemma sub_map_spec a b :
  sub_map a b = true <-> forall k v, In (k, v) a -> lookup N.compare k b = Some v.
Proof.
  unfold sub_map. rewrite forallb_forall. split.
  - intros H k v Hin. specialize (H _ Hin). cbn [fst snd] in H.
    destruct (lookup N.compare k b) as [v0|]; [|discriminate]. apply N.eqb_eq in H. now subst.
  - intros H [k v] Hin. cbn [fst snd]. rewrite (H _ _ Hin). apply N.eqb_refl.
Qed.

Lemma sub_map_incl a b : sortedb N.compare b = true -> incl a b -> sub_map a b = true.
Proof. intros Hs Hi. apply sub_map_spec. intros k v Hin. apply (In_lookup N_cmp_ok); auto. Qed.

Lemma sub_map_trans a b c : sub_map a b = true -> sub_map b c = true -> sub_map a c = true.
Proof.
  rewrite !sub_map_spec. intros H1 H2 k v Hin. apply H2. apply (lookup_In N_cmp_ok). now apply H1.
Qed.

Lemma topic_ext_spec t t' :
  topic_ext t t' = true <->
  sub_map (t_sealed t) (t_sealed t') = true /\ sub_map (t_leaders t) (t_leaders t') = true /\ t_cur t <= t_cur t'.
Proof. unfold topic_ext. rewrite !andb_true_iff, N.leb_le. tauto. Qed.

Lemma topic_ext_trans a b c : topic_ext a b = true -> topic_ext b c = true -> topic_ext a c = true.
Proof.
  rewrite !topic_ext_spec. intros (A1 & A2 & A3) (B1 & B2 & B3).
  repeat split; [eapply sub_map_trans; eauto|eapply sub_map_trans; eauto|lia].
Qed.

(* [e] as the [exact] of Meta.topic_ok: the sum equation in N (a build that panics on overflow keeps it), or
   modulo 2^64 (what the wrapping build keeps) *)
Record tinv (e : bool) (t : tstate) : Prop := {
  ti_pos : 1 <= t_cur t;
  ti_leaders : keys_are 1 (t_cur t) (t_leaders t) = true;
  ti_open : lookup N.compare (t_cur t) (t_leaders t) = Some (t_leader t);
  ti_sealed : keys_are 1 (t_cur t - 1) (t_sealed t) = true;
  ti_sum : if e then sum_vals (t_sealed t) = t_last t else (sum_vals (t_sealed t)) mod two64 = t_last t
}.

Lemma topic_ok_spec e t : topic_ok e t = true <-> tinv e t.
Proof.
  unfold topic_ok. rewrite !andb_true_iff, N.leb_le. split.
  - intros ((((H1 & H2) & H3) & H4) & H5). split; auto.
    + destruct (lookup N.compare (t_cur t) (t_leaders t)) as [l|]; [|discriminate]. apply N.eqb_eq in H3. now subst.
    + destruct e; now apply N.eqb_eq.
  - intros [H1 H2 H3 H4 H5]. rewrite H3, N.eqb_refl. repeat split; auto. destruct e; now apply N.eqb_eq.
Qed.

Lemma tinv_sorted e t : tinv e t -> sortedb N.compare (t_sealed t) = true /\ sortedb N.compare (t_leaders t) = true.
Proof.
  intros [_ H2 _ H4 _]. apply keys_are_spec in H2, H4. split; eapply range_sorted; [apply H4|apply H2].
Qed.

Lemma topic_ext_incl e t t' :
  tinv e t' -> incl (t_sealed t) (t_sealed t') -> incl (t_leaders t) (t_leaders t') -> t_cur t <= t_cur t' ->
  topic_ext t t' = true.
Proof.
  intros Ht H1 H2 H3. destruct (tinv_sorted e t' Ht) as [S1 S2]. apply topic_ext_spec.
  repeat split; [now apply sub_map_incl|now apply sub_map_incl|exact H3].
Qed.

Lemma topic_ext_refl e t : tinv e t -> topic_ext t t = true.
Proof. intros H. apply (topic_ext_incl e); [exact H|apply incl_refl|apply incl_refl|apply N.le_refl]. Qed.

Lemma tinv_new e leader : tinv e (new_topic leader).
Proof.
  unfold new_topic. split; cbn; try reflexivity; try lia. destruct e; reflexivity.
Qed.

Lemma tinv_weaken t : tinv true t -> t_last t < two64 -> tinv false t.
Proof. intros [H1 H2 H3 H4 H5] Hl. split; auto. cbn in *. rewrite H5. now apply N.mod_small. Qed.

(* the RolloverTopic arm without panic: the new topic state *)
Definition rolled (t : tstate) (new_leader count : N) : tstate :=
  mkTopic (t_cur t + 1) new_leader ((t_last t + count) mod two64)
          (t_sealed t ++ [(t_cur t, count)]) (t_leaders t ++ [(t_cur t + 1, new_leader)]).

(* the three insertions of a rollover: one appends to the sealed counts, one re-inserts the
   open segment's leader, one appends the new leader *)
Lemma rolled_ins e t nl count : tinv e t ->
  ins N.compare (t_cur t) count (t_sealed t) = t_sealed t ++ [(t_cur t, count)] /\
  ins N.compare (t_cur t) (t_leader t) (t_leaders t) = t_leaders t /\
  ins N.compare (t_cur t + 1) nl (t_leaders t) = t_leaders t ++ [(t_cur t + 1, nl)].
Proof.
  intros [H1 H2 H3 H4 _]. apply keys_are_spec in H2, H4. destruct H2 as [R2 L2], H4 as [R4 L4]. split; [|split].
  - apply (ins_range_next 1); [exact R4|lia].
  - now apply (ins_range_same 1).
  - apply (ins_range_next 1); [exact R2|lia].
Qed.

Lemma rollover_rolled e t nl count :
  tinv e t -> t_cur t + 1 < two64 -> rollover false t nl count = (rolled t nl count, None).
Proof.
  intros Ht Hc. destruct (rolled_ins e t nl count Ht) as (E1 & E2 & E3). unfold rollover, rolled. cbn [andb].
  rewrite (N.mod_small (t_cur t + 1)), E1, E2, E3 by exact Hc. reflexivity.
Qed.

Lemma tinv_rolled e t nl count :
  tinv e t -> (e = true -> t_last t + count < two64) -> tinv e (rolled t nl count).
Proof.
  intros Ht Ho. destruct (rolled_ins e t nl count Ht) as (_ & _ & E3). destruct Ht as [H1 H2 H3 H4 H5].
  split; cbn [rolled t_cur t_leader t_leaders t_sealed t_last].
  - clear -H1. lia.
  - apply (keys_are_snoc 1 (t_cur t)); [exact H2|apply N.add_comm|reflexivity].
  - rewrite <- E3. apply (lookup_ins_same N_cmp_ok).
  - apply (keys_are_snoc 1 (t_cur t - 1)); [exact H4|clear -H1; lia|clear -H1; lia].
  - rewrite sum_vals_app. cbn [sum_vals fold_right snd]. rewrite N.add_0_r. destruct e.
    + rewrite H5. symmetry. apply N.mod_small. now apply Ho.
    + rewrite <- H5. symmetry. apply N.add_mod_idemp_l. discriminate.
Qed.

Record ginv (e : bool) (s : mstate) : Prop := {
  gi_live : m_poisoned s = false;
  gi_sorted : sortedb str_cmp (c_topics (m_cl s)) = true;
  gi_topics : Forall (fun nt => tinv e (snd nt)) (c_topics (m_cl s))
}.

Definition cur_le (n : N) (s : mstate) : Prop :=
  Forall (fun nt : str * tstate => t_cur (snd nt) <= n + 1) (c_topics (m_cl s)).

Definition tgood (e : bool) (n : N) (nt : str * tstate) : Prop := tinv e (snd nt) /\ t_cur (snd nt) <= n + 1.

(* [inv e n], the invariant of the C18 statements, is [ginv e] and [cur_le n] ([inv_ginv]): the first is what a
   step needs and keeps as long as no counter overflows, the second only counts the steps to show that none does *)
Record inv (e : bool) (n : N) (s : mstate) : Prop := {
  iv_live : m_poisoned s = false;
  iv_sorted : sortedb str_cmp (c_topics (m_cl s)) = true;
  iv_topics : Forall (tgood e n) (c_topics (m_cl s))
}.

Lemma inv_ginv e n s : inv e n s <-> ginv e s /\ cur_le n s.
Proof.
  split.
  - intros [H1 H2 H3]. apply Forall_and_inv in H3. destruct H3 as [H3 H4]. now split.
  - intros [[H1 H2 H3] H4]. split; [exact H1|exact H2|]. exact (Forall_and H3 H4).
Qed.

Lemma cluster_ok_spec e c :
  cluster_ok e c = true <-> sortedb str_cmp (c_topics c) = true /\ Forall (fun nt => tinv e (snd nt)) (c_topics c).
Proof.
  unfold cluster_ok. rewrite andb_true_iff, forallb_forall, Forall_forall.
  split; intros [H1 H2]; (split; [exact H1|]); intros x Hx; apply topic_ok_spec; auto.
Qed.

Lemma ginv_cluster_ok e s : ginv e s -> cluster_ok e (m_cl s) = true.
Proof. intros [H1 H2 H3]. apply cluster_ok_spec. auto. Qed.

Lemma cluster_ext_spec c c' :
  cluster_ext c c' = true <->
  forall nm t, In (nm, t) (c_topics c) -> exists t', lookup str_cmp nm (c_topics c') = Some t' /\ topic_ext t t' = true.
Proof.
  unfold cluster_ext. rewrite forallb_forall. split.
  - intros H nm t Hin. specialize (H _ Hin). cbn [fst snd] in H.
    destruct (lookup str_cmp nm (c_topics c')) as [t'|]; [|discriminate]. eauto.
  - intros H [nm t] Hin. cbn [fst snd]. destruct (H _ _ Hin) as [t' [E1 E2]]. now rewrite E1.
Qed.

Lemma cluster_ext_trans a b c : cluster_ext a b = true -> cluster_ext b c = true -> cluster_ext a c = true.
Proof.
  rewrite !cluster_ext_spec. intros H1 H2 nm t Hin.
  destruct (H1 _ _ Hin) as [tb [E1 X1]].
  destruct (H2 nm tb (lookup_In str_cmp_ok _ _ _ E1)) as [tc [E2 X2]].
  exists tc. split; [exact E2|]. eapply topic_ext_trans; eauto.
Qed.

Lemma cluster_ext_same e s c' :
  ginv e s -> c_topics c' = c_topics (m_cl s) -> cluster_ext (m_cl s) c' = true.
Proof.
  intros [_ Hs Hf] E. apply cluster_ext_spec. rewrite E. intros nm t Hin. exists t. split.
  - now apply (In_lookup str_cmp_ok).
  - rewrite Forall_forall in Hf. apply (topic_ext_refl e). apply (Hf _ Hin).
Qed.

Lemma cluster_ext_ins e s c' name t' :
  ginv e s -> c_topics c' = ins str_cmp name t' (c_topics (m_cl s)) ->
  (forall t, lookup str_cmp name (c_topics (m_cl s)) = Some t -> topic_ext t t' = true) ->
  cluster_ext (m_cl s) c' = true.
Proof.
  intros [_ Hs Hf] E Hx. apply cluster_ext_spec. rewrite E. intros nm t Hin.
  pose proof (In_lookup str_cmp_ok _ _ _ Hs Hin) as Hl.
  destruct (list_eq_dec N.eq_dec nm name) as [->|Hne].
  - exists t'. split; [apply (lookup_ins_same str_cmp_ok)|auto].
  - exists t. split.
    + now rewrite (lookup_ins_other str_cmp_ok).
    + rewrite Forall_forall in Hf. apply (topic_ext_refl e). apply (Hf _ Hin).
Qed.

(* the last conjunct keeps the segment counters from getting ahead of the number of steps *)
Definition good_step (e : bool) (s : mstate) (sr : mstate * res) : Prop :=
  ginv e (fst sr) /\ cluster_ext (m_cl s) (m_cl (fst sr)) = true /\ is_panic (snd sr) = false /\
  forall n, cur_le n s -> cur_le (n + 1) (fst sr).

Lemma step_keep e s s' r :
  ginv e s -> m_poisoned s' = false -> c_topics (m_cl s') = c_topics (m_cl s) -> is_panic r = false ->
  good_step e s (s', r).
Proof.
  intros Hi Hl E Hr. unfold good_step, cur_le. cbn [fst snd]. rewrite E.
  split; [|split; [now apply (cluster_ext_same e)|split; [exact Hr|]]].
  - destruct Hi as [_ Hs Hf]. split; [exact Hl|now rewrite E|now rewrite E].
  - intros n. apply Forall_impl. intros a Ha. lia.
Qed.

Lemma step_same e s r : ginv e s -> is_panic r = false -> good_step e s (s, r).
Proof. intros Hi. apply step_keep; [exact Hi|apply Hi|reflexivity]. Qed.

Lemma step_write e s s' r name t' :
  ginv e s -> m_poisoned s' = false -> c_topics (m_cl s') = ins str_cmp name t' (c_topics (m_cl s)) ->
  tinv e t' -> (forall t, lookup str_cmp name (c_topics (m_cl s)) = Some t -> topic_ext t t' = true) ->
  (forall n, cur_le n s -> t_cur t' <= n + 1 + 1) ->
  is_panic r = false -> good_step e s (s', r).
Proof.
  intros Hi Hl E Ht Hx Hc Hr. unfold good_step, cur_le. cbn [fst snd]. rewrite E.
  split; [|split; [now apply (cluster_ext_ins e _ _ name t')|split; [exact Hr|]]].
  - destruct Hi as [_ Hs Hf]. split; [exact Hl| |]; rewrite E.
    + now apply (sorted_ins str_cmp_ok).
    + now apply Forall_ins.
  - intros n Hn. apply Forall_ins; [exact (Hc n Hn)|].
    revert Hn. apply Forall_impl. intros a Ha. lia.
Qed.

(* `last_sealed_entry_offset += n` does not overflow in this command *)
Definition no_ovf (s : mstate) (c : cmd) : Prop :=
  match c with
  | RolloverTopic name _ count =>
    match lookup str_cmp name (c_topics (m_cl s)) with
    | Some t => t_last t + count < two64
    | None => True
    end
  | _ => True
  end.

(* `current_segment += 1` does not overflow in this command *)
Definition cur_fits (s : mstate) (c : cmd) : Prop :=
  match c with
  | RolloverTopic name _ _ =>
    match lookup str_cmp name (c_topics (m_cl s)) with
    | Some t => t_cur t + 1 < two64
    | None => True
    end
  | _ => True
  end.

Lemma apply_cmd_fits oc s c : cur_fits s c -> (oc = true -> no_ovf s c) -> apply_cmd oc s c = apply_cmd false s c.
Proof.
  destruct oc; [|reflexivity]. destruct c as [name leader|name nl count|id addr]; try reflexivity.
  cbn [apply_cmd cur_fits no_ovf]. destruct (lookup str_cmp name (c_topics (m_cl s))) as [t|]; [|reflexivity].
  intros Hc Ho. unfold rollover. cbn [andb].
  rewrite (proj2 (N.leb_gt _ _) (Ho eq_refl)), (proj2 (N.leb_gt _ _) Hc). reflexivity.
Qed.

Lemma step_cmd e s c :
  ginv e s -> cur_fits s c -> (e = true -> no_ovf s c) -> good_step e s (apply_cmd false s c).
Proof.
  intros Hi Hc Ho. destruct c as [name leader|name nl count|id addr]; cbn [apply_cmd cur_fits no_ovf] in *.
  - destruct (lookup str_cmp name (c_topics (m_cl s))) eqn:El.
    + now apply step_same.
    + apply (step_write e _ _ _ name (new_topic leader)); try reflexivity; [exact Hi|apply tinv_new|congruence|].
      intros n _. cbn. lia.
  - destruct (lookup str_cmp name (c_topics (m_cl s))) as [t|] eqn:El; [|now apply step_same].
    pose proof (lookup_Forall str_cmp_ok _ _ _ _ (gi_topics e s Hi) El) as Ht. cbn [snd] in Ht.
    rewrite (rollover_rolled e t nl count Ht Hc).
    assert (Ht' : tinv e (rolled t nl count)) by (apply tinv_rolled; auto).
    apply (step_write e _ _ _ name (rolled t nl count)); try reflexivity; [exact Hi|exact Ht'| |].
    + intros t0 Ht0. assert (t0 = t) by congruence. subst t0.
      apply (topic_ext_incl e); [exact Ht'|apply incl_appl, incl_refl|apply incl_appl, incl_refl|apply N.le_add_r].
    + intros n Hn. pose proof (lookup_Forall str_cmp_ok _ _ _ _ Hn El) as Hb. cbn in *. lia.
  - now apply step_keep.
Qed.

Lemma cur_le_fits n s c : cur_le n s -> n + 2 < two64 -> cur_fits s c.
Proof.
  intros Hf Hn. destruct c as [|name nl count|]; cbn [cur_fits]; auto.
  destruct (lookup str_cmp name (c_topics (m_cl s))) as [t|] eqn:El; [|exact I].
  pose proof (lookup_Forall str_cmp_ok _ _ _ _ Hf El) as Ht. cbn [snd] in Ht. lia.
Qed.

Lemma psum_iff_ovf s c : is_psum (snd (apply_cmd true s c)) = false <-> no_ovf s c.
Proof.
  destruct c as [name leader|name nl count|id addr]; cbn [apply_cmd no_ovf].
  - destruct (lookup str_cmp name (c_topics (m_cl s))); cbn; tauto.
  - destruct (lookup str_cmp name (c_topics (m_cl s))) as [t|]; [|cbn; tauto].
    unfold rollover. cbn [andb].
    destruct (N.leb_spec two64 (t_last t + count)) as [H|H].
    + cbn. split; [discriminate|lia].
    + destruct (two64 <=? t_cur t + 1); cbn; tauto.
  - cbn. tauto.
Qed.

Definition no_ovf_in (s : mstate) (bs : list N) : Prop :=
  match dec_cmd bs with Some (c, _) => no_ovf s c | None => True end.

Lemma step_input e oc s bs :
  ginv e s -> (forall c, cur_fits s c) -> (e = true \/ oc = true -> no_ovf_in s bs) ->
  apply oc s bs = apply false s bs /\ good_step e s (apply oc s bs).
Proof.
  intros Hi Hc Ho. unfold apply, no_ovf_in in *. destruct (dec_cmd bs) as [[c rest]|].
  - rewrite (gi_live e s Hi), (apply_cmd_fits oc s c) by auto. split; [reflexivity|]. apply step_cmd; auto.
  - split; [reflexivity|]. now apply step_same.
Qed.

Lemma psum_iff_input s bs :
  m_poisoned s = false -> (is_psum (snd (apply true s bs)) = false <-> no_ovf_in s bs).
Proof.
  intros Hl. unfold apply, no_ovf_in. destruct (dec_cmd bs) as [[c rest]|]; [|cbn; tauto].
  rewrite Hl. apply psum_iff_ovf.
Qed.

(* [run] and [exec] iterate the step [f] the way mrun and mexec iterate apply *)
Definition iterates (f : mstate -> list N -> mstate * res) run exec : Prop :=
  forall s b r, run s [] = [] /\ exec s [] = s /\
                run s (b :: r) = f s b :: run (fst (f s b)) r /\ exec s (b :: r) = exec (fst (f s b)) r.

Lemma mrun_iterates oc : iterates (apply oc) (mrun oc) (mexec oc).
Proof. now intros s b r. Qed.

Lemma mrun_fx_iterates : iterates apply_fx mrun_fx mexec_fx.
Proof. now intros s b r. Qed.

(* [J s r]: what the state [s] must satisfy, beside the invariant, with the inputs [r] still to come.
   If every step under [J] is good, agrees with the step [g] and hands [J] on, then the whole trace
   is accepted and agrees with that of [g], and every state on the way is extended by the last one. *)
Lemma run_good e (J : mstate -> list (list N) -> Prop) {f g run exec run' exec'} :
  iterates f run exec -> iterates g run' exec' ->
  (forall s b r, ginv e s -> J s (b :: r) -> f s b = g s b /\ good_step e s (f s b) /\ J (fst (f s b)) r) ->
  forall inputs s, ginv e s -> J s inputs ->
    run s inputs = run' s inputs /\ trace_okb e (m_cl s) (run s inputs) = true /\
    forall pre suf, inputs = pre ++ suf -> cluster_ext (m_cl (exec s pre)) (m_cl (exec s inputs)) = true.
Proof.
  intros Hf Hg Hstep. induction inputs as [|b r IH]; intros s Hi HJ.
  - destruct (Hf s [] []) as (-> & E0 & _). destruct (Hg s [] []) as (-> & _).
    split; [reflexivity|]. split; [reflexivity|]. intros pre suf E. symmetry in E. apply app_eq_nil in E.
    destruct E as [-> _]. rewrite E0. now apply (cluster_ext_same e).
  - destruct (Hf s b r) as (_ & E0 & -> & ->). destruct (Hg s b r) as (_ & _ & -> & _).
    destruct (Hstep s b r Hi HJ) as (E & (Hi' & Hx & Hp & _) & HJ').
    destruct (IH _ Hi' HJ') as (A & T & X).
    split; [now rewrite <- E, A|]. split.
    + cbn [trace_okb]. destruct (f s b) as [s1 r1]. cbn [fst snd] in *.
      rewrite Hp, (gi_live _ _ Hi'), (ginv_cluster_ok _ _ Hi'), Hx, T. reflexivity.
    + intros [|b' pre] suf Ep.
      * rewrite E0. eapply cluster_ext_trans; [exact Hx|]. specialize (X [] r eq_refl).
        destruct (Hf (fst (f s b)) [] []) as (_ & E1 & _). now rewrite E1 in X.
      * injection Ep as <- ->. destruct (Hf s b pre) as (_ & _ & _ & ->). apply (X pre suf eq_refl).
Qed.

(* at most [n] inputs so far, and the counters have room for those to come *)
Definition room (s : mstate) (r : list (list N)) : Prop :=
  exists n, cur_le n s /\ n + N.of_nat (length r) + 1 < two64.

Lemma ginv_init e : ginv e m_init.
Proof. split; cbn; auto. Qed.

Lemma room_init inputs : N.of_nat (length inputs) + 1 < two64 -> room m_init inputs.
Proof. intros H. exists 0. split; [apply Forall_nil|exact H]. Qed.

(* A run under the invariant in its form [e], of the build with the matching arithmetic.
   e = false: every sequence, wrapping build: the structure and the immutability hold throughout,
   the sum equation holds modulo 2^64.
   e = true: the checked build, supposed not to panic at a sum: exact sum, no panic at all, and
   the wrapping build behaves alike. *)
Lemma run_apply e inputs s :
  ginv e s -> room s inputs -> (e = true -> any_psum (mrun e s inputs) = false) ->
  mrun e s inputs = mrun false s inputs /\ trace_okb e (m_cl s) (mrun e s inputs) = true /\
  forall pre suf, inputs = pre ++ suf -> cluster_ext (m_cl (mexec e s pre)) (m_cl (mexec e s inputs)) = true.
Proof.
  intros Hi Hr Hk.
  apply (run_good e (fun s r => room s r /\ (e = true -> any_psum (mrun e s r) = false))
           (mrun_iterates e) (mrun_iterates false)); [|exact Hi|now split].
  intros s0 b r Hi0 [Hr0 Hk0].
  assert (K : e = true -> no_ovf_in s0 b /\ any_psum (mrun e (fst (apply e s0 b)) r) = false).
  { intros C. specialize (Hk0 C). cbn [mrun any_psum existsb] in Hk0. apply orb_false_elim in Hk0.
    destruct Hk0 as [K1 K2]. split; [|exact K2]. rewrite C in K1. now apply (psum_iff_input s0 b (gi_live _ _ Hi0)). }
  destruct Hr0 as (n & Hc & Hn). cbn [length] in Hn.
  destruct (step_input e e s0 b Hi0) as [E G]; [intros c; apply (cur_le_fits n s0 c Hc); lia|intros [C|C]; now apply K|].
  split; [exact E|]. split; [exact G|]. split; [|intros C; now apply K].
  exists (n + 1). split; [now apply G|lia].
Qed.

(* the two builds agree, so it is enough to run the checked one *)
Lemma outside_known oc inputs :
  N.of_nat (length inputs) + 1 < two64 -> sum_overflow inputs = false ->
  mrun oc m_init inputs = mrun false m_init inputs /\
  trace_okb true empty_cluster (mrun oc m_init inputs) = true.
Proof.
  intros H K. destruct (run_apply true inputs m_init (ginv_init true) (room_init _ H) (fun _ => K)) as (A & T & _).
  destruct oc; [now split|]. split; [reflexivity|]. now rewrite <- A.
Qed.

(* create a topic, seal u64::MAX entries, seal one more: the cumulative count reaches 2^64 *)
Definition c18_witness : list (list N) :=
  [enc_cmd (CreateTopic [116] 1); enc_cmd (RolloverTopic [116] 2 u64_max); enc_cmd (RolloverTopic [116] 3 1)].

Definition C18_full : Prop :=
  forall oc inputs, N.of_nat (length inputs) + 1 < two64 ->
    trace_okb true empty_cluster (mrun oc m_init inputs) = true.

(* [rollover_fx] (checked_add) tests exactly the two side conditions of [step_cmd]; when they hold it does
   what the wrapping build does, otherwise nothing *)
Lemma apply_cmd_fx_cases s c :
  (cur_fits s c /\ no_ovf s c /\ apply_cmd_fx s c = apply_cmd false s c) \/
  (~ (cur_fits s c /\ no_ovf s c) /\ apply_cmd_fx s c = (s, MErr)).
Proof.
  destruct c as [name leader|name nl count|id addr]; [left; now cbn| |left; now cbn].
  cbn [apply_cmd_fx apply_cmd cur_fits no_ovf].
  destruct (lookup str_cmp name (c_topics (m_cl s))) as [t|]; [|now left].
  unfold rollover_fx, rollover. cbn [andb].
  destruct (N.leb_spec two64 (t_last t + count)) as [|Hs]; [right; split; [lia|reflexivity]|].
  destruct (N.leb_spec two64 (t_cur t + 1)) as [|Hc]; [right; split; [lia|reflexivity]|].
  left. now rewrite !N.mod_small.
Qed.

Lemma good_step_fx s c : ginv true s -> good_step true s (apply_cmd_fx s c).
Proof.
  intros Hi. destruct (apply_cmd_fx_cases s c) as [(Hc & Ho & ->)|[_ ->]].
  - now apply step_cmd.
  - now apply step_same.
Qed.

Lemma good_input_fx s bs : ginv true s -> good_step true s (apply_fx s bs).
Proof.
  intros Hi. unfold apply_fx. destruct (dec_cmd bs) as [[c rest]|]; [|now apply step_same].
  rewrite (gi_live _ _ Hi). now apply good_step_fx.
Qed.

Lemma run_fx inputs s :
  ginv true s ->
  trace_okb true (m_cl s) (mrun_fx s inputs) = true /\
  forall pre suf, inputs = pre ++ suf -> cluster_ext (m_cl (mexec_fx s pre)) (m_cl (mexec_fx s inputs)) = true.
Proof.
  intros Hi. apply (run_good true (fun _ _ => True) mrun_fx_iterates mrun_fx_iterates); [|exact Hi|exact I].
  intros s0 b r Hi0 _. split; [reflexivity|]. split; [now apply good_input_fx|exact I].
Qed.
