(* EngineErase.v — what a non-consuming read (a peek or an offset-addressed read) can change: the
   reader's hydration flag, and the in-memory cursor stepped over exhausted blocks.  The cursor
   up to that stepping is [cur_norm]; planning and walking depend on the cursor only through it.
   Also here: the operations the erasure theorem erases ([nonconsuming], [keep]).  The simulation built
   on [cur_norm] is in EngineEraseD.v, the erasure theorem (C02 (a)) in EngineEraseR.v. *)
From W Require Import model.Base model.Engine proofs.EngineWF proofs.EngineMain.

Definition cur_norm (ch : list blk) (idx : nat) (off : N) : nat * N :=
  let '(i, o, _) := rn_walk (skipn idx ch) idx off in (i, o).

(* in a chain that has grown the walk goes as before and then on from where it stopped *)
Lemma rn_walk_ext : forall rest idx off ch tl, skipn idx ch = rest ->
  let '(i, o, _) := rn_walk rest idx off in
  rn_walk (skipn idx (ch ++ tl)) idx off = rn_walk (skipn i (ch ++ tl)) i o.
Proof.
  induction rest as [|b rest IH]; intros idx off ch tl Hs; cbn [rn_walk]; [reflexivity|].
  destruct (b_used b <=? off) eqn:E; [|reflexivity].
  specialize (IH (S idx) 0 ch tl (skipn_S_of _ _ _ _ Hs)). destruct (rn_walk rest (S idx) 0) as [[i o] hit].
  pose proof (skipn_len_lt _ _ _ _ Hs) as Hl.
  rewrite <- IH, !skipn_app_le, Hs, (skipn_S_of _ _ _ _ Hs) by lia. cbn [app rn_walk]. now rewrite E.
Qed.

(* cursors with the same [cur_norm] walk alike: either walk is the walk from where it stops *)
Lemma rn_walk_norm ch idx off idx' off' : cur_norm ch idx' off' = cur_norm ch idx off ->
  rn_walk (skipn idx' ch) idx' off' = rn_walk (skipn idx ch) idx off.
Proof.
  unfold cur_norm. intros H.
  pose proof (rn_walk_ext _ idx off ch [] eq_refl) as H1. pose proof (rn_walk_ext _ idx' off' ch [] eq_refl) as H2.
  rewrite app_nil_r in H1, H2.
  destruct (rn_walk (skipn idx ch) idx off) as [[i o] h]. destruct (rn_walk (skipn idx' ch) idx' off') as [[i' o'] h'].
  inversion H; subst i' o'. congruence.
Qed.

Lemma hydrate_none r b : (r_hydrated r = false -> True) ->
  hydrate r None b = ((if r_hydrated r then r else set_hydrated r), None).
Proof. intros _. unfold hydrate. destruct (r_hydrated r); reflexivity. Qed.

Lemma plan_sealed_hint c maxb : forall rest idx off h h' planned acc,
  plan_sealed c maxb false rest idx off h planned acc = plan_sealed c maxb false rest idx off h' planned acc.
Proof.
  induction rest as [|b rest IH]; intros idx off h h' planned acc; cbn [plan_sealed]; [reflexivity|].
  destruct (negb _); [reflexivity|]. destruct (b_used b <=? off); [apply IH|].
  cbn [andb]. destruct acc as [|a acc'].
  - destruct (_ <? b_used b); [reflexivity|apply IH].
  - destruct (_ <? b_used b); [reflexivity|apply IH].
Qed.

(* planning starts by stepping over exhausted blocks, exactly like the read_next walk *)
Lemma plan_sealed_norm c maxb : forall rest idx off ch, skipn idx ch = rest ->
  let '(i, o, _) := rn_walk rest idx off in
  plan_sealed c maxb false rest idx off 0 0 [] = plan_sealed c maxb false (skipn i ch) i o 0 0 [].
Proof.
  induction rest as [|b rest IH]; intros idx off ch Hs; cbn [rn_walk].
  - now rewrite Hs.
  - destruct (b_used b <=? off) eqn:E; [|now rewrite Hs].
    specialize (IH (S idx) 0 ch (skipn_S_of _ _ _ _ Hs)). destruct (rn_walk rest (S idx) 0) as [[i o] hit].
    rewrite <- IH. cbn [plan_sealed]. rewrite E. now rewrite orb_true_r.
Qed.

Lemma plan_sealed_cur_norm c maxb ch idx off idx' off' :
  cur_norm ch idx' off' = cur_norm ch idx off ->
  plan_sealed c maxb false (skipn idx' ch) idx' off' 0 0 [] = plan_sealed c maxb false (skipn idx ch) idx off 0 0 [].
Proof.
  intros H. pose proof (plan_sealed_norm c maxb _ idx off ch eq_refl) as P1.
  pose proof (plan_sealed_norm c maxb _ idx' off' ch eq_refl) as P2. rewrite (rn_walk_norm _ _ _ _ _ H) in P2.
  destruct (rn_walk (skipn idx ch) idx off) as [[i o] h]. now rewrite P1, P2.
Qed.

Lemma cur_norm_ext ch tl idx off : cur_norm (ch ++ tl) idx off = let '(i, o) := cur_norm ch idx off in cur_norm (ch ++ tl) i o.
Proof.
  unfold cur_norm. pose proof (rn_walk_ext _ idx off ch tl eq_refl) as H.
  destruct (rn_walk (skipn idx ch) idx off) as [[i o] hit]. now rewrite H.
Qed.

Lemma cur_norm_app ch tl idx off idx' off' :
  cur_norm ch idx' off' = cur_norm ch idx off -> cur_norm (ch ++ tl) idx' off' = cur_norm (ch ++ tl) idx off.
Proof. intros H. now rewrite (cur_norm_ext ch tl idx), (cur_norm_ext ch tl idx'), H. Qed.

Lemma cur_norm_idem ch idx off : let '(i, o) := cur_norm ch idx off in cur_norm ch i o = (i, o).
Proof.
  pose proof (cur_norm_ext ch [] idx off) as H. rewrite app_nil_r in H.
  destruct (cur_norm ch idx off) as [i o]. now symmetry.
Qed.

Definition nonconsuming (o : op) : bool :=
  match o with
  | ORead _ false | OBatchRead _ _ false None | OBatchRead _ _ _ (Some _) => true
  | _ => false
  end.

(* not EngineW.keep (a relation between topic states): a file that imports both writes [EngineErase.keep] *)
Definition keep (o : op) : bool := negb (nonconsuming o).

Lemma offered_nonconsuming o : nonconsuming o = true -> offered o = [].
Proof. destruct o as [| |t ck|t mb ck st| |]; cbn; try discriminate; reflexivity. Qed.

Lemma offered_all_filter ops : offered_all (filter keep ops) = offered_all ops.
Proof.
  induction ops as [|o r IH]; [reflexivity|]. cbn [filter offered_all]. unfold keep at 1.
  destruct (nonconsuming o) eqn:E; cbn [negb offered_all]; [now rewrite (offered_nonconsuming o E), IH|now rewrite IH].
Qed.
