(* EngineSince.v — AtLeastOnce{persist_every = n}: the persisted position lags behind the consumer
   by exactly [r_since] entries (the reader's "reads since the last persist" counter), and that
   counter stays below the period max n 1 as long as the consuming reads are read_next calls ([LagN]).
   As a position clause [QN] for the invariant GQ of EngineRestart.v: every operation other than a consuming batch read
   keeps it on its topic in the hydrated world ([QN_topic]; a read leg by leg, [QN_leg]), and a restart re-delivers
   exactly those [r_since] entries and resets the counter ([reopen_QN]).  The invariant itself: EngineSinceR.v. *)
From W Require Import model.Base model.Engine proofs.EngineWF proofs.EngineInv proofs.EngineW proofs.EngineMain proofs.EnginePos
  proofs.EngineNorm proofs.EngineP3 proofs.EngineRestart proofs.EngineReopen.

(* consuming batch reads never persist in AtLeastOnce mode (and reset the counter): excluded *)
Definition rn_only (o : op) : bool :=
  match o with OBatchRead _ _ true None => false | _ => true end.

(* sealed blocks hold entries; the lag is numbered: exactly r_since delivered entries lie between the persisted
   position and the consumer; r_since is below the period *)
Definition LagN (n : N) (c : Cfg) (T : tstate) : Prop :=
  CNE T /\ (exists pre, Lag c T pre /\ N.of_nat (length pre) = r_since (reader_of T)) /\ r_since (reader_of T) < N.max n 1.

Definition QN (n : N) : Cfg -> N -> tstate -> Prop := fun c _ => LagN n c.

(* a leg of a read_next, or of a batch read that consumes nothing, keeps the clause: persisting the cursor resets
   lag and counter together, an entry handed out without persisting adds one to both *)
Lemma QN_leg c nid n bt T d b q T' : 0 < c_hdr c -> n <= u32_max -> Leg c nid (ALO n) bt T d b q T' ->
  (length d <= 1)%nat -> (bt = true -> d = []) -> LagN n c T -> LagN n c T'.
Proof.
  intros Hh Hn32 L Hd Hbt (Hcne & (pre & HL & Hlen) & L2).
  destruct (Lag_leg c nid _ bt T d b q T' pre Hh L Hcne HL) as (Hcne' & HL'). destruct L as [_ _ _ Hs].
  split; [exact Hcne'|]. unfold Since in Hs. cbv zeta in Hs.
  destruct b; [rewrite Hs; split; [exists []; auto|lia]|]. destruct d as [|e d'].
  - rewrite Hs, app_nil_r in *. eauto.
  - destruct Hs as (n0 & [= <-] & Hs). destruct bt; [discriminate (Hbt eq_refl)|]. destruct (Hs eq_refl) as (Hs1 & Hs2).
    destruct d'; [|cbn in Hd; lia]. split; [exists (pre ++ [e]); split; [exact HL'|]|exact Hs2].
    rewrite app_length, Nat2N.inj_add, Hlen, Hs1. cbn. unfold u32_max in *. lia.
Qed.

Lemma QN_topic c n be S o : cfg_ok c -> n <= u32_max -> GInv c S -> op_ok c o -> rn_only o = true ->
  LagN n c (get_ts S (otopic o)) -> LagN n c (get_ts (fst (step (env_of c (ALO n) be) S o)) (otopic o)).
Proof.
  intros Hc Hn32 Hg Hok Hrn HQ. pose proof Hc as (Hh & _). pose proof Hg as (Hn & Hti).
  (* Hsn: a write keeps the counter, the last clause of EngineW.keep *)
  destruct (topic_op c (ALO n) be S o Hc Hg Hok)
    as [(t & ck & T1 & d & f & q1 & p & q & Ho & L1 & L2 & _ & Hd & Hck)|[(es & Hrun & (_ & _ & _ & Hsn) & _)|(-> & _)]]; [| |exact HQ].
  - (* a consuming batch read is excluded, so a batch read hands out nothing *)
    apply (QN_leg c _ n _ _ _ _ _ _ Hh Hn32 L2); [| |apply (QN_leg c _ n _ _ _ _ _ _ Hh Hn32 L1); [cbn; lia|reflexivity|exact HQ]].
    + destruct o as [| |? ?|? ? [|] [|]| |]; try discriminate; injection Ho as <- <-; auto. rewrite Hck; auto.
    + intros Eb. destruct o as [| |? ?|? ? [|] [|]| |]; try discriminate; injection Ho as <- <-; auto.
  - (* a write: the topic grows behind the position and behind what is unread; the counter is not touched *)
    destruct HQ as (Hcne & (pre & HL & Hlen) & L2).
    destruct (WRun_Lag c Hh _ _ _ _ _ pre Hn (TInv_P _ _ _ (Hti _)) Hrun Hcne HL) as (Hcne' & HL').
    split; [exact Hcne'|]. split; [exists pre; split; [exact HL'|now rewrite Hsn]|now rewrite Hsn].
Qed.

Lemma nrm_since x ts : r_since (reader_of (nrm x ts)) = r_since (reader_of ts).
Proof.
  destruct (nrm_cases x ts) as [-> | ->]; [reflexivity|]. cbn [reader_of with_reader ts_reader].
  now destruct (hyd_shape x (reader_of ts) (ts_index ts)) as (i & o & tb & tof & ->).
Qed.

(* a restart outside block-id drift, on the raw state, for the hydration flavour [x] on both sides: the consumer is
   handed again exactly the r_since entries delivered since the last persist ([pre]); nothing lies between the persisted
   position and the recovered cursor any more (the position resolves exactly: PGood) and the counter is 0 *)
Lemma reopen_QN c n s g B Bb t x : cfg_ok c -> GQ (QN n) c s g B Bb -> id_drift c s = false ->
  LagN n c (nrm x (get_ts (reopen c s) t)) /\
  exists pre, N.of_nat (length pre) < N.max n 1 /\ unread c (nrm x (get_ts (reopen c s) t)) = pre ++ unread c (nrm x (get_ts s t)).
Proof.
  intros Hc (_ & Hd & Hb & Hl & Hall) Hdrift. pose proof Hc as (Hh & _).
  destruct (proj2 (Hall t) x) as (Hti & (_ & (pre & HL & Hlen) & Hlt) & _).
  destruct (reopen_Reopened c s t Hc Hd Hb Hl Hdrift _ x pre Hti HL) as (_ & _ & H). destruct (H x) as (_ & A2 & A3 & A4).
  (* the recovered reader is mk_reader: its counter is 0 *)
  assert (Hs0 : r_since (reader_of (nrm x (get_ts (reopen c s) t))) = 0) by (rewrite nrm_since, (proj1 (EngineDisk.reopen_shape c s t)); reflexivity).
  split; [|exists pre; split; [lia|exact A4]].
  split; [exact A2|]. split; [exists []; split; [exact A3|now rewrite Hs0]|rewrite Hs0; lia].
Qed.
