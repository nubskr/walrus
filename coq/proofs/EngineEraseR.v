(* EngineEraseR.v — C02 (a): erasing the non-consuming reads from a history, restarts included,
   leaves the result of every remaining operation unchanged.
   [reopen] reads, of the in-memory state, only each known topic's persisted index and the
   unmodelled flag (everything else comes from the disk image); a non-consuming read changes
   neither, nor the disk.  So two runs that differ by erased peeks restart into states that are
   equal topic by topic ([reopen_get_eq]).
   Between a restart and a topic's first stateful read the topic's reader is raw (cursor as set by
   the recovery scan, persisted position not yet applied); the two stateful read APIs apply it in
   two flavours ([nrm false] = read_next, [nrm true] = batch_read): read_next leaves the reader's
   tail fields (0,0), batch_read sets them to the persisted (block id, offset), and an erased peek
   can make the two runs apply it through different APIs.  Outside block-id drift a persisted tail
   position names a sealed block of the recovered chain, so either pair is DEAD: it names neither
   the writer block nor any block allocated later, and the simulation of EngineEraseD.v applies.
   On a state of a history outside drift all eager normalisations are therefore indistinguishable
   ([Nst_flavours]); the two runs are compared in some pair of them ([EG]), and a step is simulated in the flavour
   of its operation, where it acts on [Nst x s] as on [s] (EngineRestart.step_Nst). *)
From W Require Import model.Base model.Engine spec.Queue proofs.EngineWF proofs.EngineW proofs.EngineMain proofs.EngineRec proofs.EngineDisk
  proofs.EngineBlk proofs.EngineNorm proofs.EngineRestart proofs.EngineC06 proofs.EngineGen proofs.EngineGenR proofs.EngineCrash proofs.EngineErase
  proofs.EngineEraseD.

(* also for a topic the instance has no entry for: the scan finds no chain for it and flags nothing *)
Lemma reopen_get c s t : cfg_ok c -> DIs c s -> BIs c s ->
  get_ts (reopen c s) t = reopen_topic c (fst (scan0 c s)) t (ts_index (get_ts s t)) (ts_unmodelled (get_ts s t)).
Proof.
  intros Hc Hd Hb. rewrite reopen_get0. pose proof (scan_chain_ents c s t Hc Hd Hb) as Hce. unfold get_ts in *.
  destruct (find (fun p => fst p =? t) (s_topics s)) as [[k old]|]; cbn [option_map snd] in *; [reflexivity|].
  destruct (scan0_spec c (fun _ => True) s _ _ Hc Hd) as (Hflag & Hne & _).
  unfold reopen_topic, rc_get in *. rewrite Hflag.
  destruct (find (fun q => fst q =? t) (rc_chains _)) as [[k2 [t2 ch]]|] eqn:E3; [exfalso|reflexivity].
  pose proof (find_some _ _ E3) as (Hin & _). pose proof (proj1 (Forall_forall _ _) Hne _ Hin) as Hch. cbn in Hch, Hce.
  destruct ch; [congruence|discriminate].
Qed.

Lemma reopen_get_eq c s s' : cfg_ok c -> DIs c s -> BIs c s -> DIs c s' -> BIs c s' ->
  s_disk s' = s_disk s -> s_files s' = s_files s ->
  (forall t, ts_index (get_ts s' t) = ts_index (get_ts s t) /\ ts_unmodelled (get_ts s' t) = ts_unmodelled (get_ts s t)) ->
  forall t, get_ts (reopen c s') t = get_ts (reopen c s) t.
Proof.
  intros Hc Hd Hb Hd' Hb' Ed Ef Hiu t. rewrite !reopen_get by assumption. unfold scan0. rewrite Ed, Ef.
  now destruct (Hiu t) as (-> & ->).
Qed.

(* x = false: the stateful reads are read_next calls; x = true: they are batch reads.
   Offset-addressed batch reads are allowed in both.  As a boolean, [EngineRestart.flv x o]. *)
Definition api_ok (x : bool) (o : op) : bool :=
  match o with
  | ORead _ _ => negb x
  | OBatchRead _ _ _ None => x
  | _ => true
  end.

(* the read API of an operation (read_next where it has none): a flavour with [EngineRestart.flv] ([flav_flv]).  Not
   [EngineInv.is_batch], which is true of offset-addressed batch reads too *)
Definition flav (o : op) : bool := match o with OBatchRead _ _ _ None => true | _ => false end.

Lemma flav_flv o : flv (flav o) o.
Proof. destruct o as [| | |t mb ck [st|]| |]; reflexivity. Qed.

(* the two flavours differ by dead tails *)
Lemma hyd_flavours nid wo r p : r_hydrated r = false -> r_tail_bid r = 0 -> resolves (r_chain r) p ->
  (p_tail p = true -> dead nid wo 0 /\ dead nid wo (p_a p)) ->
  rsimD nid wo (hyd false r (Some p)) (hyd true r (Some p)).
Proof.
  intros Hh Htb Hr Hp. rewrite !hyd_res by assumption. rewrite Htb.
  constructor; cbn [r_chain r_idx r_off r_tail_bid r_tail_off r_since andb]; try reflexivity.
  destruct (p_tail p); [right; exact (Hp eq_refl)|now left].
Qed.

Lemma nrm_flavours c nid ts l B Bb x y : TGM c nid ts l B Bb -> 0 < nid -> tsimD nid (nrm x ts) (nrm y ts).
Proof.
  intros HT Hn.
  assert (Hmain : tsimD nid (nrm false ts) (nrm true ts)).
  { unfold nrm. destruct (r_hydrated (reader_of ts)) eqn:Eh; [apply tsimD_refl|].
    destruct (ts_index ts) as [p|] eqn:Ei; [|apply tsimD_refl].
    (* outside drift a persisted tail position names a sealed block: not the writer's, nor one still to be allocated *)
    set (bid := match ts_writer ts with Some w => b_id w | None => nid end).
    assert (Hbid : forall w, ts_writer ts = Some w -> bid = b_id w) by (intros w E; unfold bid; now rewrite E).
    pose proof (TGM_CS c nid ts l B Bb HT Hn bid Hbid ltac:(intros E; unfold bid; now rewrite E)) as Hcs.
    destruct (Hcs Eh p Ei) as (Htb & Hb & Hr & Hp).
    apply with_reader_tsimD; [apply tsimD_refl|]. apply hyd_flavours; [exact Eh|exact Htb|exact Hr|].
    intros Ht. destruct (Hp Ht) as (Ha & Hne).
    split; (split; [assumption|]); intros w E; rewrite <- (Hbid w E); [lia|exact Hne]. }
  destruct x, y; [apply tsimD_refl|apply tsimD_sym; exact Hmain|exact Hmain|apply tsimD_refl].
Qed.

Definition GMx (c : Cfg) (s : st) : Prop := exists g B Bb, GM c s g B Bb.

Lemma GMx_GInv x c s : GMx c s -> GInv c (Nst x s).
Proof. intros (g & B & Bb & HG). exact (proj1 (GM_Rel x c s g B Bb HG)). Qed.

Lemma Nst_flavours c s x y : GMx c s -> ssimD (Nst x s) (Nst y s).
Proof.
  intros (g & B & Bb & Hn & _ & _ & _ & Hall). split; [reflexivity|]. split; [reflexivity|]. split; [reflexivity|].
  intros t. rewrite !get_Nst. exact (nrm_flavours c _ _ _ _ _ x y (Hall t) Hn).
Qed.

(* the two runs are compared in some pair of flavours; on states of histories outside drift any pair will do *)
Definition EG (s s' : st) : Prop := exists x y, ssimD (Nst x s) (Nst y s').

Lemma EG_any c s s' x y : GMx c s -> GMx c s' -> EG s s' -> ssimD (Nst x s) (Nst y s').
Proof.
  intros HG HG' (x0 & y0 & H).
  exact (ssimD_trans _ _ _ (Nst_flavours c s x x0 HG) (ssimD_trans _ _ _ H (Nst_flavours c s' y0 y HG'))).
Qed.

Lemma step_flav c m be s o : cfg_ok c -> GMx c s -> op_ok c o ->
  step (env_of c m be) (Nst (flav o) s) o = (Nst (flav o) (fst (step (env_of c m be) s o)), snd (step (env_of c m be) s o)).
Proof.
  intros Hc (g & B & Bb & HG) Hok. exact (proj2 (proj2 (proj2 (step_Nst QL c m be s g B Bb o Hc HG Hok))) _ (flav_flv o)).
Qed.

(* any operation other than a restart, done by both runs: simulated in its own flavour *)
Lemma EG_step c m be s s' o : cfg_ok c -> op_ok c o -> GMx c s -> GMx c s' -> EG s s' ->
  snd (step (env_of c m be) s' o) = snd (step (env_of c m be) s o) /\
  EG (fst (step (env_of c m be) s o)) (fst (step (env_of c m be) s' o)).
Proof.
  intros Hc Hok HG HG' He.
  assert (Hne : o <> OReopen) by (intros ->; exact Hok).
  pose proof (step_simD c m be _ _ o Hc (EG_any c s s' (flav o) (flav o) HG HG' He) (GMx_GInv _ c s HG) (GMx_GInv _ c s' HG') Hne) as Hs.
  rewrite (step_flav c m be s o Hc HG Hok), (step_flav c m be s' o Hc HG' Hok) in Hs. cbn [fst snd] in Hs.
  split; [exact (proj1 Hs)|]. exists (flav o), (flav o). exact (proj2 Hs).
Qed.

(* a non-consuming read done by the first run only: it moves to an indistinguishable state *)
Lemma EG_step_erased c m be s s' o : cfg_ok c -> GMx c s -> GMx c s' -> EG s s' -> nonconsuming o = true ->
  EG (fst (step (env_of c m be) s o)) s'.
Proof.
  intros Hc HG HG' He Hnc.
  assert (Hok : op_ok c o) by (destruct o; try discriminate; exact I).
  pose proof (peek_ssimD c m be (Nst (flav o) s) o (GMx_GInv _ c s HG) Hnc) as Hp.
  rewrite (step_flav c m be s o Hc HG Hok) in Hp. cbn [fst] in Hp.
  exists (flav o), (flav o). exact (ssimD_trans _ _ _ (ssimD_sym _ _ Hp) (EG_any c s s' _ _ HG HG' He)).
Qed.

Lemma EG_reopen c s s' : cfg_ok c -> GMx c s -> GMx c s' -> EG s s' -> EG (reopen c s) (reopen c s').
Proof.
  (* GM: next id, DIs, BIs, DLim, topics; ssimD: allocator, disk, files, topics *)
  intros Hc (g & B & Bb & _ & Hd & Hb & _ & _) (g' & B' & Bb' & _ & Hd' & Hb' & _ & _) (x & y & A & B0 & C & D).
  cbn [Nst s_alloc s_disk s_files] in *.
  assert (Hg : forall t, get_ts (reopen c s') t = get_ts (reopen c s) t).
  { apply (reopen_get_eq c s s' Hc Hd Hb Hd' Hb' B0 C). intros t. specialize (D t). rewrite !get_Nst in D.
    destruct D as [_ _ _ Hi Hu _]. rewrite !nrm_index in Hi. rewrite !nrm_unmodelled in Hu. auto. }
  destruct (reopen_fields c s) as (F1 & F2 & F3). destruct (reopen_fields c s') as (F1' & F2' & F3').
  exists false, false. unfold ssimD. cbn [Nst s_alloc s_disk s_files].
  split; [rewrite F3, F3'; unfold scan0; now rewrite B0, C|]. split; [now rewrite F1, F1'|]. split; [now rewrite F2, F2', C|].
  intros t. rewrite !get_Nst, Hg. apply tsimD_refl.
Qed.

(* [ops] is admissible from [s]: the invariant holds of [s] for some ledger, with room in the budgets for what
   [ops] offers, and no restart of the run happens under block-id drift *)
Definition Adm (v : env) (s : st) (ops : list op) : Prop :=
  (exists g B Bb, GM (v_cfg v) s g B Bb /\
     B + N.of_nat (length (offered_all ops)) <= u64_max /\ Bb + sum_len (offered_all ops) <= u64_max) /\
  outside_known v s ops = true.

Lemma Adm_GMx v s ops : Adm v s ops -> GMx (v_cfg v) s.
Proof. intros ((g & B & Bb & HG & _) & _). now exists g, B, Bb. Qed.

Lemma Adm_init c m be ops : cfg_ok c -> outside_known (env_of c m be) init ops = true ->
  N.of_nat (length (offered_all ops)) <= u64_max -> sum_len (offered_all ops) <= u64_max -> Adm (env_of c m be) init ops.
Proof. intros (_ & Hb0 & _) Ho HB HBb. split; [|exact Ho]. exists [], 0, 0. split; [exact (GM_init c Hb0)|]. now rewrite !N.add_0_l. Qed.

Lemma Adm_step c m be s o r : cfg_ok c -> Adm (env_of c m be) s (o :: r) -> Adm (env_of c m be) (fst (step (env_of c m be) s o)) r.
Proof.
  intros Hc ((g & B & Bb & HG & HB & HBb) & Hout).
  cbn [outside_known] in Hout. apply andb_true_iff in Hout. destruct Hout as (Ho & Hout). split; [|exact Hout].
  cbn [offered_all] in HB, HBb. rewrite app_length, Nat2N.inj_add in HB. rewrite sum_len_app in HBb.
  destruct (op_reopen_or_ok c o) as [->|Hok].
  - apply negb_true_iff in Ho. exists (map (rbl c s) g), B, Bb. split; [exact (proj1 (GM_reopen c s g B Bb Hc HG Ho))|exact (conj HB HBb)].
  - exists (ledger_step g o (snd (step (env_of c m be) s o))), (B + N.of_nat (length (offered o))), (Bb + sum_len (offered o)).
    split; [apply (GM_step c m be s g B Bb o Hc HG Hok); lia|lia].
Qed.

(* any set [k] of operations that keeps everything but non-consuming reads; [EngineErase.keep] keeps none of them *)
Theorem erase_with_restarts_from c m be (k : op -> bool) : cfg_ok c -> (forall o, k o = false -> nonconsuming o = true) ->
  forall ops s s', Adm (env_of c m be) s ops -> Adm (env_of c m be) s' (filter k ops) -> EG s s' ->
  filter (fun p => k (fst p)) (trace (env_of c m be) s ops) = trace (env_of c m be) s' (filter k ops).
Proof.
  intros Hc Hk. induction ops as [|o r IH]; intros s s' Ha Ha' He; [reflexivity|].
  pose proof (Adm_step c m be s o r Hc Ha) as Ha1. pose proof (Adm_GMx _ _ _ Ha) as HG. pose proof (Adm_GMx _ _ _ Ha') as HG'.
  cbn [trace filter] in *. destruct (k o) eqn:Ek.
  - (* kept: both runs step, with the same result *)
    pose proof (Adm_step c m be s' o _ Hc Ha') as Ha1'.
    assert (Hst : snd (step (env_of c m be) s' o) = snd (step (env_of c m be) s o) /\
                  EG (fst (step (env_of c m be) s o)) (fst (step (env_of c m be) s' o))).
    { destruct (op_reopen_or_ok c o) as [->|Hok]; [exact (conj eq_refl (EG_reopen c s s' Hc HG HG' He))|now apply EG_step]. }
    destruct Hst as (Hr & He1).
    cbn [trace]. destruct (step (env_of c m be) s o) as [s1 res]. destruct (step (env_of c m be) s' o) as [s1' res'].
    cbn [fst snd filter] in *. subst res'. rewrite Ek. f_equal. exact (IH s1 s1' Ha1 Ha1' He1).
  - (* erased: the main run moves to an indistinguishable state, the other run stays *)
    pose proof (EG_step_erased c m be s s' o Hc HG HG' He (Hk o Ek)) as He1.
    destruct (step (env_of c m be) s o) as [s1 res]. cbn [fst filter] in *. rewrite Ek.
    exact (IH s1 s' Ha1 Ha' He1).
Qed.

(* from the empty instance: any mode, any backend, any number of restarts, both read APIs;
   the two booleans say that no restart of either run happens under block-id drift *)
Theorem erase_with_restarts c m be ops : cfg_ok c ->
  outside_known (env_of c m be) init ops = true ->
  outside_known (env_of c m be) init (filter EngineErase.keep ops) = true ->
  N.of_nat (length (offered_all ops)) <= u64_max -> sum_len (offered_all ops) <= u64_max ->
  filter (fun p => EngineErase.keep (fst p)) (trace (env_of c m be) init ops) =
  trace (env_of c m be) init (filter EngineErase.keep ops).
Proof.
  intros Hc Ho Ho' HB HBb.
  apply (erase_with_restarts_from c m be EngineErase.keep Hc (fun o H => proj1 (negb_false_iff _) H) ops init init).
  - now apply Adm_init.
  - apply Adm_init; [exact Hc|exact Ho'| |]; now rewrite offered_all_filter.
  - exists false, false. apply ssimD_refl.
Qed.

Corollary erase_with_restarts_one_api x c m be ops : cfg_ok c ->
  forallb (api_ok x) ops = true ->
  outside_known (env_of c m be) init ops = true ->
  outside_known (env_of c m be) init (filter EngineErase.keep ops) = true ->
  N.of_nat (length (offered_all ops)) <= u64_max -> sum_len (offered_all ops) <= u64_max ->
  filter (fun p => EngineErase.keep (fst p)) (trace (env_of c m be) init ops) =
  trace (env_of c m be) init (filter EngineErase.keep ops).
Proof. intros Hc _. now apply erase_with_restarts. Qed.
