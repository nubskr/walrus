(* EngineDisk.v — the on-disk image kept by model/Engine.v ([s_disk]) always reflects the
   topics' streams: for every reachable state, the entries the image holds for a topic, in
   allocation (= file/offset) order, are exactly that topic's stream, and the image is
   well-formed in the sense of EngineRec.v ([DI], [DIs]; kept by the two image events, [DI_write] and
   [DI_snoc], hence by every write; a read stores a topic state with the same blocks, [SB], in any state:
   [step_cases]).  Then [reopen]: what it makes of a topic, field by field
   ([reopen_shape]), what its scan finds in an image with [DI] ([scan0_spec]), and the consequence
   that a restart after any restart-free history rebuilds every topic's stream ([reopen_stream]).
   The reads are taken in the normal form of EngineNorm.v: [read_next] is [rn_from] of the hydrated reader [hyd false ..]
   ([read_next_from]), a stateful batch read starts from [hyd true ..] ([br_position_hyd]). *)
From W Require Import model.Base model.Engine proofs.EngineWF proofs.EngineBasic proofs.EngineInv proofs.EngineW proofs.EngineMain proofs.EngineNorm proofs.EngineRec.

(* an in-memory block and its image on disk have the same key, and no two images do ([di_nodup]); [disk_write]
   finds its target by it *)
Definition dkey (x : dblk) : N * N := (d_file x, d_off x).
Definition bkey (b : blk) : N * N := (b_file b, b_off b).

(* what the image [x] holds for topic id [t] *)
Definition contrib (t : N) (x : dblk) : list entry :=
  match d_topic x with Some t0 => if t_id t0 =? t then d_ents x else [] | None => [] end.

(* [x] is [t]'s or nobody's yet: [d_topic] is set by the first write ([disk_write]), so a block without it is empty *)
Definition owner_ok (t : N) (x : dblk) : Prop :=
  match d_topic x with None => d_ents x = [] | Some t0 => t_id t0 = t end.

(* the writer block [w] of topic [t] has its image in [D], nothing of [t] lies behind it.  Last clause: a writer
   block that is still empty is a topic's first block, one unit long (a rotation writes into its fresh block at
   once); that is what makes the first entry written into it satisfy [dwf] *)
Definition wslot (c : Cfg) (t : N) (w : blk) (D : list dblk) : Prop :=
  exists pre x post, D = pre ++ x :: post /\ dkey x = bkey w /\ d_ents x = b_ents w /\ d_limit x = b_limit w /\
    owner_ok t x /\ Forall (fun y => contrib t y = []) post /\ (b_ents w = [] -> b_limit w = c_block c).

(* [AInv]: every extent lies behind the allocator's cursor; [fsorted]: file numbers ascend.  Both
   speak of allocation order, and the model keeps the image newest first: hence [rev (s_disk s)] in [DIs]. *)
Definition AInv (c : Cfg) (D : list dblk) (al : alloc) (nf : N) : Prop :=
  a_file al < nf /\
  Forall (fun x => d_file x <= a_file al /\ (d_file x = a_file al -> d_off x + d_limit x <= a_off al) /\ 0 < d_limit x) D.

Fixpoint fsorted (D : list dblk) : Prop :=
  match D with
  | [] => True
  | x :: r => Forall (fun y => d_file x <= d_file y) r /\ fsorted r
  end.

(* The image invariant, over an image [D] in allocation order and over what it is compared with: [wr t] the
   writer block of topic [t], [sm t] its stream.  These two are parameters because the state does not always
   hold them: while a batch is planned the running block travels beside the state ([DIcur]), and [reopen] never
   looks at writers ([reopen_stream_DI]); [DIs] is the instance at the state.  [di_keys]: two topics never write
   into the same block, so a write into one slot leaves the slots of the others alone. *)
Record DI (c : Cfg) (D : list dblk) (al : alloc) (nf : N) (wr : N -> option blk) (sm : N -> list entry) : Prop := {
  di_nodup : NoDup (map dkey D);
  di_ents : forall t, ents_of_topic t D = sm t;
  di_slot : forall t w, wr t = Some w -> wslot c t w D;
  di_wf : Forall (dwf c) D;
  di_alloc : AInv c D al nf;
  di_sorted : fsorted D;
  di_keys : forall t t' w w', t <> t' -> wr t = Some w -> wr t' = Some w' -> bkey w <> bkey w'
}.

Definition upd {A} (f : N -> A) (t : N) (v : A) : N -> A := fun t' => if t' =? t then v else f t'.
Lemma upd_same {A} (f : N -> A) t v : upd f t v t = v. Proof. unfold upd. now rewrite N.eqb_refl. Qed.
Lemma upd_other {A} (f : N -> A) t v t' : t' <> t -> upd f t v t' = f t'.
Proof. intros H. unfold upd. replace (t' =? t) with false by lia. reflexivity. Qed.
Lemma upd_upd {A} (f : N -> A) t a b t' : upd (upd f t a) t b t' = upd f t b t'.
Proof. unfold upd. now destruct (t' =? t). Qed.
Lemma upd_eta {A} (f : N -> A) t t' : upd f t (f t) t' = f t'.
Proof. unfold upd. now destruct (N.eqb_spec t' t) as [->|]. Qed.
Lemma upd_ext {A} (f g : N -> A) t v w : v = w -> (forall t', t' <> t -> f t' = g t') -> forall t', upd f t v t' = upd g t w t'.
Proof. intros -> H t'. unfold upd. destruct (N.eqb_spec t' t); auto. Qed.
Lemma upd_map {A B} (F : A -> B) (f : N -> A) t v t' : F (upd f t v t') = upd (fun x => F (f x)) t (F v) t'.
Proof. unfold upd. now destruct (t' =? t). Qed.

Lemma get_set_upd s t ts t' : get_ts (set_ts s t ts) t' = upd (get_ts s) t ts t'.
Proof. unfold upd. destruct (N.eqb_spec t' t) as [->|Hne]; [apply get_set_same|now apply get_set_other]. Qed.

Lemma stream_blk_add ts w c es : stream (with_writer ts (Some (blk_add w c es))) = stream (with_writer ts (Some w)) ++ es.
Proof. unfold stream, w_ents. cbn [with_writer ts_writer blk_add b_ents]. apply app_assoc. Qed.

Lemma used_blk_add c b es : b_used b = sum_need c (b_ents b) -> b_used (blk_add b c es) = sum_need c (b_ents (blk_add b c es)).
Proof. intros H. cbn [blk_add b_used b_ents]. now rewrite sum_need_app, H. Qed.

(* a block sealed empty is retired: either way the stream keeps the sealed block's entries *)
Lemma stream_rot ts cur nb c es : (b_used cur = 0 -> b_ents cur = []) -> b_ents nb = [] ->
  stream (with_writer (seal ts cur) (Some (blk_add nb c es))) = stream (with_writer ts (Some cur)) ++ es.
Proof.
  intros Hz En. unfold stream, w_ents. cbn [with_writer ts_writer blk_add b_ents]. rewrite En.
  change (chain_of (with_writer (seal ts cur) (Some (blk_add nb c es)))) with (chain_of (seal ts cur)).
  change (chain_of (with_writer ts (Some cur))) with (chain_of ts).
  rewrite chain_of_seal. destruct (b_used cur =? 0) eqn:E.
  - rewrite Hz by lia. now rewrite app_nil_r.
  - rewrite chain_ents_app. cbn. now rewrite app_nil_r.
Qed.

Lemma fsorted_app_one D z : fsorted D -> Forall (fun x => d_file x <= d_file z) D -> fsorted (D ++ [z]).
Proof.
  induction D as [|x D IH]; intros Hs Hf; cbn [app fsorted]; [auto|].
  destruct Hs as (H1 & H2). split; [|exact (IH H2 (Forall_inv_tail Hf))].
  apply Forall_app. split; [exact H1|]. constructor; [exact (Forall_inv Hf)|constructor].
Qed.

Lemma Forall_replace {A} (P : A -> Prop) pre x x' post : (P x -> P x') -> Forall P (pre ++ x :: post) -> Forall P (pre ++ x' :: post).
Proof.
  intros H F. apply Forall_app in F. destruct F as (F1 & F2).
  apply Forall_app. split; [exact F1|]. constructor; [exact (H (Forall_inv F2))|exact (Forall_inv_tail F2)].
Qed.

Lemma fsorted_replace pre x x' post : d_file x' = d_file x -> fsorted (pre ++ x :: post) -> fsorted (pre ++ x' :: post).
Proof.
  intros Hf. induction pre as [|p pre IH]; cbn [app fsorted]; intros (H1 & H2).
  - now rewrite Hf.
  - split; [|now apply IH]. apply (Forall_replace _ pre x x' post); [|exact H1]. now rewrite Hf.
Qed.

(* where an element sits relative to a different one of the same list *)
Lemma mid_split {A} (x x0 : A) : x <> x0 -> forall pre post pre0 post0, pre ++ x :: post = pre0 ++ x0 :: post0 ->
  (exists m, pre0 = pre ++ x :: m /\ post = m ++ x0 :: post0) \/ (exists m, pre = pre0 ++ x0 :: m /\ post0 = m ++ x :: post).
Proof.
  intros Hne. induction pre as [|a pre IH]; intros post [|b pre0] post0 H; cbn [app] in H; injection H as Ha Hr.
  - contradiction.
  - left. exists pre0. now subst.
  - right. exists pre. now subst.
  - destruct (IH _ _ _ Hr) as [(m & -> & ->)|(m & -> & ->)]; [left|right]; exists m; now subst.
Qed.

Lemma ents_of_topic_cons t x l : ents_of_topic t (x :: l) = contrib t x ++ ents_of_topic t l.
Proof. reflexivity. Qed.

Lemma ents_of_topic_mid t pre x post : ents_of_topic t (pre ++ x :: post) = ents_of_topic t pre ++ contrib t x ++ ents_of_topic t post.
Proof. now rewrite ents_of_topic_app, ents_of_topic_cons. Qed.

Lemma ents_quiet t l : Forall (fun y => contrib t y = []) l -> ents_of_topic t l = [].
Proof. induction 1 as [|y l Hy _ IH]; [reflexivity|]. now rewrite ents_of_topic_cons, Hy, IH. Qed.

Lemma in_map_key_split D k : In k (map dkey D) -> exists pre x post, D = pre ++ x :: post /\ dkey x = k.
Proof.
  intros H. apply in_map_iff in H. destruct H as (x & Hk & Hin). apply in_split in Hin. destruct Hin as (pre & post & ->).
  exists pre, x, post. auto.
Qed.

Definition zblk (f o lim : N) : dblk := {| d_file := f; d_off := o; d_limit := lim; d_topic := None; d_ents := [] |}.

Definition wr_blk (x : dblk) (t : topic) (es : list entry) : dblk :=
  {| d_file := d_file x; d_off := d_off x; d_limit := d_limit x;
     d_topic := match d_topic x with Some t0 => Some t0 | None => Some t end;
     d_ents := d_ents x ++ es |}.

Lemma contrib_owner t x : owner_ok t x -> contrib t x = d_ents x.
Proof.
  unfold owner_ok, contrib. destruct (d_topic x) as [t0|].
  - intros ->. now rewrite N.eqb_refl.
  - now intros ->.
Qed.

Lemma contrib_other t x t' : owner_ok t x -> t' <> t -> contrib t' x = [].
Proof.
  unfold owner_ok, contrib. destruct (d_topic x) as [t0|]; [|reflexivity].
  intros E Hne. now replace (t_id t0 =? t') with false by lia.
Qed.

Lemma owner_wr x t es : owner_ok (t_id t) x -> owner_ok (t_id t) (wr_blk x t es).
Proof. unfold owner_ok, wr_blk. cbn. now destruct (d_topic x). Qed.

Lemma disk_write_at : forall l1 x l2 f o t es,
  NoDup (map dkey (l1 ++ x :: l2)) -> dkey x = (f, o) ->
  disk_write (l1 ++ x :: l2) f o t es = l1 ++ wr_blk x t es :: l2.
Proof.
  induction l1 as [|y l1 IH]; intros x l2 f o t es Hnd Hk; cbn [app disk_write].
  - injection Hk as <- <-. now rewrite !N.eqb_refl.
  - cbn [app map] in Hnd. apply NoDup_cons_iff in Hnd. destruct Hnd as (Hnin & Hnd).
    destruct ((d_file y =? f) && (d_off y =? o)) eqn:E.
    + exfalso. apply Hnin. rewrite map_app. apply in_or_app. right. left.
      unfold dkey in *. rewrite Hk. f_equal; lia.
    + f_equal. now apply IH.
Qed.

Lemma rev_disk_write l pre x post f o t es :
  NoDup (map dkey (rev l)) -> rev l = pre ++ x :: post -> dkey x = (f, o) ->
  rev (disk_write l f o t es) = pre ++ wr_blk x t es :: post.
Proof.
  intros Hnd Hr Hk.
  assert (Hl : l = rev post ++ x :: rev pre).
  { rewrite <- (rev_involutive l), Hr, rev_app_distr. cbn. now rewrite <- app_assoc. }
  assert (Hnd2 : NoDup (map dkey l)).
  { rewrite <- (rev_involutive l), map_rev. apply NoDup_rev. exact Hnd. }
  rewrite Hl. rewrite disk_write_at; [|rewrite <- Hl; exact Hnd2|exact Hk].
  rewrite rev_app_distr. cbn. rewrite !rev_involutive, <- app_assoc. reflexivity.
Qed.

Lemma wslot_key c t w D : wslot c t w D -> In (bkey w) (map dkey D).
Proof. intros (pre & x & post & -> & K & _). rewrite <- K, map_app. apply in_or_app. right. now left. Qed.

Lemma wslot_app_z c t w D z : contrib t z = [] -> wslot c t w D -> wslot c t w (D ++ [z]).
Proof.
  intros Hz (pre & x & post & -> & K & E & L & O & Q & Z).
  exists pre, x, (post ++ [z]). rewrite <- app_assoc. cbn [app]. repeat split; auto.
  apply Forall_app. split; [exact Q|]. constructor; [exact Hz|constructor].
Qed.

Lemma wslot_replace c t w pre x x' post :
  contrib t x' = [] -> dkey x <> bkey w -> wslot c t w (pre ++ x :: post) -> wslot c t w (pre ++ x' :: post).
Proof.
  intros Hq Hk (pre0 & x0 & post0 & HD & K & E & L & O & Q & Z).
  assert (Hne : x <> x0) by (intros ->; exact (Hk K)).
  destruct (mid_split x x0 Hne _ _ _ _ HD) as [(m & -> & ->)|(m & -> & ->)].
  - exists (pre ++ x' :: m), x0, post0. rewrite <- app_assoc. repeat split; auto.
  - exists pre0, x0, (m ++ x' :: post). rewrite <- app_assoc. repeat split; auto.
    exact (Forall_replace _ m x x' post (fun _ => Hq) Q).
Qed.

Lemma keys_upd (wr : N -> option blk) t nb :
  (forall t t' w w', t <> t' -> wr t = Some w -> wr t' = Some w' -> bkey w <> bkey w') ->
  (forall t' w', t' <> t -> wr t' = Some w' -> bkey w' <> bkey nb) ->
  forall t1 t2 w1 w2, t1 <> t2 -> upd wr t (Some nb) t1 = Some w1 -> upd wr t (Some nb) t2 = Some w2 -> bkey w1 <> bkey w2.
Proof.
  intros Hk Hnb t1 t2 w1 w2 Hne. unfold upd.
  destruct (N.eqb_spec t1 t) as [->|N1], (N.eqb_spec t2 t) as [->|N2]; intros H1 H2.
  - contradiction.
  - injection H1 as <-. intros E. exact (Hnb _ _ N2 H2 (eq_sym E)).
  - injection H2 as <-. exact (Hnb _ _ N1 H1).
  - exact (Hk _ _ _ _ Hne H1 H2).
Qed.

Lemma extent_small c e : 0 < c_block c -> need c e <= c_block c -> extent_of c e = c_block c.
Proof. intros Hb H. unfold extent_of. replace (c_block c <? need c e) with false by lia. reflexivity. Qed.

Lemma DI_write c s wr sm t w e : 0 < c_block c ->
  DI c (rev (s_disk s)) (s_alloc s) (s_files s) wr sm -> wr (t_id t) = Some w ->
  b_used w = sum_need c (b_ents w) -> b_used w + need c e <= b_limit w ->
  DI c (rev (s_disk (st_disk_write s w t [e]))) (s_alloc s) (s_files s)
     (upd wr (t_id t) (Some (blk_add w c [e]))) (upd sm (t_id t) (sm (t_id t) ++ [e])).
Proof.
  intros Hb HD Hw Hu Hfit.
  destruct (di_slot _ _ _ _ _ _ HD _ _ Hw) as (pre & x & post & HDe & K & E & L & O & Q & Z).
  cbn [st_disk_write s_disk]. rewrite (rev_disk_write _ pre x post _ _ t [e] (di_nodup _ _ _ _ _ _ HD) HDe K).
  revert HD. rewrite HDe. intros [Hnd He Hsl Hwf Hal Hso Hk].
  pose proof (owner_wr x t [e] O) as O'.
  constructor.
  - (* di_nodup *) rewrite map_app in Hnd |- *. exact Hnd.
  - (* di_ents *) intros t0. specialize (He t0). rewrite ents_of_topic_mid in He |- *.
    destruct (N.eq_dec t0 (t_id t)) as [->|Hne].
    + rewrite upd_same, <- He, (contrib_owner _ _ O'), (contrib_owner _ _ O), (ents_quiet _ _ Q), !app_nil_r. apply app_assoc.
    + rewrite upd_other, (contrib_other _ _ t0 O' Hne) by exact Hne. now rewrite (contrib_other _ _ t0 O Hne) in He.
  - (* di_slot *) intros t0 w0 Hw0. destruct (N.eq_dec t0 (t_id t)) as [->|Hne].
    + rewrite upd_same in Hw0. injection Hw0 as <-.
      exists pre, (wr_blk x t [e]), post. split; [reflexivity|]. split; [exact K|].
      split; [cbn; now rewrite E|]. split; [exact L|]. split; [exact O'|].
      split; [exact Q|]. cbn. intros Habs. destruct (b_ents w); discriminate.
    + rewrite upd_other in Hw0 by exact Hne.
      apply (wslot_replace c t0 w0 pre x); [exact (contrib_other _ _ t0 O' Hne)| |now apply Hsl].
      rewrite K. exact (Hk _ _ _ _ (not_eq_sym Hne) Hw Hw0).
  - (* di_wf *) apply (Forall_replace _ pre x (wr_blk x t [e]) post); [|exact Hwf].
    unfold dwf. cbn [wr_blk d_ents d_topic d_limit]. rewrite L, E.
    destruct (b_ents w) as [|e1 es] eqn:Ew; cbn [app sum_need] in *.
    + (* first entry of the block *)
      intros _. split; [destruct (d_topic x); eauto|]. rewrite (Z eq_refl) in *. split; [apply extent_small; [exact Hb|lia]|lia].
    + intros (Ht & Hext & Hsum). split; [destruct (d_topic x); [eauto|destruct Ht; discriminate]|].
      split; [exact Hext|]. rewrite sum_need_app. cbn [sum_need]. lia.
  - (* di_alloc *) split; [exact (proj1 Hal)|]. generalize (proj2 Hal). apply Forall_replace. exact (fun H => H).
  - (* di_sorted *) exact (fsorted_replace pre x (wr_blk x t [e]) post eq_refl Hso).
  - (* di_keys *) apply keys_upd; [exact Hk|]. intros t' w' Hne Hw'. exact (Hk _ _ _ _ Hne Hw' Hw).
Qed.

(* opening the next file: nothing lies in it yet *)
Lemma AInv_next_file c D al nf n : AInv c D al nf -> AInv c D {| a_next := n; a_file := nf; a_off := 0 |} (nf + 1).
Proof.
  intros (A1 & A2). split; [cbn; lia|]. eapply Forall_impl; [|exact A2]. cbn. intros x (B1 & _ & B3). repeat split; lia.
Qed.

(* a block at the allocator's cursor: its key is fresh, its file the last one, and the cursor moves behind it *)
Lemma AInv_snoc c D al nf z n : AInv c D al nf -> dkey z = (a_file al, a_off al) -> 0 < d_limit z ->
  ~ In (dkey z) (map dkey D) /\ Forall (fun x => d_file x <= d_file z) D /\
  AInv c (D ++ [z]) {| a_next := n; a_file := a_file al; a_off := a_off al + d_limit z |} nf.
Proof.
  intros (A1 & A2) Kz Hl. pose proof Kz as Kz'. injection Kz' as Zf Zo. rewrite Kz, Zf. split; [|split; [|split; [exact A1|]]].
  - intros Hin. apply in_map_iff in Hin. destruct Hin as (x & Hk & Hx). eapply Forall_forall in A2; [|exact Hx].
    injection Hk as Hf Ho. destruct A2 as (_ & B & C). specialize (B Hf). lia.
  - eapply Forall_impl; [|exact A2]. cbn. intros x (B & _). exact B.
  - cbn [a_file a_off]. apply Forall_app. split.
    + eapply Forall_impl; [|exact A2]. cbn. intros x (B & C & E). repeat split; auto. intros H. specialize (C H). lia.
    + constructor; [|constructor]. rewrite Zf, Zo. repeat split; lia.
Qed.

(* A fresh block becomes the writer block of topic [t].  Three objects: [b], the handle the allocator returned
   ([allocd]: empty, at the cursor); [z], the image that stands on disk for it at the end of the step; [w], the
   block [t] writes into from now on.  For a topic's first block [w] = [b] and [z] is all zeros; a rotation
   writes its entry at once, so [w] = [b] with the entry and [z] holds it.  The last four premises are the
   clauses of [wslot] for [z] and [w]. *)
Lemma DI_snoc c s s1 b wr sm t z w :
  DI c (rev (s_disk s)) (s_alloc s) (s_files s) wr sm -> allocd s s1 b (d_limit z) -> 0 < d_limit z -> dkey z = bkey b ->
  dwf c z -> owner_ok t z ->
  dkey z = bkey w -> d_ents z = b_ents w -> d_limit z = b_limit w -> (b_ents w = [] -> b_limit w = c_block c) ->
  DI c (rev (s_disk s) ++ [z]) (s_alloc s1) (s_files s1) (upd wr t (Some w)) (upd sm t (sm t ++ d_ents z)).
Proof.
  (* EngineW.allocd, by position: f, o; disk; key of b; b_ents; b_limit; topics; b_id; b_used; same file \/ next file *)
  intros HD (f & o & _ & Kb & _ & _ & _ & _ & _ & Hcase) Hl Kz. change (bkey b = (f, o)) in Kb. rewrite Kb in Kz.
  pose proof (di_alloc _ _ _ _ _ _ HD) as HA.
  assert (H3 : ~ In (dkey z) (map dkey (rev (s_disk s))) /\ Forall (fun x => d_file x <= d_file z) (rev (s_disk s)) /\
               AInv c (rev (s_disk s) ++ [z]) (s_alloc s1) (s_files s1)).
  { destruct Hcase as [(-> & -> & -> & ->)|(-> & -> & -> & ->)]; [|apply (AInv_next_file c _ _ _ 0) in HA]; exact (AInv_snoc c _ _ _ z _ HA Kz Hl). }
  destruct H3 as (Hfresh & Hfiles & Hal'). revert HD.
  intros [Hnd He Hsl Hwf Hal Hso Hk] Hz Ho Kw Ez Lz Zz.
  constructor.
  - (* di_nodup *) rewrite map_app. apply NoDup_snoc; assumption.
  - (* di_ents *) intros t0. rewrite ents_of_topic_app, He, ents_of_topic_cons. cbn [ents_of_topic flat_map]. rewrite app_nil_r.
    destruct (N.eq_dec t0 t) as [->|Hne].
    + now rewrite upd_same, (contrib_owner _ _ Ho).
    + now rewrite upd_other, (contrib_other _ _ _ Ho Hne), app_nil_r.
  - (* di_slot *) intros t0 w0 Hw0. destruct (N.eq_dec t0 t) as [->|Hne].
    + rewrite upd_same in Hw0. injection Hw0 as <-. exists (rev (s_disk s)), z, []. repeat split; auto.
    + rewrite upd_other in Hw0 by exact Hne. apply wslot_app_z; [exact (contrib_other _ _ _ Ho Hne)|now apply Hsl].
  - (* di_wf *) apply Forall_app. split; [exact Hwf|]. constructor; [exact Hz|constructor].
  - (* di_alloc *) exact Hal'.
  - (* di_sorted *) now apply fsorted_app_one.
  - (* di_keys *) apply keys_upd; [exact Hk|]. intros t' w' _ Hw' E. apply Hfresh. rewrite Kw, <- E. exact (wslot_key _ _ _ _ (Hsl _ _ Hw')).
Qed.

(* the fresh block of a rotation is sized for the entry it takes, or for one unit if that is
   more: either way it has the extent recovery derives from the entry *)
Lemma extent_want c e want : 0 < c_block c -> 0 < c_hdr c -> need c e <= want <= N.max (need c e) (c_block c) ->
  round_up c want = extent_of c e /\ need c e <= round_up c want.
Proof.
  intros Hb Hh Hw. pose proof (need_pos c e Hh). pose proof (round_up_bounds c want Hb). split; [|lia].
  unfold extent_of. destruct (c_block c <? need c e) eqn:E.
  - now replace want with (need c e) by lia.
  - apply round_up_small; lia.
Qed.

Definition wrs (s : st) : N -> option blk := fun t => ts_writer (get_ts s t).
Definition sms (s : st) : N -> list entry := fun t => stream (get_ts s t).
Definition DIs (c : Cfg) (s : st) : Prop := DI c (rev (s_disk s)) (s_alloc s) (s_files s) (wrs s) (sms s).

Lemma wrs_set_ts s t ts t' : wrs (set_ts s t ts) t' = upd (wrs s) t (ts_writer ts) t'.
Proof. unfold wrs. rewrite get_set_upd. apply upd_map. Qed.
Lemma sms_set_ts s t ts t' : sms (set_ts s t ts) t' = upd (sms s) t (stream ts) t'.
Proof. unfold sms. rewrite get_set_upd. apply upd_map. Qed.

Lemma DI_ext c D al nf wr sm wr' sm' :
  (forall t, wr' t = wr t) -> (forall t, sm' t = sm t) -> DI c D al nf wr sm -> DI c D al nf wr' sm'.
Proof.
  intros Hw Hs [A1 A2 A3 A4 A5 A6 A7]. constructor; auto.
  - (* di_ents *) intros t. now rewrite Hs.
  - (* di_slot *) intros t w H. apply A3. now rewrite <- Hw.
  - (* di_keys *) intros t t' w w' Hne H1 H2. rewrite Hw in H1, H2. eauto.
Qed.

Lemma DIs_init c : 0 < c_block c -> DIs c init.
Proof.
  intros Hb. unfold DIs, init, wrs, sms. cbn [s_disk s_alloc s_files rev].
  constructor.
  - (* di_nodup *) constructor.
  - (* di_ents *) intros t. reflexivity.
  - (* di_slot *) intros t w H. cbn in H. discriminate.
  - (* di_wf *) constructor.
  - (* di_alloc *) split; [cbn; lia|constructor].
  - (* di_sorted *) exact I.
  - (* di_keys *) intros t t' w w' _ H. cbn in H. discriminate.
Qed.

(* [ts'] has the blocks of [ts]: same sealed chain, same writer block *)
Definition SB (ts ts' : tstate) : Prop := chain_of ts' = chain_of ts /\ ts_writer ts' = ts_writer ts.

Lemma DIs_set_ts c s t ts' : DIs c s -> SB (get_ts s t) ts' -> DIs c (set_ts s t ts').
Proof.
  intros Hd (H1 & H2). unfold DIs in *. cbn [set_ts s_disk s_alloc s_files].
  eapply DI_ext; [| |exact Hd]; intros t0.
  - rewrite wrs_set_ts, H2. exact (upd_eta (wrs s) t t0).
  - rewrite sms_set_ts. unfold stream, w_ents. rewrite H1, H2. exact (upd_eta (sms s) t t0).
Qed.

Lemma ensure_DIs c s t : cfg_ok c -> DIs c s -> DIs c (fst (ensure_writer c s t)).
Proof.
  intros (Hh & Hb0 & _) Hd. unfold ensure_writer.
  destruct (ts_writer (get_ts s (t_id t))) as [w|] eqn:Ew; [exact Hd|].
  pose proof (alloc_first_allocd c s) as Ha. destruct (alloc_first c s) as [s1 b]. cbn [fst].
  pose proof Ha as (f & o & Hdisk & Kb & Eb & Lb & Htop & _). (* allocd by position: see DI_snoc *)
  unfold disk_add in Hdisk. change (bkey b = (f, o)) in Kb.
  unfold DIs. cbn [set_ts s_disk s_alloc s_files]. rewrite Hdisk. cbn [rev].
  eapply DI_ext; [| |apply (DI_snoc c s s1 b _ _ (t_id t) (zblk f o (c_block c)) b Hd Ha Hb0 (eq_sym Kb)); try reflexivity; auto].
  - (* writers *) intros t0. rewrite wrs_set_ts. apply upd_ext; [reflexivity|]. intros t1 _. unfold wrs. now rewrite (get_ts_topics _ _ _ Htop).
  - (* streams *) intros t0. rewrite sms_set_ts. apply upd_ext.
    + rewrite (get_ts_topics _ _ _ Htop). unfold sms, stream, w_ents. cbn [with_writer ts_writer zblk d_ents]. rewrite Ew, Eb, !app_nil_r. reflexivity.
    + intros t1 _. unfold sms. now rewrite (get_ts_topics _ _ _ Htop).
Qed.

(* While a batch is planned the running writer block [cur] travels beside the state, which still
   holds the block the batch started with; the invariant then speaks of the state as it will be
   once [cur] is stored, and of [cur]: it uses what its entries need. *)
Definition DIcur (c : Cfg) (s : st) (t : topic) (cur : blk) : Prop :=
  DI c (rev (s_disk s)) (s_alloc s) (s_files s) (upd (wrs s) (t_id t) (Some cur))
     (upd (sms s) (t_id t) (stream (with_writer (get_ts s (t_id t)) (Some cur)))) /\
  b_used cur = sum_need c (b_ents cur).

Lemma rot_state c s t cur want s1 nb e :
  alloc_sized c (set_ts s (t_id t) (seal (get_ts s (t_id t)) cur)) want = Some (s1, nb) ->
  rev (s_disk (st_disk_write s1 nb t [e])) = rev (s_disk s) ++ [wr_blk (zblk (b_file nb) (b_off nb) (round_up c want)) t [e]] /\
  b_ents nb = [] /\
  forall t1, get_ts (st_disk_write s1 nb t [e]) t1 = upd (get_ts s) (t_id t) (seal (get_ts s (t_id t)) cur) t1.
Proof.
  intros Ha. destruct (proj2 (alloc_sized_allocd c _ want s1 nb Ha)) as (f & o & Hdisk & Kb & Eb & _ & Htop & _). (* allocd by position: see DI_snoc *)
  unfold disk_add in Hdisk.
  split; [|split; [exact Eb|]].
  - cbn [st_disk_write s_disk]. rewrite Hdisk. injection Kb as -> ->. cbn [disk_write zblk d_file d_off]. now rewrite !N.eqb_refl.
  - intros t1. rewrite <- get_set_upd. apply get_ts_topics. exact Htop.
Qed.

(* the two image events, as the write path meets them: an entry into the slot of the running block; a rotation
   puts the image of the fresh block, holding the entry, behind all others *)
Lemma DIcur_pstep c t p e q : cfg_ok c -> PStep c t p e q -> DIcur c (fst p) t (snd p) -> DIcur c (fst q) t (snd q).
Proof.
  intros Hc [s cur e0 Hfit|s cur e0 want s1 nb Ha Hw] (Hd & Hu); pose proof Hc as (Hh & Hb0 & _); cbn [fst snd] in *.
  - (* ps_add *) split; [|exact (used_blk_add c cur [e0] Hu)].
    eapply DI_ext; [| |exact (DI_write c s _ _ t cur e0 Hb0 Hd (upd_same _ _ _) Hu Hfit)]; intros t0; rewrite upd_upd; [reflexivity|].
    rewrite upd_same. apply upd_ext; [apply stream_blk_add|reflexivity].
  - (* ps_rot: DI_snoc on the state with [cur] sealed, where the allocation happened *)
    destruct (extent_want c e0 want Hb0 Hh Hw) as (Hext & Hfit).
    pose proof (proj2 (alloc_sized_allocd c _ want s1 nb Ha)) as Hal.
    pose proof Hal as (f & o & _ & _ & _ & Lb & _ & _ & Ub & _). (* Lb: b_limit, Ub: b_used *)
    destruct (rot_state c s t cur want s1 nb e0 Ha) as (Hd' & Eb & Hg).
    split; [|apply used_blk_add; now rewrite Ub, Eb].
    set (z := wr_blk (zblk (b_file nb) (b_off nb) (round_up c want)) t [e0]) in *.
    assert (Hpos : 0 < round_up c want) by (pose proof (need_pos c e0 Hh); lia).
    rewrite Hd'. cbn [st_disk_write s_alloc s_files].
    eapply DI_ext; [| |apply (DI_snoc c (set_ts s (t_id t) (seal (get_ts s (t_id t)) cur)) s1 nb _ _ (t_id t) z (blk_add nb c [e0]) Hd Hal Hpos eq_refl); try reflexivity].
    + (* writers *) intros t0. rewrite upd_upd. apply upd_ext; [reflexivity|]. intros t1 Hne. unfold wrs. now rewrite Hg, upd_other.
    + (* streams *) intros t0. rewrite upd_upd, upd_same. apply upd_ext.
      * rewrite Hg, upd_same. apply stream_rot; [exact (used0_ents c cur Hh Hu)|exact Eb].
      * intros t1 Hne. unfold sms. now rewrite Hg, upd_other.
    + (* dwf c z *) unfold dwf. cbn. split; [eauto|]. split; [now symmetry|lia].
    + (* d_ents z = b_ents w *) cbn. now rewrite Eb.
    + (* d_limit z = b_limit w *) symmetry. exact Lb.
    + (* w is not empty *) cbn [blk_add b_ents]. intros H. destruct (b_ents nb); discriminate.
Qed.

Lemma DIcur_psteps c t p es q : cfg_ok c -> PSteps c t p es q -> DIcur c (fst p) t (snd p) -> DIcur c (fst q) t (snd q).
Proof.
  intros Hc. induction 1 as [p|p e q es r Hs _ IH]; intros Hd; [exact Hd|].
  exact (IH (DIcur_pstep c t p e q Hc Hs Hd)).
Qed.

Lemma DIcur_commit c t q n : DIcur c (fst q) t (snd q) -> DIs c (commit t q n).
Proof.
  destruct q as [s cur]. unfold DIs, commit. cbn [fst snd set_ts s_disk s_alloc s_files]. intros (Hd & _).
  eapply DI_ext; [| |exact Hd]; intros t0.
  - rewrite wrs_set_ts. apply upd_ext; [|reflexivity]. unfold count_add. now destruct (n =? 0).
  - rewrite sms_set_ts. apply upd_ext; [|reflexivity]. apply stream_count_add.
Qed.

(* where the image's account of a write begins: [ensure_writer] has stored the block the steps start from *)
Lemma ensure_DIcur c s t : cfg_ok c -> GInv c s -> DIs c s ->
  let p := ensure_writer c s t in ts_writer (get_ts (fst p) (t_id t)) = Some (snd p) /\ DIcur c (fst p) t (snd p).
Proof.
  intros Hc Hg Hd. pose proof (ensure_DIs c s t Hc Hd) as Hd1.
  (* of ensure_writer_spec: the equation, the stored writer block, TInvP *)
  destruct (ensure_writer_spec c s t Hc Hg) as (s1 & w & He & _ & _ & _ & Hw & Hp & _). cbn zeta. rewrite He in *.
  cbn [fst snd]. split; [exact Hw|]. split; [|exact (proj1 (writer_bwf c _ _ w Hp Hw))]. rewrite (with_writer_same _ _ Hw).
  eapply DI_ext; [| |exact Hd1]; intros t0; [rewrite <- Hw; exact (upd_eta (wrs s1) _ t0)|exact (upd_eta (sms s1) _ t0)].
Qed.

Lemma DIs_written c t s es s' : cfg_ok c -> GInv c s -> wrote c t s es s' -> DIs c s -> DIs c s'.
Proof.
  intros Hc Hg (q & Hps & Hs') Hd. destruct Hs' as [(_ & ->) | ->]; [exact (ensure_DIs c s t Hc Hd)|].
  apply DIcur_commit. exact (DIcur_psteps c t _ _ _ Hc Hps (proj2 (ensure_DIcur c s t Hc Hg Hd))).
Qed.

(* Reads keep a topic's blocks, whatever the state: every branch of the body of [read_next] stores [ts] with a reader
   that differs from [r2] in cursor, tail position and counter only, possibly with a new index and count; so both
   fields compute *)
Lemma rn_from_SB c m ts r2 ck : r_chain r2 = chain_of ts -> SB ts (fst (rn_from c m ts r2 ck)).
Proof.
  intros H2. unfold SB. rewrite <- H2. destruct ts as [rd wr po cn ix um]. unfold rn_from, should_persist. cbn [ts_writer ts_poisoned].
  destruct (rn_walk _ _ _) as [[i o] [b|]].
  - (* an entry of the sealed chain *)
    destruct (block_read c b o) as [[e n]|], ck, m as [|k]; try (split; reflexivity).
    destruct (_ <=? _); split; reflexivity.
  - (* the writer block *)
    destruct wr as [w|]; [|split; reflexivity]. destruct po; [split; reflexivity|].
    cbn [set_cur r_tail_bid r_tail_off].
    set (start := if r_tail_bid r2 =? b_id w then r_tail_off r2 else 0).
    destruct ck; cbn [andb].
    + destruct m as [|k], ((start =? 0) && (0 <? b_used w)), (start <? b_used w); try (split; reflexivity);
        destruct (block_read c w start) as [[e n]|]; try (split; reflexivity); destruct (_ <=? _); split; reflexivity.
    + destruct (start <? b_used w); [destruct (block_read c w start) as [[e n]|]|]; split; reflexivity.
Qed.

Lemma read_next_SB c m s t ck :
  exists ts' res, read_next c m s t ck = (set_ts s (t_id t) ts', res) /\ SB (get_ts s (t_id t)) ts'.
Proof. rewrite read_next_from. eexists; eexists; split; [reflexivity|]. apply rn_from_SB, hyd_chain. Qed.

Lemma batch_read_SB c m s t maxb ck start :
  exists ts' res, batch_read c m s t maxb ck start = (set_ts s (t_id t) ts', res) /\ SB (get_ts s (t_id t)) ts'.
Proof.
  destruct start as [st0|].
  { destruct (batch_read_stateless c m s t maxb ck st0) as (os & ->). eexists; eexists; split; [reflexivity|split; reflexivity]. }
  unfold batch_read. set (ts := get_ts s (t_id t)). rewrite br_position_hyd. cbn zeta.
  pose proof (hyd_chain true (reader_of ts) (ts_index ts)) as H2. fold (chain_of ts) in H2.
  set (r' := hyd true (reader_of ts) (ts_index ts)) in *. clearbody r'.
  rewrite br_from_eq. cbn zeta. unfold SB. rewrite <- H2.
  destruct (br_parsed _ _ _ _) as [p|]; (eexists; eexists; split; [reflexivity|]); [|split; reflexivity].
  (* the commit stores the hydrated topic state with cursor, tail position and counter moved, index and count updated *)
  unfold br_commit, count_sub. cbn [negb]. rewrite !andb_true_r.
  destruct ((0 <? ps_parsed p) && ck), m as [|k], (ps_saw_tail p), ck, (ps_parsed p =? 0); split; reflexivity.
Qed.

Lemma step_cases c m be s o : cfg_ok c -> op_ok c o ->
  let s' := fst (step (env_of c m be) s o) in
  (exists t es, wrote c t s es s') \/
  (exists t ts', s' = set_ts s t ts' /\ SB (get_ts s t) ts') \/ s' = s.
Proof.
  intros Hc Hok. cbn zeta.
  destruct (wtopic o) as [t|] eqn:Hw.
  { (* append, batch *) left. destruct (write_wrote c m be s o t Hc Hw) as (es & H). now exists t, es. }
  right. destruct o as [t e | t es | t ck | t maxb ck st0 | t | ]; try discriminate; cbn [step env_of v_cfg v_mode v_backend]; [| | |contradiction].
  - (* read_next *) destruct (read_next_SB c m s t ck) as (ts' & res & -> & H). left. now exists (t_id t), ts'.
  - (* batch_read *) destruct (batch_read_SB c m s t maxb ck st0) as (ts' & res & -> & H). left. now exists (t_id t), ts'.
  - (* count *) now right.
Qed.

Lemma DIs_op c m be s o : cfg_ok c -> GInv c s -> DIs c s -> op_ok c o -> DIs c (fst (step (env_of c m be) s o)).
Proof.
  intros Hc Hg Hd Hok.
  destruct (step_cases c m be s o Hc Hok) as [(t & es & Hw)|[(t & ts' & -> & Hsb)| ->]].
  - exact (DIs_written c t s es _ Hc Hg Hw Hd).
  - exact (DIs_set_ts c s t ts' Hd Hsb).
  - exact Hd.
Qed.

(* in the shape [reachable_inv] asks of a step: of [Rel] only [GInv] is used, the budget not at all *)
Lemma DIs_step c m be s g B Bb o : cfg_ok c -> Rel c s g B Bb -> DIs c s -> op_ok c o ->
  B + N.of_nat (length (offered o)) <= u64_max ->
  DIs c (fst (step (env_of c m be) s o)).
Proof. intros Hc (Hg & _) Hd Hok _. exact (DIs_op c m be s o Hc Hg Hd Hok). Qed.

(* the state after a history (the model's [run] keeps the results only) *)
Fixpoint exec (v : env) (s : st) (ops : list op) : st :=
  match ops with [] => s | o :: r => exec v (fst (step v s o)) r end.

(* induction along an admissible restart-free history, for an invariant [I] of states: EngineMain.step_ok carries
   [Rel] from step to step, and with it [GInv], which is what the step lemmas of [I] need *)
Lemma reachable_inv c m be (I : st -> Prop) : cfg_ok c ->
  (forall s g B Bb o, Rel c s g B Bb -> I s -> op_ok c o -> B + N.of_nat (length (offered o)) <= u64_max ->
     I (fst (step (env_of c m be) s o))) ->
  forall ops s g B Bb,
  Rel c s g B Bb -> I s -> Forall (op_ok c) ops ->
  B + N.of_nat (length (offered_all ops)) <= u64_max -> Bb + sum_len (offered_all ops) <= u64_max ->
  I (exec (env_of c m be) s ops).
Proof.
  intros Hc Hstep. induction ops as [|o r IH]; intros s g B Bb Hrel Hi Hok HB HBb; [exact Hi|].
  pose proof (Forall_inv Hok) as Ho. apply Forall_inv_tail in Hok.
  cbn [offered_all] in HB, HBb. rewrite app_length, Nat2N.inj_add in HB. rewrite sum_len_app in HBb.
  pose proof (step_ok c m be s g B Bb o Hc Hrel Ho ltac:(lia) ltac:(lia)) as Hrel'.
  pose proof (Hstep s g B Bb o Hrel Hi Ho ltac:(lia)) as Hi'.
  cbn [exec]. destruct (step (env_of c m be) s o) as [s' res]. cbn [fst] in *.
  destruct Hrel' as (_ & _ & _ & Hrel'). apply (IH s' _ _ _ Hrel' Hi' Hok); lia.
Qed.

(* in a sorted image the blocks of file [f] stand before those of the later files *)
Lemma sorted_files f D : fsorted D ->
  filter (fun x => f <=? d_file x) D = filter (fun x => d_file x =? f) D ++ filter (fun x => f + 1 <=? d_file x) D.
Proof.
  induction D as [|x D IH]; cbn [filter fsorted]; [reflexivity|]. intros (H1 & H2). rewrite (IH H2).
  destruct (f <=? d_file x) eqn:E1, (d_file x =? f) eqn:E2, (f + 1 <=? d_file x) eqn:E3; try lia; try reflexivity.
  rewrite (filter_none (fun y => d_file y =? f) D); [reflexivity|]. eapply Forall_impl; [|exact H1]. cbn. intros; lia.
Qed.

(* scanning [n] files from [f] on, one after the other, is scanning the blocks of the files from [f] on *)
Lemma files_blocks_sorted t : forall n f D, fsorted D -> Forall (fun x => d_file x < f + N.of_nat n) D ->
  files_blocks t n f D = blocks_of t (filter (fun x => f <=? d_file x) D).
Proof.
  induction n as [|k IH]; intros f D Hs Hb; cbn [files_blocks].
  - rewrite filter_none; [reflexivity|]. eapply Forall_impl; [|exact Hb]. cbn. intros; lia.
  - rewrite (IH (f + 1) D Hs), <- blocks_of_app, <- (sorted_files f D Hs); [reflexivity|].
    eapply Forall_impl; [|exact Hb]. cbn. intros; lia.
Qed.

(* an image that satisfies the allocator invariant lies within the files the startup scan visits *)
Lemma files_blocks_image t c D al nf : fsorted D -> AInv c D al nf -> files_blocks t (N.to_nat (nf + 1)) 0 D = blocks_of t D.
Proof.
  intros Hs (A1 & A2). rewrite (files_blocks_sorted t _ 0 D Hs).
  - f_equal. apply filter_all. apply Forall_forall. intros; lia.
  - eapply Forall_impl; [|exact A2]. cbn. intros x (B1 & _). rewrite N2Nat.id. lia.
Qed.

(* the scan as [reopen] and [id_drift] call it *)
Definition scan0 (c : Cfg) (s : st) : recovered * N :=
  scan_files c (N.to_nat (s_files s + 1)) 0 (rev (s_disk s)) 1 {| rc_chains := []; rc_flag := false |}.

Lemma reopen_fields c s :
  s_disk (reopen c s) = s_disk s /\ s_files (reopen c s) = s_files s + 1 /\
  s_alloc (reopen c s) = {| a_next := N.max 1 (snd (scan0 c s)); a_file := s_files s; a_off := 0 |}.
Proof. unfold reopen, scan0. destruct (scan_files _ _ _ _ _ _) as [rc nid]. cbn. auto. Qed.

Lemma startup_cursor_nil idx : startup_cursor [] idx = (0%nat, 0).
Proof.
  unfold startup_cursor. destruct idx as [p|]; [|reflexivity].
  unfold clamp_idx, used_at. cbn [length]. destruct (p_tail p).
  - destruct (nth_error [] 0) eqn:E; [discriminate|reflexivity].
  - destruct (N.of_nat 0 <? p_a p) eqn:E; cbn.
    + reflexivity.
    + replace (p_a p) with 0 by lia. reflexivity.
Qed.

(* the un-hydrated reader a restart leaves: the rebuilt chain and the startup cursor *)
Definition mk_reader (ch : list blk) (io : nat * N) : reader :=
  {| r_chain := ch; r_idx := fst io; r_off := snd io; r_tail_bid := 0; r_tail_off := 0; r_since := 0; r_hydrated := false |}.

(* what [reopen] makes of a topic it has an entry for: the chain the scan found, and of the old topic state the persisted
   position and the unmodelled flag, nothing else *)
Definition reopen_topic (c : Cfg) (rc : recovered) (t : N) (ix : option ppos) (um : bool) : tstate :=
  match find (fun q => fst q =? t) (rc_chains rc) with
  | Some (_, (_, ch)) =>
    {| ts_reader := Some (mk_reader ch (startup_cursor ch ix)); ts_writer := None; ts_poisoned := false;
       ts_count := Some (rebuilt_count c ch ix); ts_index := ix; ts_unmodelled := um || rc_flag rc |}
  | None =>
    {| ts_reader := None; ts_writer := None; ts_poisoned := false; ts_count := None; ts_index := ix; ts_unmodelled := um || rc_flag rc |}
  end.

Lemma reopen_get0 c s t :
  get_ts (reopen c s) t = match find (fun p => fst p =? t) (s_topics s) with
                          | Some (_, old) => reopen_topic c (fst (scan0 c s)) t (ts_index old) (ts_unmodelled old)
                          | None => tstate0
                          end.
Proof.
  unfold reopen, reopen_topic, scan0. destruct (scan_files _ _ _ _ _ _) as [rc nid]. cbn [fst].
  unfold get_ts. cbn [s_topics]. rewrite find_map_key.
  2:{ intros [k v]. cbn. destruct (find _ (rc_chains rc)) as [[? [? ?]]|]; [destruct (startup_cursor _ _)|]; reflexivity. }
  destruct (find (fun p => fst p =? t) (s_topics s)) as [[k old]|] eqn:Ef; cbn [option_map snd]; [|reflexivity].
  destruct (find_eqb fst _ _ _ Ef) as (_ & Hk). cbn in Hk. subst k. cbn [fst].
  destruct (find _ (rc_chains rc)) as [[k2 [t2 ch]]|]; [destruct (startup_cursor ch _)|]; reflexivity.
Qed.

(* field by field; a topic the instance never touched stays untouched *)
Lemma reopen_shape c s t :
  let ts := get_ts s t in
  let ts' := get_ts (reopen c s) t in
  let rch := chain_of ts' in
  reader_of ts' = mk_reader rch (startup_cursor rch (ts_index ts)) /\
  ts_index ts' = ts_index ts /\ ts_writer ts' = None /\ ts_poisoned ts' = false /\
  cnt ts' = rebuilt_count c rch (ts_index ts) /\
  ((exists old, In (t, old) (s_topics s) /\ ts = old /\ rch = rc_get (rc_chains (fst (scan0 c s))) t /\
      ts_unmodelled ts' = ts_unmodelled ts || rc_flag (fst (scan0 c s))) \/
   (ts = tstate0 /\ ts' = tstate0)).
Proof.
  cbn zeta. rewrite reopen_get0. unfold get_ts.
  destruct (find (fun p => fst p =? t) (s_topics s)) as [[k old]|] eqn:Ef; cbn [option_map snd].
  - destruct (find_eqb fst _ _ _ Ef) as (Hin & Hk). cbn in Hk. subst k.
    unfold reopen_topic, rc_get. destruct (find (fun q => fst q =? t) (rc_chains _)) as [[k2 [t2 ch]]|]; cbn [snd];
      unfold chain_of, reader_of, cnt; cbn [ts_reader ts_index ts_writer ts_poisoned ts_unmodelled ts_count r_chain mk_reader reader0].
    + repeat (split; [reflexivity|]). left. exists old. auto.
    + (* no chain: the rebuilt count is 0 - _ *)
      rewrite startup_cursor_nil. repeat (split; [reflexivity|]). left. exists old. auto.
  - unfold chain_of, reader_of, cnt, mk_reader. cbn.
    repeat split; auto.
Qed.

Lemma reopen_writer c s t : ts_writer (get_ts (reopen c s) t) = None.
Proof. exact (proj1 (proj2 (proj2 (reopen_shape c s t)))). Qed.

(* what the startup scan finds in an image with [DI], whichever writers are stored: nothing to flag; no empty chain;
   for every topic the blocks the image holds for it, in allocation order; chains with fresh ids and extents as on disk *)
Lemma scan0_spec c P s wr sm : cfg_ok c -> DI c (rev (s_disk s)) (s_alloc s) (s_files s) wr sm ->
  let rc := fst (scan0 c s) in
  rc_flag rc = false /\ NEc (rc_chains rc) /\
  (forall t, map b_ents (rc_get (rc_chains rc) t) = blocks_of t (rev (s_disk s))) /\
  (Forall (fun x => P (d_limit x)) (s_disk s) -> forall t, GoodCh c P (a_next (s_alloc (reopen c s))) (rc_get (rc_chains rc) t)).
Proof.
  intros (Hh & Hb0 & _) [_ _ _ Hwf Hal Hso _]. cbn zeta. rewrite (proj2 (proj2 (reopen_fields c s))). cbn [a_next]. unfold scan0.
  pose proof (scan_files_spec c Hh Hb0 P (N.to_nat (s_files s + 1)) 0 (rev (s_disk s)) 1 {| rc_chains := []; rc_flag := false |} Hwf) as Hscan.
  destruct (scan_files _ _ _ _ _ _) as [rc nid]. cbn [fst snd]. destruct Hscan as (A & B & C & G & E).
  split; [exact A|]. split; [apply E; constructor|]. split.
  - intros t. rewrite C. exact (files_blocks_image t c _ _ _ Hso Hal).
  - intros Hlim t. eapply GoodCh_mono; [|apply G; [|lia|intros; apply GoodCh_nil]]; [lia|].
    apply Forall_forall. intros x Hx. apply in_rev in Hx. exact (proj1 (Forall_forall _ _) Hlim x Hx).
Qed.

(* for any image invariant, not only that of the state as it stands: a batch interrupted by a crash
   leaves an image that satisfies [DI] for the planning writer, which [reopen] does not look at *)
Lemma reopen_stream_DI c s wr sm : cfg_ok c -> DI c (rev (s_disk s)) (s_alloc s) (s_files s) wr sm ->
  forall t, (get_ts s t = tstate0 -> sm t = []) -> stream (get_ts (reopen c s) t) = sm t.
Proof.
  intros Hc Hd t H0. destruct (scan0_spec c (fun _ => True) s wr sm Hc Hd) as (_ & _ & Hbl & _).
  destruct (reopen_shape c s t) as (_ & _ & Hw & _ & _ & Hch). cbn zeta in Hch.
  change (stream (get_ts (reopen c s) t)) with (chain_ents (chain_of (get_ts (reopen c s) t)) ++ w_ents (get_ts (reopen c s) t)).
  unfold w_ents. rewrite Hw, app_nil_r.
  destruct Hch as [(old & _ & _ & -> & _)|(E & ->)]; [|now rewrite (H0 E)].
  unfold chain_ents. rewrite flat_map_concat_map, Hbl, concat_blocks_of. exact (di_ents _ _ _ _ _ _ Hd t).
Qed.

Theorem reopen_stream c s : cfg_ok c -> DIs c s ->
  forall t, stream (get_ts (reopen c s) t) = stream (get_ts s t).
Proof. intros Hc Hd t. apply (reopen_stream_DI c s (wrs s) (sms s) Hc Hd). unfold sms. now intros ->. Qed.

(* props/C06.c06_restart_rebuilds_streams_partial is this *)
Corollary restart_rebuilds_streams c m be ops : cfg_ok c -> Forall (op_ok c) ops ->
  N.of_nat (length (offered_all ops)) <= u64_max -> sum_len (offered_all ops) <= u64_max ->
  forall t, stream (get_ts (reopen c (exec (env_of c m be) init ops)) t) = stream (get_ts (exec (env_of c m be) init ops) t).
Proof.
  intros Hc Hok HB HBb t. pose proof Hc as (Hh & Hb0 & _).
  apply reopen_stream; [exact Hc|].
  exact (reachable_inv c m be (DIs c) Hc (fun s g B Bb o => DIs_step c m be s g B Bb o Hc)
           ops init [] 0 0 (Rel_init c) (DIs_init c Hb0) Hok ltac:(lia) ltac:(lia)).
Qed.
