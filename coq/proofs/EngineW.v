(* EngineW.v — the write side.  Seen from the topic it writes, [append] / [batch] is a sequence
   of three primitive steps (first writer block, one more entry, rotation) followed by the count
   update ([WStep], [WRun]); each step keeps the per-topic invariant and extends [stream] and
   [unread] by exactly the entries it writes, so an invariant of the write side is proved for the
   three steps only ([WRun_inv]).  Under [cfg_ok] (then no allocation on the checked path is refused,
   whatever the state) both operations are one function of the state, [put]: [append] is a plan of one
   entry, [batch] has two limits more ([append_put], [batch_put]); the path is walked once, along [put]:
   every outcome is [wrote] — the first block if the topic has none, then steps on (state, running
   writer block) ([PSteps]) and the commit, or nothing more.  From [wrote] follow, with no hypothesis on the state,
   what a write leaves of the whole state ([wframe]: other topics untouched, the next id only
   grows, the reader's hydration data and the persisted position of the written topic stay,
   [keep]) and the topic-level view ([wrote_WRun]); the disk image follows [wrote] itself, under the
   invariant. *)
From W Require Import model.Base model.Engine proofs.EngineWF proofs.EngineInv.

(* [TInv] of EngineInv.v, clause for clause, without the last one, [ti_cnt]: between the steps of one operation
   the entry count lags behind [unread] (the final [count_add] settles it), and the concurrent model updates it
   in a segment of its own.  Both records are opened by position in many proofs: a clause added to one goes at
   the same place in the other. *)
Record TInvP (c : Cfg) (nid : N) (ts : tstate) : Prop := {
  tp_poison : ts_poisoned ts = false;
  tp_unm : ts_unmodelled ts = false;
  tp_chain : Forall (bwf c) (chain_of ts);
  tp_writer : Forall (bwf c) (w_list ts);
  tp_nodup : NoDup (map b_id (chain_of ts ++ w_list ts));
  tp_ids : Forall (fun b => 0 < b_id b < nid) (chain_of ts ++ w_list ts);
  tp_tail_lt : r_tail_bid (reader_of ts) < nid;
  tp_idx : (r_idx (reader_of ts) <= length (chain_of ts))%nat;
  tp_end : r_idx (reader_of ts) = length (chain_of ts) -> r_off (reader_of ts) = 0;
  tp_cur : forall b, nth_error (chain_of ts) (r_idx (reader_of ts)) = Some b ->
           okoff c (b_ents b) (r_off (reader_of ts));
  tp_sealed_tail : (r_idx (reader_of ts) < length (chain_of ts))%nat ->
                   forall w, ts_writer ts = Some w -> r_tail_bid (reader_of ts) <> b_id w;
  tp_tail : forall w, ts_writer ts = Some w -> okoff c (b_ents w) (tail_start ts w);
  tp_hyd : r_hydrated (reader_of ts) = false -> ts_index ts = None
}.

Lemma TInv_P c nid ts : TInv c nid ts -> TInvP c nid ts.
Proof. intros [? ? ? ? ? ? ? ? ? ? ? ? ? ?]. constructor; auto. Qed.

Lemma TInvP_cnt c nid ts : TInvP c nid ts -> cnt ts = N.of_nat (length (unread c ts)) -> TInv c nid ts.
Proof. intros [? ? ? ? ? ? ? ? ? ? ? ? ?] Hc. constructor; auto. Qed.

Lemma TInvP_mono c n n' ts : n <= n' -> TInvP c n ts -> TInvP c n' ts.
Proof.
  intros Hn [? ? ? ? ? Hi Ht ? ? ? ? ? ?]. constructor; auto; [|lia].
  eapply Forall_impl; [|exact Hi]. cbn. intros; lia.
Qed.

Lemma TInv_mono c n n' ts : n <= n' -> TInv c n ts -> TInv c n' ts.
Proof. intros Hn H. exact (TInvP_cnt c n' ts (TInvP_mono c n n' ts Hn (TInv_P c n ts H)) (ti_cnt c n ts H)). Qed.

Ltac nww :=
  repeat match goal with
  | |- context [reader_of (with_writer ?t ?w)] => change (reader_of (with_writer t w)) with (reader_of t)
  end;
  cbn [with_writer ts_writer ts_poisoned ts_unmodelled ts_index].

Definition fresh_blk (nid : N) (nb : blk) : Prop :=
  b_id nb = nid /\ b_used nb = 0 /\ b_ents nb = [] /\ b_limit nb <= u64_max.

Lemma fresh_bwf c nid nb : fresh_blk nid nb -> bwf c nb.
Proof. intros (_ & Fu & Fe & Fl). unfold bwf. rewrite Fu, Fe. cbn. lia. Qed.

Lemma ids_snoc_fresh n l (nb : blk) :
  Forall (fun b => 0 < b_id b < n) l -> NoDup (map b_id l) -> 0 < n -> b_id nb = n ->
  NoDup (map b_id (l ++ [nb])) /\ Forall (fun b => 0 < b_id b < n + 1) (l ++ [nb]).
Proof.
  intros Hi Hn H0 Hb. split.
  - rewrite map_app. apply NoDup_snoc; [exact Hn|]. intros Hin. apply in_map_iff in Hin.
    destruct Hin as (b & Heq & Hin). eapply Forall_forall in Hi; [|exact Hin]. lia.
  - apply Forall_app. split; [eapply Forall_impl; [|exact Hi]; cbn; intros; lia|]. constructor; [lia|constructor].
Qed.

Lemma first_writer c nid ts nb : 0 < nid ->
  TInvP c nid ts -> ts_writer ts = None -> fresh_blk nid nb ->
  TInvP c (nid + 1) (with_writer ts (Some nb)) /\
  stream (with_writer ts (Some nb)) = stream ts /\ unread c (with_writer ts (Some nb)) = unread c ts.
Proof.
  intros Hn0 [Hp Hu Hch Hw Hnd Hids Htl Hidx Hend Hcur Hst Htail Hhyd] Hnone Hfresh.
  pose proof (fresh_bwf c nid nb Hfresh) as Hnbwf. destruct Hfresh as (Fi & Fu & Fe & Fl).
  unfold chain_of, w_list, tail_start in *. rewrite Hnone in *. rewrite app_nil_r in *.
  destruct (ids_snoc_fresh nid _ nb Hids Hnd Hn0 Fi) as (Hnd' & Hids').
  split; [|split].
  - constructor; unfold chain_of, w_list, tail_start; nww; auto.
    + (* tp_tail_lt *) lia.
    + (* tp_sealed_tail *) intros Hl w' Hw'. inversion Hw'; subst w'. lia.
    + (* tp_tail *) intros w' Hw'. inversion Hw'; subst w'. rewrite Fe.
      destruct (r_tail_bid (reader_of ts) =? b_id nb) eqn:E; [exfalso; lia|apply okoff_0].
  - unfold stream, w_ents, chain_of; nww. now rewrite Hnone, Fe.
  - unfold unread, w_ents, tail_start; nww. rewrite Hnone, Fe.
    destruct (skipn _ _); [|now rewrite !app_nil_r].
    now destruct (_ =? _).
Qed.

Definition blk_with (b : blk) (c : Cfg) (es : list entry) : blk := blk_add b c es.

Lemma add_entry c (Hh : 0 < c_hdr c) nid ts w e :
  TInvP c nid ts -> ts_writer ts = Some w -> b_used w + need c e <= b_limit w ->
  TInvP c nid (with_writer ts (Some (blk_add w c [e]))) /\
  stream (with_writer ts (Some (blk_add w c [e]))) = stream ts ++ [e] /\
  unread c (with_writer ts (Some (blk_add w c [e]))) = unread c ts ++ [e].
Proof.
  intros [Hp Hu Hch Hw Hnd Hids Htl Hidx Hend Hcur Hst Htail Hhyd] Hsome Hfit.
  unfold chain_of, w_list, tail_start in *. rewrite Hsome in *.
  pose proof (Forall_inv Hw) as (Hwu & Hwl & Hwm).
  pose proof (Htail w eq_refl) as Hokw.
  split; [|split].
  - constructor; unfold chain_of, w_list, tail_start; nww; auto.
    + (* tp_writer *) constructor; [|constructor]. unfold bwf, blk_add; cbn. rewrite sum_need_app. cbn [sum_need]. lia.
    + (* tp_nodup *) rewrite map_app in *. exact Hnd.
    + (* tp_ids *) apply Forall_app in Hids. destruct Hids as (I1 & I2). apply Forall_app. split; [exact I1|]. inversion I2; subst. constructor; [exact H1|constructor].
    + (* tp_sealed_tail *) intros Hl w' Hw'. inversion Hw'; subst w'. cbn [blk_add b_id]. now apply (Hst Hl w).
    + (* tp_tail *) intros w' Hw'. inversion Hw'; subst w'. cbn [blk_add b_id b_ents]. now apply okoff_app.
  - unfold stream, w_ents, chain_of; nww. rewrite Hsome. cbn [blk_add b_ents]. now rewrite app_assoc.
  - unfold unread, w_ents, tail_start; nww. cbn [blk_add b_id b_ents]. rewrite Hsome.
    destruct (skipn _ _) as [|b0 r0].
    + now apply ents_from_app.
    + now rewrite !app_assoc.
Qed.

Lemma w_list_some ts w : ts_writer ts = Some w -> w_list ts = [w].
Proof. intros H. unfold w_list. now rewrite H. Qed.

Lemma writer_ok c nid ts w : TInvP c nid ts -> ts_writer ts = Some w -> bwf c w /\ 0 < b_id w < nid.
Proof.
  intros H Hw. pose proof (tp_writer _ _ _ H) as F. pose proof (tp_ids _ _ _ H) as G.
  apply Forall_app in G. destruct G as (_ & G). rewrite (w_list_some ts w Hw) in F, G. inversion F; inversion G; subst. now split.
Qed.

Lemma writer_bwf c nid ts w : TInvP c nid ts -> ts_writer ts = Some w -> bwf c w.
Proof. intros Hinv Hw. apply (writer_ok c nid ts w Hinv Hw). Qed.

Lemma used0_ents c b : 0 < c_hdr c -> b_used b = sum_need c (b_ents b) -> b_used b = 0 -> b_ents b = [].
Proof.
  intros Hh Hu H0. destruct (b_ents b) as [|e r]; [reflexivity|]. exfalso.
  cbn [sum_need] in Hu. pose proof (need_pos c e Hh). lia.
Qed.

Lemma bwf_used0 c b : 0 < c_hdr c -> bwf c b -> (b_used b =? 0) = true -> b_ents b = [].
Proof. intros Hh (Hu & _) Hz. apply (used0_ents c b Hh Hu). lia. Qed.

Lemma bwf_used_pos c b : bwf c b -> (b_used b =? 0) = false -> b_ents b <> [].
Proof. intros (Hu & _) Hz He. rewrite He in Hu. cbn [sum_need] in Hu. lia. Qed.

(* the cursor (block index, offset) of a reader over the chain [ch] is in range and at an entry boundary *)
Definition CurOK (c : Cfg) (ch : list blk) (i : nat) (o : N) : Prop :=
  (i <= length ch)%nat /\ (i = length ch -> o = 0) /\ (forall b, nth_error ch i = Some b -> okoff c (b_ents b) o).

Lemma tp_curok c nid ts : TInvP c nid ts -> CurOK c (chain_of ts) (r_idx (reader_of ts)) (r_off (reader_of ts)).
Proof. intros H. split; [apply (tp_idx _ _ _ H)|]. split; [apply (tp_end _ _ _ H)|apply (tp_cur _ _ _ H)]. Qed.

Lemma CurOK_snoc c ch w i o : CurOK c ch i o -> CurOK c (ch ++ [w]) i o.
Proof.
  intros (Hi & He & Hc). unfold CurOK. rewrite app_length. cbn [length]. split; [lia|]. split; [lia|].
  intros b Hb. destruct (Nat.eq_dec i (length ch)) as [->|Hne].
  - rewrite (He eq_refl). apply okoff_0.
  - apply Hc. rewrite nth_error_app1 in Hb by lia. exact Hb.
Qed.

Lemma CurOK_last c ch w o : okoff c (b_ents w) o -> CurOK c (ch ++ [w]) (length ch) o.
Proof.
  intros Ho. unfold CurOK. rewrite app_length. cbn [length]. split; [lia|]. split; [lia|].
  intros b Hb. rewrite nth_error_snoc_len in Hb. now injection Hb as <-.
Qed.

(* Reader::append_block_to_chain, by cases: an empty block is dropped; otherwise the block joins
   the chain, and a reader that was inside it (as the tail) keeps its place there *)
Lemma chain_push_cases r b :
  r_tail_bid (chain_push r b) = r_tail_bid r /\ r_hydrated (chain_push r b) = r_hydrated r /\
  r_since (chain_push r b) = r_since r /\
  ((b_used b =? 0) = true /\ chain_push r b = r \/
   (b_used b =? 0) = false /\ r_chain (chain_push r b) = r_chain r ++ [b] /\
   (r_tail_bid r = b_id b /\ r_idx (chain_push r b) = length (r_chain r) /\
      r_off (chain_push r b) = N.min (r_tail_off r) (b_used b) \/
    r_tail_bid r <> b_id b /\ r_idx (chain_push r b) = r_idx r /\ r_off (chain_push r b) = r_off r)).
Proof.
  unfold chain_push. destruct (b_used b =? 0); [do 3 (split; [reflexivity|]); left; split; reflexivity|].
  destruct (r_tail_bid r =? b_id b) eqn:E; cbn; do 3 (split; [reflexivity|]); right;
    (split; [reflexivity|]); (split; [reflexivity|]); [left|right]; (split; [lia|]); [|auto].
  rewrite app_length. cbn. split; [lia|reflexivity].
Qed.

Lemma chain_push_chain r b : r_chain (chain_push r b) = if b_used b =? 0 then r_chain r else r_chain r ++ [b].
Proof. destruct (chain_push_cases r b) as (_ & _ & _ & [(-> & ->)|(-> & H & _)]); [reflexivity|exact H]. Qed.

Lemma chain_of_seal ts b : chain_of (seal ts b) = if b_used b =? 0 then chain_of ts else chain_of ts ++ [b].
Proof. apply chain_push_chain. Qed.

(* a state without writer whose chain is a front part of the blocks of [ts] (its chain, then its writer block)
   and whose reader is that of [ts] but for chain and cursor *)
Lemma TInvP_sealed c n ts T q : TInvP c n ts -> ts_writer T = None ->
  ts_poisoned T = ts_poisoned ts -> ts_unmodelled T = ts_unmodelled ts -> ts_index T = ts_index ts ->
  r_tail_bid (reader_of T) = r_tail_bid (reader_of ts) -> r_hydrated (reader_of T) = r_hydrated (reader_of ts) ->
  chain_of ts ++ w_list ts = chain_of T ++ q ->
  CurOK c (chain_of T) (r_idx (reader_of T)) (r_off (reader_of T)) -> TInvP c n T.
Proof.
  intros [Hp Hu Hch Hw Hnd Hids Htl _ _ _ _ _ Hhyd] Hnone Ep Eu Ei Et Eh Eq (K1 & K2 & K3).
  pose proof (proj2 (Forall_app _ _ _) (conj Hch Hw)) as Hb. rewrite Eq in Hb, Hnd, Hids. rewrite map_app in Hnd.
  constructor; unfold w_list; rewrite ?Hnone, ?app_nil_r, ?Ep, ?Eu, ?Ei, ?Et, ?Eh; auto; try discriminate.
  - (* tp_chain *) apply Forall_app in Hb. apply Hb.
  - (* tp_nodup *) apply NoDup_app_iff in Hnd. apply Hnd.
  - (* tp_ids *) apply Forall_app in Hids. apply Hids.
Qed.

(* the writer block goes to the reader's chain (or, empty, nowhere); the topic is left without a writer *)
Lemma seal_inv c (Hh : 0 < c_hdr c) nid ts w : TInvP c nid ts -> ts_writer ts = Some w ->
  TInvP c nid (with_writer (seal ts w) None) /\
  stream (with_writer (seal ts w) None) = stream ts /\
  unread c (with_writer (seal ts w) None) = unread c ts.
Proof.
  intros Hinv Hsome. pose proof (writer_bwf c nid ts w Hinv Hsome) as Hwwf.
  pose proof (tp_tail _ _ _ Hinv w Hsome) as Hokw. pose proof (tp_curok c nid ts Hinv) as Hck.
  set (T0 := with_writer (seal ts w) None).
  assert (Hr0 : reader_of T0 = chain_push (reader_of ts) w) by reflexivity.
  destruct (chain_push_cases (reader_of ts) w) as (Ctb & Chy & _ & Hcase).
  assert (H : exists q, chain_of ts ++ [w] = chain_of T0 ++ q /\
              CurOK c (chain_of T0) (r_idx (reader_of T0)) (r_off (reader_of T0)) /\
              stream T0 = stream ts /\ unread c T0 = unread c ts).
  { unfold stream, unread at 1 2, chain_of, w_ents, tail_start. rewrite Hr0, Hsome. cbn [ts_writer T0 with_writer].
    destruct Hcase as [(Ez & ->)|(Ez & Cch & Ccur)].
    - (* sealed empty: retired *)
      exists [w]. rewrite (bwf_used0 c w Hh Hwwf Ez). split; [reflexivity|]. split; [exact Hck|]. split; [reflexivity|].
      now destruct (skipn _ _).
    - exists []. rewrite Cch, app_nil_r, chain_ents_app. cbn [chain_ents flat_map]. rewrite !app_nil_r. split; [reflexivity|].
      destruct Ccur as [(Et & -> & ->)|(Et & -> & ->)].
      + (* a reader inside the sealed block has walked the whole chain, and keeps its place *)
        assert (Hend : r_idx (reader_of ts) = length (chain_of ts)).
        { destruct Hck as (Hle & _). destruct (Nat.eq_dec (r_idx (reader_of ts)) (length (chain_of ts))) as [E|E]; [exact E|].
          exfalso. apply (tp_sealed_tail _ _ _ Hinv ltac:(lia) w Hsome Et). }
        assert (Hto : N.min (r_tail_off (reader_of ts)) (b_used w) = tail_start ts w).
        { unfold tail_start in *. apply N.eqb_eq in Et. rewrite Et in *. pose proof (okoff_le _ _ _ Hokw).
          destruct Hwwf as (Hu & _). lia. }
        rewrite Hto. split; [apply CurOK_last; exact Hokw|]. split; [reflexivity|].
        unfold chain_of in Hend. rewrite Hend, skipn_app, skipn_all, Nat.sub_diag. cbn [skipn app chain_ents flat_map].
        unfold tail_start. apply N.eqb_eq in Et. rewrite Et. now rewrite !app_nil_r.
      + split; [apply CurOK_snoc; exact Hck|]. split; [reflexivity|].
        destruct Hck as (Hle & Hend & _). unfold chain_of in Hle, Hend.
        rewrite (skipn_app_le _ _ _ Hle). apply N.eqb_neq in Et. rewrite Et.
        destruct (skipn (r_idx (reader_of ts)) (r_chain (reader_of ts))) as [|b0 r0] eqn:Es; cbn [app].
        * apply skipn_nil_ge in Es. rewrite (Hend ltac:(lia)). cbn [chain_ents flat_map]. now rewrite !app_nil_r.
        * rewrite chain_ents_app. cbn [chain_ents flat_map]. now rewrite !app_nil_r. }
  destruct H as (q & Hq & Hk & Hst & Hun). split; [|auto].
  apply (TInvP_sealed c nid ts T0 q Hinv); try reflexivity; rewrite ?Hr0, ?(w_list_some ts w Hsome); assumption.
Qed.

Lemma cnt_count_add ts d : cnt ts + d <= u64_max -> cnt (count_add ts d) = cnt ts + d.
Proof. intros H. unfold count_add, cnt in *. destruct (d =? 0) eqn:E; cbn; lia. Qed.

Lemma unread_count_add c ts d : unread c (count_add ts d) = unread c ts.
Proof. unfold count_add. now destruct (d =? 0). Qed.
Lemma stream_count_add ts d : stream (count_add ts d) = stream ts.
Proof. unfold count_add. now destruct (d =? 0). Qed.
Lemma TInvP_count_add c nid ts d : TInvP c nid ts -> TInvP c nid (count_add ts d).
Proof. unfold count_add. destruct (d =? 0); [auto|]. intros [? ? ? ? ? ? ? ? ? ? ? ? ?]. constructor; auto. Qed.

Lemma with_writer_same ts w : ts_writer ts = Some w -> with_writer ts (Some w) = ts.
Proof. intros H. destruct ts; cbn in *. now subst. Qed.

(* What [append] and [batch] do to the topic they write, as seen from (next block id, topic
   state): the three primitives, each labelled with the entries it adds. *)
Inductive WStep (c : Cfg) (nid : N) (ts : tstate) : list entry -> N -> tstate -> Prop :=
| ws_first nb : ts_writer ts = None -> fresh_blk nid nb ->
    WStep c nid ts [] (nid + 1) (with_writer ts (Some nb))
| ws_add w e : ts_writer ts = Some w -> b_used w + need c e <= b_limit w ->
    WStep c nid ts [e] nid (with_writer ts (Some (blk_add w c [e])))
| ws_rot w nb : ts_writer ts = Some w -> fresh_blk nid nb ->
    WStep c nid ts [] (nid + 1) (with_writer (seal ts w) (Some nb)).

Inductive WSteps (c : Cfg) (nid : N) (ts : tstate) : list entry -> N -> tstate -> Prop :=
| wss_nil : WSteps c nid ts [] nid ts
| wss_snoc l n1 t1 l' n2 t2 : WSteps c nid ts l n1 t1 -> WStep c n1 t1 l' n2 t2 -> WSteps c nid ts (l ++ l') n2 t2.

(* a whole operation: steps, then the entry count goes up by the number of entries written *)
Definition WRun (c : Cfg) (nid : N) (ts : tstate) (es : list entry) (nid' : N) (ts' : tstate) : Prop :=
  exists t2, WSteps c nid ts es nid' t2 /\ ts' = count_add t2 (N.of_nat (length es)).

Lemma WSteps_one c nid ts l n' t' : WStep c nid ts l n' t' -> WSteps c nid ts l n' t'.
Proof. intros H. exact (wss_snoc c nid ts [] nid ts l n' t' (wss_nil c nid ts) H). Qed.

Lemma WSteps_app c nid ts l n1 t1 l' n2 t2 :
  WSteps c nid ts l n1 t1 -> WSteps c n1 t1 l' n2 t2 -> WSteps c nid ts (l ++ l') n2 t2.
Proof.
  intros H1 H2. induction H2 as [|la na ta lb nb tb _ IH Hs]; [now rewrite app_nil_r|].
  rewrite app_assoc. exact (wss_snoc c nid ts _ _ _ _ _ _ IH Hs).
Qed.

Lemma WStep_spec c (Hh : 0 < c_hdr c) nid ts l nid' ts' : 0 < nid -> TInvP c nid ts -> WStep c nid ts l nid' ts' ->
  nid <= nid' /\ TInvP c nid' ts' /\ stream ts' = stream ts ++ l /\ unread c ts' = unread c ts ++ l /\ cnt ts' = cnt ts.
Proof.
  intros Hn Hinv [nb Hw Hf|w e Hw Hfit|w nb Hw Hf]; rewrite ?app_nil_r; (split; [lia|]).
  - destruct (first_writer c nid ts nb Hn Hinv Hw Hf) as (A & B & C). auto.
  - destruct (add_entry c Hh nid ts w e Hinv Hw Hfit) as (A & B & C). auto.
  - (* a rotation seals the block, then goes on like a topic without writer *)
    destruct (seal_inv c Hh nid ts w Hinv Hw) as (S1 & S2 & S3). rewrite <- S2, <- S3.
    destruct (first_writer c nid _ nb Hn S1 eq_refl Hf) as (A & B & C). auto.
Qed.

Lemma WSteps_spec c (Hh : 0 < c_hdr c) nid ts l nid' ts' : 0 < nid -> TInvP c nid ts -> WSteps c nid ts l nid' ts' ->
  nid <= nid' /\ TInvP c nid' ts' /\ stream ts' = stream ts ++ l /\ unread c ts' = unread c ts ++ l /\ cnt ts' = cnt ts.
Proof.
  intros Hn Hinv H. induction H as [|la na ta lb nb tb _ (I1 & I2 & I3 & I4 & I5) Hs].
  - rewrite !app_nil_r. split; [lia|auto].
  - destruct (WStep_spec c Hh na ta lb nb tb ltac:(lia) I2 Hs) as (J1 & J2 & J3 & J4 & J5).
    split; [lia|]. split; [exact J2|]. rewrite J3, J4, J5, I3, I4, !app_assoc. auto.
Qed.

Lemma WRun_inv c (Hh : 0 < c_hdr c) (Q : N -> tstate -> Prop) :
  (forall n T l n' T', 0 < n -> TInvP c n T -> WStep c n T l n' T' -> Q n T -> Q n' T') ->
  (forall n T d, Q n T -> Q n (count_add T d)) ->
  forall nid ts l nid' ts', 0 < nid -> TInvP c nid ts -> WRun c nid ts l nid' ts' -> Q nid ts -> Q nid' ts'.
Proof.
  intros Hstep Hcnt nid ts l nid' ts' Hn Hinv (t2 & H & ->) HQ. apply Hcnt.
  induction H as [|la na ta lb nb tb Hpre IH Hs]; [exact HQ|].
  destruct (WSteps_spec c Hh nid ts la na ta Hn Hinv Hpre) as (I1 & I2 & _).
  exact (Hstep na ta lb nb tb ltac:(lia) I2 Hs IH).
Qed.

(* the count is settled: the full invariant holds again *)
Lemma WRun_spec c (Hh : 0 < c_hdr c) nid ts es nid' ts' : 0 < nid -> TInv c nid ts ->
  WRun c nid ts es nid' ts' -> cnt ts + N.of_nat (length es) <= u64_max ->
  nid <= nid' /\ TInv c nid' ts' /\ stream ts' = stream ts ++ es /\ unread c ts' = unread c ts ++ es.
Proof.
  intros Hn Hinv (t2 & W & ->) Hb.
  destruct (WSteps_spec c Hh nid ts es nid' t2 Hn (TInv_P _ _ _ Hinv) W) as (Hle & Hp & Hst & Hun & Hcnt).
  rewrite stream_count_add, unread_count_add. split; [exact Hle|]. split; [|auto].
  apply TInvP_cnt; [apply TInvP_count_add; exact Hp|].
  rewrite unread_count_add, Hun, app_length, cnt_count_add, Hcnt, (ti_cnt _ _ _ Hinv); lia.
Qed.

(* the invariant of a whole state (restart-free; not the [GInv] of DurableP.v, which is about the disk model):
   every topic has [TInv] with the allocator's next id as its bound, so the id of the next block is one no
   topic knows, neither as a block nor as its reader's tail id *)
Definition GInv (c : Cfg) (s : st) : Prop :=
  0 < a_next (s_alloc s) /\ forall t, TInv c (a_next (s_alloc s)) (get_ts s t).

Lemma GInv_init c : GInv c init.
Proof. split; [cbn; lia|]. intros t. apply TInv0. cbn. lia. Qed.

Lemma get_ts_disk_write s b t es t' : get_ts (st_disk_write s b t es) t' = get_ts s t'.
Proof. reflexivity. Qed.

(* what both allocators do to a state: a zero block of extent [lim] in front of [s_disk] (the image is kept
   newest first), in the current file or opening the next one; [b] is its handle, with the next id; the
   topics stay.  EngineDisk.v and EngineBlk.v open the conjuncts by position *)
Definition allocd (s s1 : st) (b : blk) (lim : N) : Prop :=
  exists f o, s_disk s1 = disk_add s f o lim /\ (b_file b, b_off b) = (f, o) /\ b_ents b = [] /\ b_limit b = lim /\
    s_topics s1 = s_topics s /\ b_id b = a_next (s_alloc s) /\ b_used b = 0 /\
    ((f = a_file (s_alloc s) /\ o = a_off (s_alloc s) /\ s_files s1 = s_files s /\
      s_alloc s1 = {| a_next := a_next (s_alloc s) + 1; a_file := a_file (s_alloc s); a_off := a_off (s_alloc s) + lim |}) \/
     (f = s_files s /\ o = 0 /\ s_files s1 = s_files s + 1 /\
      s_alloc s1 = {| a_next := a_next (s_alloc s) + 1; a_file := s_files s; a_off := 0 + lim |})).

Lemma alloc_first_allocd c s : let '(s1, b) := alloc_first c s in allocd s s1 b (c_block c).
Proof.
  unfold alloc_first, allocd. destruct (c_file c <=? a_off (s_alloc s)); eexists; eexists; cbn;
    do 7 (split; [reflexivity|]); [right|left]; repeat split; reflexivity.
Qed.

Lemma round_up_bounds c x : 0 < c_block c -> x <= round_up c x <= x + c_block c.
Proof.
  intros Hb. unfold round_up, div_up. set (B := c_block c) in *.
  pose proof (N.div_mod (x + B - 1) B ltac:(lia)). pose proof (N.mod_lt (x + B - 1) B ltac:(lia)). nia.
Qed.

Lemma round_up_small c x : 0 < c_block c -> 0 < x -> x <= c_block c -> round_up c x = c_block c.
Proof.
  intros Hb H0 H1. unfold round_up, div_up. set (B := c_block c) in *.
  assert (Hd : (x + B - 1) / B = 1); [|lia].
  symmetry. apply N.div_unique with (r := x - 1); lia.
Qed.

Lemma alloc_sized_allocd c s want s1 b : alloc_sized c s want = Some (s1, b) ->
  0 < want <= c_max_alloc c /\ allocd s s1 b (round_up c want).
Proof.
  unfold alloc_sized, allocd, round_up. destruct ((want =? 0) || (c_max_alloc c <? want)) eqn:E; [discriminate|].
  destruct (c_file c <? _); intros H; injection H as <- <-; (split; [lia|]); eexists; eexists; cbn;
    do 7 (split; [reflexivity|]); [right|left]; repeat split; reflexivity.
Qed.

Lemma allocd_next s s1 b lim : allocd s s1 b lim -> a_next (s_alloc s1) = a_next (s_alloc s) + 1.
Proof. intros (f & o & _ & _ & _ & _ & _ & _ & _ & [(_ & _ & _ & ->)|(_ & _ & _ & ->)]); reflexivity. Qed.

Lemma get_ts_topics s s' t : s_topics s' = s_topics s -> get_ts s' t = get_ts s t.
Proof. intros H. unfold get_ts. now rewrite H. Qed.

Lemma alloc_first_spec c s : c_block c <= u64_max ->
  exists s1 b, alloc_first c s = (s1, b) /\ (forall t, get_ts s1 t = get_ts s t) /\
    a_next (s_alloc s1) = a_next (s_alloc s) + 1 /\ fresh_blk (a_next (s_alloc s)) b /\ b_limit b = c_block c.
Proof.
  intros Hb. pose proof (alloc_first_allocd c s) as H. destruct (alloc_first c s) as [s1 b]. exists s1, b. split; [reflexivity|].
  pose proof (allocd_next _ _ _ _ H) as Hn. destruct H as (f & o & _ & _ & Fe & Fl & Ht & Fi & Fu & _).
  split; [intros t; now apply get_ts_topics|]. split; [exact Hn|]. unfold fresh_blk. rewrite Fl. auto.
Qed.

Lemma alloc_sized_inv c s want s1 b : alloc_sized c s want = Some (s1, b) ->
  0 < want <= c_max_alloc c /\ s_topics s1 = s_topics s /\ a_next (s_alloc s1) = a_next (s_alloc s) + 1 /\
  b_id b = a_next (s_alloc s) /\ b_used b = 0 /\ b_ents b = [] /\ b_limit b = round_up c want.
Proof.
  intros Ha. destruct (alloc_sized_allocd c s want s1 b Ha) as (Hw & H). pose proof (allocd_next _ _ _ _ H) as Hn.
  destruct H as (f & o & _ & _ & Fe & Fl & Ht & Fi & Fu & _). auto 8.
Qed.

Lemma alloc_sized_spec c s want : 0 < c_block c -> c_max_alloc c + c_block c <= u64_max ->
  0 < want -> want <= c_max_alloc c ->
  exists s1 b, alloc_sized c s want = Some (s1, b) /\ (forall t, get_ts s1 t = get_ts s t) /\
    a_next (s_alloc s1) = a_next (s_alloc s) + 1 /\ fresh_blk (a_next (s_alloc s)) b /\ want <= b_limit b.
Proof.
  intros Hb Hm H0 H1. destruct (alloc_sized c s want) as [[s1 b]|] eqn:Ea.
  - destruct (alloc_sized_inv c s want s1 b Ea) as (_ & Ht & Hn & Fi & Fu & Fe & Fl).
    pose proof (round_up_bounds c want Hb). exists s1, b. split; [reflexivity|].
    split; [intros t; now apply get_ts_topics|]. split; [exact Hn|]. unfold fresh_blk. rewrite Fl. repeat split; auto; lia.
  - exfalso. unfold alloc_sized in Ea. replace ((want =? 0) || (c_max_alloc c <? want)) with false in Ea by lia.
    destruct (c_file c <? _); discriminate.
Qed.

(* a request below one unit is served like a request for one unit *)
Lemma alloc_sized_unit c s x : 0 < c_block c <= c_max_alloc c -> 0 < x ->
  alloc_sized c s (N.max x (c_block c)) = alloc_sized c s x.
Proof.
  intros Hb Hx. destruct (N.max_spec x (c_block c)) as [(Hlt & ->)|(_ & ->)]; [|reflexivity].
  unfold alloc_sized. fold (round_up c x) (round_up c (c_block c)). rewrite !round_up_small by lia.
  replace ((c_block c =? 0) || (c_max_alloc c <? c_block c)) with ((x =? 0) || (c_max_alloc c <? x)) by lia.
  reflexivity.
Qed.

Definition others_same (s s' : st) (t : N) : Prop := forall t', t' <> t -> get_ts s' t' = get_ts s t'.

Lemma GInv_update c s s' t ts' :
  GInv c s -> a_next (s_alloc s) <= a_next (s_alloc s') ->
  others_same s s' t -> get_ts s' t = ts' -> TInv c (a_next (s_alloc s')) ts' ->
  GInv c s'.
Proof.
  intros (Hn & Hall) Hle Hoth Hget Hinv. split; [lia|]. intros t'.
  destruct (N.eq_dec t' t) as [->|Hne]; [now rewrite Hget|]. rewrite (Hoth t' Hne). eapply TInv_mono; eauto.
Qed.

(* what the write side never does to the topic it writes: the reader's hydration flag, in-memory
   tail id and counter and the persisted position stay ([keep]), the sealed chain only grows at its
   end ([wkeep]).  ([keep] of EngineErase.v is another thing: which operations an erasure keeps.) *)
Definition keep (ts ts' : tstate) : Prop :=
  r_hydrated (reader_of ts') = r_hydrated (reader_of ts) /\
  r_tail_bid (reader_of ts') = r_tail_bid (reader_of ts) /\
  ts_index ts' = ts_index ts /\
  r_since (reader_of ts') = r_since (reader_of ts).

Definition wkeep (ts ts' : tstate) : Prop := keep ts ts' /\ exists q, chain_of ts' = chain_of ts ++ q.

Lemma keep_refl ts : keep ts ts. Proof. repeat split. Qed.
Lemma keep_trans a b d : keep a b -> keep b d -> keep a d.
Proof. intros (A1 & A2 & A3 & A4) (B1 & B2 & B3 & B4). repeat split; congruence. Qed.
Lemma keep_with_writer ts w : keep ts (with_writer ts w). Proof. repeat split. Qed.
Lemma keep_count_add ts d : keep ts (count_add ts d).
Proof. unfold count_add. destruct (d =? 0); repeat split. Qed.

Lemma chain_of_seal_app ts b : exists q, chain_of (seal ts b) = chain_of ts ++ q.
Proof. rewrite chain_of_seal. destruct (b_used b =? 0); [exists []; now rewrite app_nil_r|now exists [b]]. Qed.

Lemma keep_seal ts b : keep ts (seal ts b).
Proof. destruct (chain_push_cases (reader_of ts) b) as (A & B & C & _). repeat split; assumption. Qed.

Lemma wkeep_same ts ts' : keep ts ts' -> chain_of ts' = chain_of ts -> wkeep ts ts'.
Proof. intros K E. split; [exact K|]. exists []. now rewrite app_nil_r. Qed.

Lemma wkeep_refl ts : wkeep ts ts.
Proof. apply wkeep_same; [apply keep_refl|reflexivity]. Qed.

Lemma wkeep_trans a b d : wkeep a b -> wkeep b d -> wkeep a d.
Proof.
  intros (K1 & q1 & E1) (K2 & q2 & E2). split; [exact (keep_trans a b d K1 K2)|]. exists (q1 ++ q2). now rewrite E2, E1, app_assoc.
Qed.

Lemma wkeep_commit ts w d : wkeep ts (count_add (with_writer ts w) d).
Proof.
  apply wkeep_same; [exact (keep_trans _ _ _ (keep_with_writer ts w) (keep_count_add _ d))|].
  unfold count_add. now destruct (d =? 0).
Qed.

(* the frame of a write to [t]; no hypothesis on the state goes with it, so it also serves for the raw states
   behind a restart, where [GInv] does not hold *)
Definition wframe (t : N) (s s' : st) : Prop :=
  others_same s s' t /\ a_next (s_alloc s) <= a_next (s_alloc s') /\ wkeep (get_ts s t) (get_ts s' t).

Lemma wframe_refl t s : wframe t s s.
Proof. split; [intros t' _; reflexivity|]. split; [reflexivity|apply wkeep_refl]. Qed.

Lemma wframe_trans t s1 s2 s3 : wframe t s1 s2 -> wframe t s2 s3 -> wframe t s1 s3.
Proof.
  intros (O1 & N1 & K1) (O2 & N2 & K2). split; [intros t' Hne; now rewrite (O2 t' Hne), (O1 t' Hne)|].
  split; [lia|exact (wkeep_trans _ _ _ K1 K2)].
Qed.

Lemma wframe_set t s ts : wkeep (get_ts s t) ts -> wframe t s (set_ts s t ts).
Proof. intros K. split; [intros t' Hne; now apply get_set_other|]. split; [reflexivity|now rewrite get_set_same]. Qed.

Lemma allocd_wframe t s s1 b lim : allocd s s1 b lim -> wframe t s s1.
Proof.
  intros H. pose proof (allocd_next _ _ _ _ H) as Hn. destruct H as (f & o & _ & _ & _ & _ & Ht & _).
  split; [intros t' _; now apply get_ts_topics|]. split; [lia|]. rewrite (get_ts_topics _ _ t Ht). apply wkeep_refl.
Qed.

Lemma ensure_wframe c s t : wframe (t_id t) s (fst (ensure_writer c s t)).
Proof.
  unfold ensure_writer. destruct (ts_writer (get_ts s (t_id t))); [apply wframe_refl|].
  pose proof (alloc_first_allocd c s) as H. destruct (alloc_first c s) as [s1 b]. cbn [fst].
  apply (wframe_trans _ _ s1 _ (allocd_wframe _ _ _ _ _ H)), wframe_set, wkeep_same; [apply keep_with_writer|reflexivity].
Qed.

Lemma set_ts_twice s t a b : set_ts (set_ts s t a) t b = set_ts s t b.
Proof.
  unfold set_ts. cbn [s_topics s_alloc s_disk s_files]. f_equal.
  induction (s_topics s) as [|[k v] l IH]; cbn [set_assoc]; [now rewrite N.eqb_refl|].
  destruct (k =? t) eqn:E; cbn [set_assoc]; [now rewrite N.eqb_refl|]. now rewrite E, IH.
Qed.

Lemma appendable_none_inv c t l : cfg_ok c -> appendable c t l = None ->
  name_ok c t = true /\ c_hdr c + l <= c_max_alloc c.
Proof.
  intros (Hh & Hb0 & Hba & Hbm & Hme & Hhb). unfold appendable.
  destruct (c_max_alloc c <? N.min u64_max (c_hdr c + l)) eqn:E; [discriminate|].
  destruct (name_ok c t); cbn [negb]; [|discriminate]. intros _. split; [reflexivity|lia].
Qed.

Lemma max_len_forall c es : c_hdr c + max_len es <= c_max_alloc c -> Forall (fun e => need c e <= c_max_alloc c) es.
Proof.
  induction es as [|e es IH]; intros H; [constructor|]. cbn [max_len fold_right] in H. fold (max_len es) in H.
  constructor; [unfold need; lia|apply IH; lia].
Qed.

(* get_or_create_writer *)
Lemma ensure_wsteps c s t : cfg_ok c ->
  exists s1 w, ensure_writer c s t = (s1, w) /\ ts_writer (get_ts s1 (t_id t)) = Some w /\
    WSteps c (a_next (s_alloc s)) (get_ts s (t_id t)) [] (a_next (s_alloc s1)) (get_ts s1 (t_id t)).
Proof.
  intros (Hh & Hb0 & Hba & Hbm & Hme & Hhb). unfold ensure_writer.
  destruct (ts_writer (get_ts s (t_id t))) as [w|] eqn:Ew.
  - exists s, w. split; [reflexivity|]. split; [exact Ew|constructor].
  - destruct (alloc_first_spec c s ltac:(lia)) as (s1 & b & Ha & Hsame & Hnext & Hfresh & Hlim). rewrite Ha.
    rewrite (Hsame (t_id t)). eexists; eexists. split; [reflexivity|]. cbn [s_alloc set_ts]. rewrite Hnext, get_set_same.
    split; [reflexivity|]. apply WSteps_one. now constructor.
Qed.

Lemma ensure_writer_spec c s t : cfg_ok c -> GInv c s ->
  exists s1 w, ensure_writer c s t = (s1, w) /\
    a_next (s_alloc s) <= a_next (s_alloc s1) /\ 0 < a_next (s_alloc s1) /\
    others_same s s1 (t_id t) /\
    ts_writer (get_ts s1 (t_id t)) = Some w /\
    TInvP c (a_next (s_alloc s1)) (get_ts s1 (t_id t)) /\
    stream (get_ts s1 (t_id t)) = stream (get_ts s (t_id t)) /\
    unread c (get_ts s1 (t_id t)) = unread c (get_ts s (t_id t)) /\
    cnt (get_ts s1 (t_id t)) = cnt (get_ts s (t_id t)).
Proof.
  intros Hc Hg. pose proof Hc as (Hh & _). pose proof Hg as (Hn & Hall).
  destruct (ensure_wsteps c s t Hc) as (s1 & w & He & Hw & W).
  pose proof (proj1 (ensure_wframe c s t)) as Hoth. rewrite He in Hoth.
  destruct (WSteps_spec c Hh _ _ _ _ _ Hn (TInv_P _ _ _ (Hall (t_id t))) W) as (Hle & Hp & Hst & Hun & Hcnt).
  rewrite app_nil_r in Hst, Hun. exists s1, w. split; [exact He|]. split; [exact Hle|]. split; [lia|]. auto 10.
Qed.

(* The successful write path on (state, running writer block): while a batch is planned the
   block [cur] travels beside the state, which still holds the block the operation started
   with.  An entry that fits goes into [cur]; otherwise [cur] is sealed and a fresh block,
   sized for the entry, takes it at once. *)
Inductive PStep (c : Cfg) (t : topic) : st * blk -> entry -> st * blk -> Prop :=
| ps_add s cur e : b_used cur + need c e <= b_limit cur ->
    PStep c t (s, cur) e (st_disk_write s cur t [e], blk_add cur c [e])
| ps_rot s cur e want s1 nb :
    alloc_sized c (set_ts s (t_id t) (seal (get_ts s (t_id t)) cur)) want = Some (s1, nb) ->
    need c e <= want <= N.max (need c e) (c_block c) ->
    PStep c t (s, cur) e (st_disk_write s1 nb t [e], blk_add nb c [e]).

Inductive PSteps (c : Cfg) (t : topic) : st * blk -> list entry -> st * blk -> Prop :=
| pss_nil p : PSteps c t p [] p
| pss_cons p e q es r : PStep c t p e q -> PSteps c t q es r -> PSteps c t p (e :: es) r.

(* storing the running block and counting the [n] new entries ends the operation *)
Definition commit (t : topic) (p : st * blk) (n : N) : st :=
  set_ts (fst p) (t_id t) (count_add (with_writer (get_ts (fst p) (t_id t)) (Some (snd p))) n).

(* every outcome of a write to [t] under [cfg_ok], whatever the state: the topic gets its first block if it
   has none; then either nothing more (nothing is written), or some steps and the commit *)
Definition wrote (c : Cfg) (t : topic) (s : st) (es : list entry) (s' : st) : Prop :=
  exists q, PSteps c t (ensure_writer c s t) es q /\
    (es = [] /\ s' = fst (ensure_writer c s t) \/ s' = commit t q (N.of_nat (length es))).

Lemma wrote_nil c t s : wrote c t s [] (fst (ensure_writer c s t)).
Proof. exists (ensure_writer c s t). split; [constructor|auto]. Qed.

Lemma ensure_poisoned c s t :
  ts_poisoned (get_ts (fst (ensure_writer c s t)) (t_id t)) = ts_poisoned (get_ts s (t_id t)).
Proof.
  unfold ensure_writer. destruct (ts_writer (get_ts s (t_id t))); [reflexivity|].
  unfold alloc_first. destruct (c_file c <=? _); cbn [fst]; now rewrite get_set_same.
Qed.

(* the image is not part of the frame: writing to it is no step here *)
Lemma PSteps_wframe c t p es q : PSteps c t p es q -> wframe (t_id t) (fst p) (fst q).
Proof.
  induction 1 as [p|p e q es r Hs _ IH]; [apply wframe_refl|]. refine (wframe_trans _ _ _ _ _ IH).
  destruct Hs as [s cur e Hfit|s cur e want s1 nb Ha Hw]; cbn [fst]; [exact (wframe_refl _ s)|].
  apply (wframe_trans _ _ (set_ts s (t_id t) (seal (get_ts s (t_id t)) cur))).
  - apply wframe_set. split; [apply keep_seal|apply chain_of_seal_app].
  - exact (allocd_wframe _ _ _ _ _ (proj2 (alloc_sized_allocd c _ want s1 nb Ha))).
Qed.

Lemma wrote_wframe c t s es s' : wrote c t s es s' -> wframe (t_id t) s s'.
Proof.
  intros (q & Hps & Hs'). pose proof (ensure_wframe c s t) as He. destruct Hs' as [(_ & ->)| ->]; [exact He|].
  exact (wframe_trans _ _ _ _ (wframe_trans _ _ _ _ He (PSteps_wframe c t _ _ _ Hps)) (wframe_set _ _ _ (wkeep_commit _ _ _))).
Qed.

(* seen from the topic: a rotation is the primitive [ws_rot] followed by [ws_add] *)
Lemma PStep_WSteps c (Hc : cfg_ok c) t s cur e s' cur' : PStep c t (s, cur) e (s', cur') ->
  WSteps c (a_next (s_alloc s)) (with_writer (get_ts s (t_id t)) (Some cur)) [e]
           (a_next (s_alloc s')) (with_writer (get_ts s' (t_id t)) (Some cur')).
Proof.
  pose proof Hc as (Hh & Hb0 & Hba & Hbm & _).
  set (X := with_writer (get_ts s (t_id t)) (Some cur)).
  intros H. inversion H as [s0 cur0 e0 Hfit|s0 cur0 e0 want s1 nb Ha Hw]; subst.
  - apply WSteps_one. exact (ws_add c _ X cur e eq_refl Hfit).
  - destruct (alloc_sized_inv c _ want s1 nb Ha) as (Hw0 & Htop & Hnext & Fi & Fu & Fe & Fl).
    pose proof (round_up_bounds c want Hb0) as Hr.
    cbn [st_disk_write s_alloc]. rewrite get_ts_disk_write, (get_ts_topics _ _ _ Htop), get_set_same, Hnext.
    cbn [set_ts s_alloc].
    apply (wss_snoc c _ _ [] (a_next (s_alloc s) + 1) (with_writer (seal X cur) (Some nb)) [e]).
    + apply WSteps_one. apply (ws_rot c _ X cur nb eq_refl). unfold fresh_blk. rewrite Fl. repeat split; auto; lia.
    + apply (ws_add c _ (with_writer (seal X cur) (Some nb)) nb e eq_refl). lia.
Qed.

Lemma PSteps_WSteps c (Hc : cfg_ok c) t p es q : PSteps c t p es q ->
  WSteps c (a_next (s_alloc (fst p))) (with_writer (get_ts (fst p) (t_id t)) (Some (snd p))) es
           (a_next (s_alloc (fst q))) (with_writer (get_ts (fst q) (t_id t)) (Some (snd q))).
Proof.
  induction 1 as [p|[s cur] e [s' cur'] es r Hs _ IH]; [constructor|].
  exact (WSteps_app c _ _ [e] _ _ es _ _ (PStep_WSteps c Hc t _ _ _ _ _ Hs) IH).
Qed.

Lemma wrote_WRun c s t es s' : cfg_ok c -> wrote c t s es s' ->
  WRun c (a_next (s_alloc s)) (get_ts s (t_id t)) es (a_next (s_alloc s')) (get_ts s' (t_id t)).
Proof.
  intros Hc (q & Hps & Hs'). destruct (ensure_wsteps c s t Hc) as (s1 & w & He & Hw & W1). rewrite He in *. cbn [fst] in Hs'.
  pose proof (PSteps_WSteps c Hc t _ _ _ Hps) as W2. cbn [fst snd] in W2. rewrite (with_writer_same _ _ Hw) in W2.
  destruct Hs' as [(-> & ->) | ->].
  - exists (get_ts s1 (t_id t)). split; [exact W1|reflexivity].
  - exists (with_writer (get_ts (fst q) (t_id t)) (Some (snd q))). unfold commit. cbn [set_ts s_alloc]. rewrite get_set_same.
    split; [exact (WSteps_app c _ _ [] _ _ _ _ _ W1 W2)|reflexivity].
Qed.

Lemma wrote_spec c s t es s' : cfg_ok c -> GInv c s -> wrote c t s es s' ->
  cnt (get_ts s (t_id t)) + N.of_nat (length es) <= u64_max ->
  GInv c s' /\ others_same s s' (t_id t) /\
  stream (get_ts s' (t_id t)) = stream (get_ts s (t_id t)) ++ es /\
  unread c (get_ts s' (t_id t)) = unread c (get_ts s (t_id t)) ++ es.
Proof.
  intros Hc Hg Hw Hb. pose proof (proj1 (wrote_wframe c t s es s' Hw)) as Hoth.
  destruct (WRun_spec c (proj1 Hc) _ _ _ _ _ (proj1 Hg) (proj2 Hg (t_id t)) (wrote_WRun c s t es s' Hc Hw) Hb) as (Hle & Hinv & Hst & Hun).
  split; [exact (GInv_update c s s' (t_id t) _ Hg Hle Hoth eq_refl Hinv)|auto].
Qed.

(* Writer::batch_write planning *)
Lemma batch_plan_psteps c (Hc : cfg_ok c) t : forall es s cur rot,
  Forall (fun e => need c e <= c_max_alloc c) es ->
  exists s' cur' rot', batch_plan c s t cur rot es = (s', cur', true, rot') /\ PSteps c t (s, cur) es (s', cur').
Proof.
  pose proof Hc as (Hh & Hb0 & Hba & Hbm & _).
  induction es as [|e r IH]; intros s cur rot Hsz; cbn [batch_plan].
  { exists s, cur, rot. split; [reflexivity|constructor]. }
  pose proof (Forall_inv Hsz) as Hse. cbn beta in Hse. apply Forall_inv_tail in Hsz. pose proof (need_pos c e Hh) as Hnp.
  destruct (need c e <=? b_limit cur - b_used cur) eqn:Efit.
  - destruct (IH (st_disk_write s cur t [e]) (blk_add cur c [e]) rot Hsz) as (s' & cur' & rot' & Hbp & Hps).
    exists s', cur', rot'. split; [exact Hbp|]. exact (pss_cons c t _ e _ r _ (ps_add c t s cur e ltac:(lia)) Hps).
  - (* seal the running block, take a fresh one sized for [e] (at least one unit), write [e] into it *)
    destruct (alloc_sized_spec c (set_ts s (t_id t) (seal (get_ts s (t_id t)) cur)) (N.max (need c e) (c_block c)) Hb0 Hbm ltac:(lia) ltac:(lia))
      as (s1 & nb & Ha & _).
    rewrite Ha.
    destruct (IH (st_disk_write s1 nb t [e]) (blk_add nb c [e]) true Hsz) as (s' & cur' & rot' & Hbp & Hps).
    exists s', cur', rot'. split; [exact Hbp|]. exact (pss_cons c t _ e _ r _ (ps_rot c t s cur e _ s1 nb Ha ltac:(lia)) Hps).
Qed.

(* What [append] and [batch] share, and under [cfg_ok] all they are: [batch] with its two limits on the batch as
   a whole left to the caller ([over]: one of them is exceeded), without the failure of the header copy, which
   is dead behind [appendable], and without the mark on a refused allocation, which [append] does not set and
   [cfg_ok] excludes behind [appendable]. *)
Definition put (c : Cfg) (s : st) (t : topic) (over : bool) (es : list entry) : st * result :=
  let '(s1, w) := ensure_writer c s t in
  if over then (s1, RErr EInvalidInput) else
  match appendable c t (max_len es) with Some k => (s1, RErr k) | None =>
  match es with [] => (s1, ROk) | _ =>
  if ts_poisoned (get_ts s1 (t_id t)) then (s1, RErr EOther) else
  let '(s2, wfin, okp, _) := batch_plan c s1 t w false es in
  if okp then (commit t (s2, wfin) (N.of_nat (length es)), ROk) else (s2, RErr EInvalidInput)
  end end.

(* [append] is a plan of one entry: the layers above walk the write path once, along [put] *)
Lemma append_put c s t e : cfg_ok c -> append c s t e = put c s t false [e].
Proof.
  intros Hc. pose proof Hc as (Hh & Hb0 & Hba & _). unfold append, put. destruct (ensure_writer c s t) as [s1 w].
  cbn [max_len fold_right]. rewrite N.max_0_r.
  destruct (appendable c t (e_len e)) eqn:Eap; [reflexivity|].
  destruct (appendable_none_inv c t _ Hc Eap) as (-> & _).
  destruct (ts_poisoned (get_ts s1 (t_id t))); [reflexivity|].
  pose proof (need_pos c e Hh) as Hnp. cbn [batch_plan].
  replace (need c e <=? b_limit w - b_used w) with (negb (b_limit w <? b_used w + need c e)) by lia.
  destruct (b_limit w <? b_used w + need c e); cbn [negb]; [|reflexivity].
  rewrite (alloc_sized_unit c _ (need c e) (conj Hb0 Hba) Hnp).
  destruct (alloc_sized c _ (need c e)) as [[s2 nb]|]; [|reflexivity].
  (* the writer had been stored before the entry was written: stored twice is stored once *)
  unfold commit. cbn [fst snd]. rewrite !get_ts_disk_write, get_set_same. f_equal.
  exact (set_ts_twice (st_disk_write s2 nb t [e]) (t_id t) (with_writer (get_ts s2 (t_id t)) (Some nb)) _).
Qed.

Lemma batch_put c be s t es : cfg_ok c ->
  batch c be s t es = put c s t ((c_max_entries c <? N.of_nat (length es)) || (c_max_bytes c <? sum_need c es)) es.
Proof.
  intros Hc. unfold batch, put. destruct (ensure_writer c s t) as [s1 w].
  destruct (c_max_entries c <? N.of_nat (length es)); [reflexivity|].
  destruct (c_max_bytes c <? sum_need c es); [reflexivity|]. cbn [orb].
  destruct (appendable c t (max_len es)) eqn:Eap; [reflexivity|].
  destruct (appendable_none_inv c t _ Hc Eap) as (-> & Hml). apply max_len_forall in Hml.
  destruct es as [|e0 es0]; [reflexivity|].
  destruct (ts_poisoned (get_ts s1 (t_id t))); [reflexivity|].
  destruct (batch_plan_psteps c Hc t (e0 :: es0) s1 w false Hml) as (s2 & wfin & rot' & -> & _). reflexivity.
Qed.

Lemma write_put c m be o t : cfg_ok c -> wtopic o = Some t ->
  exists over es, forall s, step {| v_cfg := c; v_mode := m; v_backend := be |} s o = put c s t over es.
Proof.
  intros Hc. destruct o as [t0 e|t0 es| | | |]; intros [= ->]; cbn [step v_cfg v_backend]; eexists; eexists; intros s;
    [now apply append_put|now apply batch_put].
Qed.

Lemma put_wrote c s t over es : cfg_ok c ->
  exists s' r es', put c s t over es = (s', r) /\ wrote c t s es' s' /\
    (ts_poisoned (get_ts s (t_id t)) = false ->
     es' = es /\ r = ROk \/
     es' = [] /\ (r = RErr EInvalidInput \/ exists k, appendable c t (max_len es) = Some k /\ r = RErr k)).
Proof.
  intros Hc. pose proof (wrote_nil c t s) as Hnil. rewrite <- (ensure_poisoned c s t). unfold put, wrote in *.
  destruct (ensure_writer c s t) as [s1 w]. cbn [fst] in *.
  destruct over; [exists s1, (RErr EInvalidInput), []; auto 8|].
  destruct (appendable c t (max_len es)) as [k|] eqn:Eap; [exists s1, (RErr k), []; eauto 9|].
  destruct (appendable_none_inv c t _ Hc Eap) as (_ & Hml). apply max_len_forall in Hml.
  destruct es as [|e0 es0]; [exists s1, ROk, []; auto 7|].
  destruct (ts_poisoned (get_ts s1 (t_id t))); [exists s1, (RErr EOther), []; split; [reflexivity|]; split; [exact Hnil|discriminate]|].
  destruct (batch_plan_psteps c Hc t (e0 :: es0) s1 w false Hml) as (s2 & wfin & rot' & -> & Hps).
  eexists; eexists; exists (e0 :: es0). split; [reflexivity|]. split; [|auto]. exists (s2, wfin). auto.
Qed.

Lemma write_wrote c m be s o t : cfg_ok c -> wtopic o = Some t ->
  exists es, wrote c t s es (fst (step {| v_cfg := c; v_mode := m; v_backend := be |} s o)).
Proof.
  intros Hc Ho. destruct (write_put c m be o t Hc Ho) as (over & es & ->).
  destruct (put_wrote c s t over es Hc) as (s' & r & es' & -> & H & _). now exists es'.
Qed.

Lemma write_wframe c m be s o t : cfg_ok c -> wtopic o = Some t ->
  wframe (t_id t) s (fst (step {| v_cfg := c; v_mode := m; v_backend := be |} s o)).
Proof. intros Hc Ho. destruct (write_wrote c m be s o t Hc Ho) as (es & H). exact (wrote_wframe c t s es _ H). Qed.

Lemma write_WRun c m be s o t : cfg_ok c -> wtopic o = Some t ->
  let s' := fst (step {| v_cfg := c; v_mode := m; v_backend := be |} s o) in
  exists es, WRun c (a_next (s_alloc s)) (get_ts s (t_id t)) es (a_next (s_alloc s')) (get_ts s' (t_id t)).
Proof.
  intros Hc Ho. destruct (write_wrote c m be s o t Hc Ho) as (es & H). exists es. exact (wrote_WRun c s t es _ Hc H).
Qed.

Lemma appendable_ok c t l : cfg_ok c -> name_ok c t = true -> c_hdr c + l <= c_max_alloc c -> appendable c t l = None.
Proof.
  intros (Hh & Hb0 & Hba & Hbm & Hme & Hhb) Hn Hl. unfold appendable. rewrite Hn. cbn [negb].
  replace (c_max_alloc c <? N.min u64_max (c_hdr c + l)) with false by lia. reflexivity.
Qed.

Lemma max_len_le c es : Forall (fun e => need c e <= c_max_alloc c) es -> c_hdr c <= c_max_alloc c ->
  c_hdr c + max_len es <= c_max_alloc c.
Proof.
  intros H Hm. induction H as [|e es He Hes IH]; cbn [max_len fold_right]; [lia|].
  fold (max_len es). unfold need in He. lia.
Qed.

(* the arguments of a batch that [appendable] does not refuse: the topic name fits the entry header and every
   entry can be allocated.  The two limits on the batch as a whole, entry count and bytes, are left open: beyond
   them the batch is refused with EInvalidInput. *)
Definition batch_ok (c : Cfg) (t : topic) (es : list entry) : Prop :=
  name_ok c t = true /\ Forall (fun e => need c e <= c_max_alloc c) es.
