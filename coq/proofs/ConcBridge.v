(* ConcBridge.v — from the final invariant to the verdict of the C05 acceptor (spec/ConcSpec.v).
   Two facts about the acceptor, neither the converse of the other.  [c05_topic_ok_means]: an
   accepting verdict gives the clauses whole, once and (when drained) all; order and batch are not
   extracted.  [c05_topic_ok_intro]: the verdict with [drained = false], for single-entry appends,
   from an order of the topic's entries of which what each producer sent and what each consumer got
   are subsequences, no entry going to two consumers.  [run_events]: the events of programs of
   single appends and read_next calls are the per-thread ledgers.  [ledger_accepts]: which clauses
   of the invariant, at a state in which every call has returned, give the verdict, the order being
   the topic's stream; INVF (fx = true) has them through its delivery log, INV through its one
   consumer per topic.  Every verdict here is the one with [drained = false]: nothing is proved
   about entries not yet delivered (clause all). *)
From W Require Import model.Base model.Engine model.Conc spec.ConcSpec proofs.EngineWF proofs.EngineInv proofs.ConcInv proofs.ConcInvF proofs.ConcStep.

Lemma memN_In x l : c_memN x l = true <-> In x l.
Proof. apply existsb_eqb_in. Qed.
Lemma nodupN_NoDup l : NoDup l -> nodupN l = true.
Proof.
  induction 1 as [|x l Hx Hn IH]; cbn; [reflexivity|]. rewrite IH, andb_true_r.
  destruct (c_memN x l) eqn:E; [|reflexivity]. apply memN_In in E. contradiction.
Qed.

Lemma nodupN_true l : nodupN l = true -> NoDup l.
Proof.
  induction l as [|x l IH]; cbn; intros H; [constructor|]. apply andb_true_iff in H. destruct H as (A & B).
  constructor; [|now apply IH]. intros Hin. apply memN_In in Hin. rewrite Hin in A. discriminate.
Qed.

Lemma drop_while_none {A} (f : A -> bool) l : existsb f l = false -> existsb f (drop_while f l) = false.
Proof. induction l as [|x l IH]; cbn; [auto|]. intros H. apply orb_false_iff in H. destruct H as (H1 & H2). rewrite H1. cbn. now rewrite H1, H2. Qed.

Lemma contiguous_single (z : N) l : NoDup l -> contiguous (fun x => c_memN x [z]) l = true.
Proof.
  intros Hn. unfold contiguous.
  assert (Hf : forall x, c_memN x [z] = (x =? z)) by (intros x; cbn; now rewrite orb_false_r).
  induction l as [|x l IH]; cbn [drop_until]; [reflexivity|].
  inversion Hn; subst. rewrite Hf. destruct (x =? z) eqn:E.
  - cbn [drop_while]. rewrite Hf, E. apply N.eqb_eq in E. subst x.
    assert (Hno : existsb (fun x => c_memN x [z]) l = false).
    { destruct (existsb _ l) eqn:Ex; [|reflexivity]. apply existsb_exists in Ex. destruct Ex as (y & Hy & Ey).
      rewrite Hf in Ey. apply N.eqb_eq in Ey. subst y. contradiction. }
    now rewrite (drop_while_none _ _ Hno).
  - apply IH. assumption.
Qed.

(* the greedy test accepts every subsequence *)
Lemma drop_to_subseq x : forall xs ys, subseq (x :: xs) ys -> exists r, drop_to x ys = Some r /\ subseq xs r.
Proof.
  intros xs ys H. remember (x :: xs) as l eqn:E. revert x xs E. induction H; intros y ys' E; try discriminate.
  - inversion E; subst. exists b. split; [cbn; now rewrite N.eqb_refl|assumption].
  - subst a. cbn [drop_to]. destruct (N.eqb_spec y x) as [->|Hne].
    + exists b. split; [reflexivity|]. eapply subseq_tail; eauto.
    + apply (IHsubseq y ys' eq_refl).
Qed.
Lemma c_is_subseq_complete : forall xs ys, subseq xs ys -> c_is_subseq xs ys = true.
Proof.
  induction xs as [|x xs IH]; intros ys H; [reflexivity|]. cbn [c_is_subseq].
  destruct (drop_to_subseq x xs ys H) as (r & -> & Hr). now apply IH.
Qed.

Lemma subseq_filter_mem (S P T : list N) : NoDup T -> subseq S T -> subseq P T ->
  subseq (filter (fun x => c_memN x P) S) P.
Proof.
  intros Hn HS HP.
  assert (E : filter (fun x => c_memN x P) T = P).
  { clear S HS. induction HP as [l|x a b Hs IH|x a b Hs IH]; cbn.
    - apply filter_none. apply Forall_forall. reflexivity.
    - inversion Hn; subst. rewrite N.eqb_refl. cbn. f_equal. transitivity (filter (fun y => c_memN y a) b); [|now apply IH]. apply filter_ext_in.
      intros y Hy. cbn. destruct (N.eqb_spec y x) as [->|]; [contradiction|reflexivity].
    - inversion Hn; subst. destruct (c_memN x a) eqn:Em; [|now apply IH].
      exfalso. apply H1. apply memN_In in Em. eapply subseq_In; eauto. }
  pose proof (subseq_filter (fun x => c_memN x P) S T HS) as H. now rewrite E in H.
Qed.

Lemma c05_topic_ok_intro apps dels t (T : list entry) :
  NoDup (map e_pid T) ->
  (forall a, In a (apps_on apps t) -> exists e, av_ents a = [e]) ->
  (forall e, In e T -> exists p, In e (sent_by apps t p)) ->
  (forall p, subseq (sent_by apps t p) T) ->
  (forall q, subseq (got_by dels t q) (map out_of T)) ->
  (forall q q' x, In x (map o_pid (got_by dels t q)) -> In x (map o_pid (got_by dels t q')) -> q = q') ->
  c05_topic_ok apps dels false t = true.
Proof.
  intros Hn Hsingle Hack Hsent Hgot Hex.
  assert (Hpid : forall q, subseq (map o_pid (got_by dels t q)) (map e_pid T)).
  { intros q. pose proof (subseq_map o_pid _ _ (Hgot q)) as H. now rewrite map_map in H. }
  assert (Hmine : forall d, In d (dels_on dels t) -> forall o, In o (dv_outs d) -> In o (got_by dels t (dv_tid d))).
  { intros d Hd o Ho. apply in_flat_map. exists d. split; [|exact Ho]. apply filter_In. split; [exact Hd|apply Nat.eqb_refl]. }
  unfold c05_topic_ok. apply andb_true_intro. split; [apply andb_true_intro; split; [apply andb_true_intro; split|]|].
  - apply forallb_forall. intros o Ho. apply in_flat_map in Ho as (d & Hd & Ho).
    pose proof (subseq_In _ _ _ (Hgot _) (Hmine d Hd o Ho)) as Hin. apply in_map_iff in Hin as (e & <- & He).
    unfold whole_of. cbn [out_of o_skip o_pid o_len]. apply andb_true_intro. split; [reflexivity|].
    apply existsb_exists. exists e. split; [|now rewrite !N.eqb_refl].
    destruct (Hack e He) as (p & Hp). apply in_flat_map in Hp as (a & Ha & Hp). apply in_flat_map. exists a. split; [|exact Hp].
    now apply filter_In in Ha.
  - apply nodupN_NoDup. unfold delivered. rewrite map_flat_map.
    apply (NoDup_by_parts _ (fun q d => Nat.eqb (dv_tid d) q) (fun _ => True)).
    + intros d _. exists (dv_tid d). split; [exact I|apply Nat.eqb_refl].
    + intros q a b x Ha Hb Hxa Hxb. apply in_map_iff in Hxa as (oa & <- & Hoa). apply in_map_iff in Hxb as (ob & Eo & Hob).
      rewrite (Hex (dv_tid a) (dv_tid b) (o_pid oa)); [reflexivity| |rewrite <- Eo]; apply in_map; now apply Hmine.
    + intros q _. rewrite <- map_flat_map. eapply subseq_NoDup; [apply (Hpid q)|exact Hn].
  - reflexivity.
  - apply forallb_forall. intros q _. apply andb_true_intro. split.
    + apply forallb_forall. intros p _. apply c_is_subseq_complete.
      apply (subseq_filter_mem _ _ (map e_pid T) Hn (Hpid q)). apply subseq_map, Hsent.
    + apply forallb_forall. intros a Ha. destruct (Hsingle a Ha) as (e & ->). cbn [map].
      apply contiguous_single. eapply subseq_NoDup; [apply Hpid|exact Hn].
Qed.

Theorem c05_topic_ok_means apps dels drained t : c05_topic_ok apps dels drained t = true ->
  (forall o, In o (delivered dels t) ->
     o_skip o = 0 /\ exists e, In e (acked apps t) /\ e_pid e = o_pid o /\ e_len e = o_len o) /\
  NoDup (map o_pid (delivered dels t)) /\
  (drained = true -> forall e, In e (acked apps t) -> In (e_pid e) (map o_pid (delivered dels t))).
Proof.
  unfold c05_topic_ok. intros H.
  apply andb_true_iff in H. destruct H as (H & _).
  apply andb_true_iff in H. destruct H as (H & H3).
  apply andb_true_iff in H. destruct H as (H1 & H2).
  split; [|split].
  - intros o Ho. rewrite forallb_forall in H1. specialize (H1 o Ho). unfold whole_of in H1.
    apply andb_true_iff in H1. destruct H1 as (A & B). split; [now apply N.eqb_eq|].
    apply existsb_exists in B. destruct B as (e & He & E). apply andb_true_iff in E. destruct E as (E1 & E2).
    exists e. split; [exact He|]. split; now apply N.eqb_eq.
  - now apply nodupN_true.
  - intros -> e He. cbn [negb orb] in H3. rewrite forallb_forall in H3. apply memN_In. now apply H3.
Qed.

Definition thread_okP (p : list call) (rs : list result) : Prop :=
  Forall (fun cl => simple_callP cl = true) p /\ Forall2 res_ok p rs.

Lemma sent_by_app a b t q : sent_by (a ++ b) t q = sent_by a t q ++ sent_by b t q.
Proof. unfold sent_by, apps_on. now rewrite !filter_app, flat_map_app. Qed.
Lemma got_by_app a b t q : got_by (a ++ b) t q = got_by a t q ++ got_by b t q.
Proof. unfold got_by, dels_on. now rewrite !filter_app, flat_map_app. Qed.

(* what thread [q] has in the events of thread [tid]: the ledgers of ConcInv.v *)
Lemma thread_events tid : forall cls rs, thread_okP cls rs ->
  let '(a, d, bad) := events_of tid cls rs in
  bad = false /\ Forall (fun x => exists e, av_ents x = [e]) a /\
  forall t q, sent_by a t q = (if Nat.eqb tid q then wr_hist t cls rs else []) /\
              got_by d t q = (if Nat.eqb tid q then del_hist t cls rs else []).
Proof.
  induction cls as [|cl cls IH]; intros rs [Hs Hr]; inversion Hr as [|? r ? rs' Hr1 Hr2]; subst.
  { split; [reflexivity|]. split; [constructor|]. intros t q. now destruct (Nat.eqb tid q). }
  inversion Hs as [|? ? Hs1 Hs2]; subst. specialize (IH rs' (conj Hs2 Hr2)). cbn [events_of wr_hist del_hist].
  destruct (events_of tid cls rs') as [[a d] bad]. destruct IH as (-> & Hsing & Hpart).
  destruct cl as [t' e|t' es|t' ck|t' mb ck]; try discriminate; destruct r; try contradiction.
  (* left: an append answered ROk or RErr, a read_next (consuming or not) answered REntry or RNone *)
  all: split; [reflexivity|]; split; [first [exact Hsing|constructor; [cbn; eauto|exact Hsing]]|]; intros t q; destruct (Hpart t q) as [Ea Ed].
  all: try change (?x :: a) with ([x] ++ a); rewrite ?sent_by_app, ?got_by_app, Ea, Ed.
  all: try destruct ck; cbn; destruct (t_id t' =? t); cbn; destruct (Nat.eqb tid q); auto.
Qed.

(* thread ids count up from [n] *)
Lemma run_events progs res : Forall2 thread_okP progs res -> forall n,
  let '(A, D, bad) := events_all n progs res in
  bad = false /\ Forall (fun x => exists e, av_ents x = [e]) A /\
  (forall t q, sent_by A t (n + q) = wr_hist t (nth q progs []) (nth q res []) /\
               got_by D t (n + q) = del_hist t (nth q progs []) (nth q res [])) /\
  (forall t q, (q < n)%nat -> sent_by A t q = [] /\ got_by D t q = []).
Proof.
  induction 1 as [|p r ps rs Hp _ IH]; intros n; cbn [events_all].
  { split; [reflexivity|]. split; [constructor|]. split; [intros t [|q]|]; now split. }
  pose proof (thread_events n p r Hp) as H1. specialize (IH (S n)).
  destruct (events_of n p r) as [[a1 d1] b1], (events_all (S n) ps rs) as [[a2 d2] b2].
  destruct H1 as (-> & S1 & P1), IH as (-> & S2 & P2 & Z2). split; [reflexivity|]. split; [apply Forall_app; now split|].
  split; intros t q; [|intros Hq]; rewrite sent_by_app, got_by_app, (proj1 (P1 t _)), (proj2 (P1 t _)).
  - destruct q as [|q].
    + rewrite Nat.add_0_r, Nat.eqb_refl, (proj1 (Z2 t n (Nat.lt_succ_diag_r n))), (proj2 (Z2 t n (Nat.lt_succ_diag_r n))). now rewrite !app_nil_r.
    + rewrite (proj2 (Nat.eqb_neq _ _)) by lia. rewrite Nat.add_succ_r. apply (P2 t q).
  - rewrite (proj2 (Nat.eqb_neq _ _)) by lia. apply (Z2 t q). lia.
Qed.

Fixpoint all_del (t : N) (progs : list (list call)) (res : list (list result)) : list out :=
  match progs, res with
  | p :: ps, r :: rs => del_hist t p r ++ all_del t ps rs
  | _, _ => []
  end.

Lemma in_all_del t o : forall progs res, In o (all_del t progs res) ->
  exists i, (i < length progs)%nat /\ (i < length res)%nat /\ In o (del_hist t (nth i progs []) (nth i res [])).
Proof.
  induction progs as [|p ps IH]; intros res H; [destruct H|]. destruct res as [|r rs]; [destruct H|].
  cbn [all_del] in H. apply in_app_or in H. destruct H as [H|H].
  - exists 0%nat. cbn. repeat split; try lia. exact H.
  - destruct (IH rs H) as (i & A & B & C). exists (S i). cbn. repeat split; try lia. exact C.
Qed.

Lemma del_hist_consumes t o : forall p rs, In o (del_hist t p rs) -> consumes p t.
Proof.
  induction p as [|cl p IH]; intros rs H; [destruct H|]. destruct rs as [|r rs]; [destruct H|].
  cbn [del_hist] in H. apply in_app_or in H. destruct H as [H|H].
  - destruct cl as [| |t' ck|]; try destruct H. destruct ck; [|destruct H]. destruct r; try destruct H.
    destruct (N.eqb_spec (t_id t') t) as [E|]; [|destruct H]. exists t', true. split; [now left|exact E].
  - destruct (IH rs H) as (t' & ck & A & B). exists t', ck. split; [now right|exact B].
Qed.

Lemma wr_hist_pids t : forall p rs, subseq (map e_pid (wr_hist t p rs)) (prog_pids p).
Proof.
  induction p as [|cl p IH]; intros rs; [constructor|]. destruct rs as [|r rs]; [constructor|].
  cbn [wr_hist prog_pids flat_map]. rewrite map_app.
  destruct cl as [t' e|t' es| |]; cbn [app map]; try apply IH.
  - destruct r; try (constructor; apply IH). destruct (t_id t' =? t); constructor; apply IH.
  - induction (map e_pid es); cbn; [apply IH|now constructor].
Qed.

Lemma own_resp p x y : e_pid x = e_pid y -> own p x = own p y.
Proof. unfold own. now intros ->. Qed.
Lemma own_iff p e : own p e = true <-> In (e_pid e) (prog_pids p).
Proof. apply memN_In. Qed.

Lemma simple_callP_progs progs :
  Forall (Forall (fun cl => simple_call cl = true)) progs -> Forall (Forall (fun cl => simple_callP cl = true)) progs.
Proof.
  intros H. eapply Forall_impl; [|exact H]. intros p Hp.
  eapply Forall_impl; [|exact Hp]. intros cl Hcl. destruct cl as [| |t ck|]; try discriminate; reflexivity.
Qed.

Lemma done_thread cs i th : threads_done cs = true -> nth_error (cs_threads cs) i = Some th ->
  th_todo th = [] /\ nth i (cresults cs) [] = rev (th_done th) /\
  forall prog t, del_seq t prog th = del_hist t prog (rev (th_done th)) /\ wr_seq t prog th = wr_hist t prog (rev (th_done th)).
Proof.
  intros Hdone E.
  assert (Htd : th_todo th = []).
  { unfold threads_done in Hdone. rewrite forallb_forall in Hdone. specialize (Hdone th (nth_error_In _ _ E)). now destruct (th_todo th). }
  split; [exact Htd|]. split.
  - unfold cresults. erewrite nth_indep by (rewrite map_length; eapply nth_error_lt; eauto).
    rewrite (map_nth (fun th => rev (th_done th)) (cs_threads cs) th i). f_equal. f_equal. now apply nth_error_nth.
  - intros prog t. unfold del_seq, wr_seq, done_of, del_pending, wr_pending. rewrite Htd. cbn [length]. now rewrite Nat.sub_0_r, firstn_all, !app_nil_r.
Qed.

(* The clauses INV and INVF share, and what each of them has to add: what a thread was handed is a
   subsequence of the topic's stream, and no entry was handed to two threads (asked only where the
   stream has no id twice, which follows from the shared clauses). *)
Lemma ledger_accepts progs cs :
  Forall (Forall (fun cl => simple_callP cl = true)) progs -> NoDup (offered_pids progs) -> threads_done cs = true ->
  length (cs_threads cs) = length progs ->
  (forall i th, nth_error (cs_threads cs) i = Some th -> hist_ok (nth i progs []) th) ->
  (forall t i th, nth_error (cs_threads cs) i = Some th ->
     filter (own (nth i progs [])) (stream (eff cs t)) = wr_seq t (nth i progs []) th) ->
  (forall t e, In e (stream (eff cs t)) -> exists i, (i < length progs)%nat /\ own (nth i progs []) e = true) ->
  (forall t i th, nth_error (cs_threads cs) i = Some th -> subseq (del_seq t (nth i progs []) th) (map out_of (stream (eff cs t)))) ->
  (forall t i j thi thj x, NoDup (map e_pid (stream (eff cs t))) ->
     nth_error (cs_threads cs) i = Some thi -> nth_error (cs_threads cs) j = Some thj ->
     In x (map o_pid (del_seq t (nth i progs []) thi)) -> In x (map o_pid (del_seq t (nth j progs []) thj)) -> i = j) ->
  c05_run_ok progs (cresults cs) false = true.
Proof.
  intros Hsp Hnd Hdone Hlen Hhist Fown Howned Fsub Fex.
  set (n := length progs) in *.
  assert (Hth : forall i, (i < n)%nat -> exists th, nth_error (cs_threads cs) i = Some th).
  { intros i Hi. destruct (nth_error (cs_threads cs) i) eqn:E; [eauto|]. apply nth_error_None in E. lia. }
  assert (Hthok : Forall2 thread_okP progs (cresults cs)).
  { apply (Forall2_nth thread_okP [] []); [unfold cresults; now rewrite map_length|].
    intros i Hi. destruct (Hth i Hi) as (th & E). split; [eapply Forall_forall in Hsp; [exact Hsp|now apply nth_In]|].
    destruct (done_thread cs i th Hdone E) as (Htd & -> & _). destruct (Hhist i th E) as (d & H1 & H2).
    rewrite Htd, app_nil_r in H1. now subst d. }
  pose proof (run_events progs (cresults cs) Hthok 0) as Hev. unfold c05_run_ok.
  destruct (events_all 0 progs (cresults cs)) as [[A D] bad]. destruct Hev as (-> & Hsing & Hev & _). cbn [Nat.add] in Hev.
  apply forallb_forall. intros t _. set (T := stream (eff cs t)).
  (* beyond the last thread the ledgers are empty *)
  assert (Hq : forall q, sent_by A t q = filter (own (nth q progs [])) T /\ subseq (got_by D t q) (map out_of T) /\
             forall x, In x (map o_pid (got_by D t q)) ->
               exists th, nth_error (cs_threads cs) q = Some th /\ In x (map o_pid (del_seq t (nth q progs []) th))).
  { intros q. rewrite (proj1 (Hev t q)), (proj2 (Hev t q)). destruct (Nat.lt_ge_cases q n) as [Hlt|Hge].
    - destruct (Hth q Hlt) as (th & E). destruct (done_thread cs q th Hdone E) as (_ & -> & Hs).
      rewrite <- (proj1 (Hs _ t)), <- (proj2 (Hs _ t)). split; [symmetry; apply Fown, E|]. split; [apply Fsub, E|eauto].
    - rewrite (nth_overflow progs) by exact Hge. split; [symmetry; apply filter_none, Forall_forall; reflexivity|].
      split; [constructor|intros x []]. }
  assert (Hnds : NoDup (map e_pid T)).
  { rewrite <- flat_map_single. apply (NoDup_by_parts _ (fun i => own (nth i progs [])) (fun i => (i < n)%nat)).
    - apply Howned.
    - intros i a b x _ _ [<-|[]] [E|[]]. now apply own_resp.
    - intros i Hi. rewrite flat_map_single, <- (proj1 (Hq i)), (proj1 (Hev t i)). eapply subseq_NoDup; [apply wr_hist_pids|].
      destruct (offered_pids_nth progs i Hi) as (x & y & E'). rewrite E' in Hnd.
      apply NoDup_app_iff in Hnd as (_ & Hnd & _). apply NoDup_app_iff in Hnd. apply Hnd. }
  apply (c05_topic_ok_intro A D t T Hnds).
  - intros a Ha. apply filter_In in Ha. eapply Forall_forall in Hsing; [exact Hsing|apply Ha].
  - intros e He. destruct (Howned t e He) as (p & _ & Hop). exists p. rewrite (proj1 (Hq p)). now apply filter_In.
  - intros p. rewrite (proj1 (Hq p)). apply subseq_filter_self.
  - intros q. apply (Hq q).
  - intros q q' x Hx Hy. destruct (proj2 (proj2 (Hq q)) x Hx) as (th & E & Hx'), (proj2 (proj2 (Hq q')) x Hy) as (th' & E' & Hy').
    exact (Fex t q q' th th' x Hnds E E' Hx' Hy').
Qed.

Lemma log_of_In i o l : In o (log_of i l) -> In (i, o) l.
Proof. intros H. apply in_map_iff in H as ((j & o') & <- & H). apply filter_In in H as (H & E). apply Nat.eqb_eq in E. cbn in E. now subst j. Qed.

Theorem invF_accepts c progs cs L :
  Forall (Forall (fun cl => simple_callP cl = true)) progs -> NoDup (offered_pids progs) ->
  INVF c progs cs L -> threads_done cs = true ->
  c05_run_ok progs (cresults cs) false = true.
Proof.
  intros Hsp Hnd Hinv Hdone.
  assert (Hlog : forall t, subseq (map snd (L t)) (map out_of (stream (eff cs t)))) by (intros t; rewrite <- (fv_log _ _ _ _ Hinv t); apply subseq_app_l).
  apply (ledger_accepts progs cs Hsp Hnd Hdone (fv_len _ _ _ _ Hinv) (fun i th Hi => proj2 (proj2 (fv_th _ _ _ _ Hinv i th Hi)))
           (fv_own _ _ _ _ Hinv) (fv_owned _ _ _ _ Hinv)).
  - intros t i th Hi. rewrite <- (fv_mine _ _ _ _ Hinv t i th Hi). eapply subseq_trans; [apply subseq_map, subseq_filter_self|apply Hlog].
  - (* the log of t has no id twice, so an id is in one thread's part *)
    intros t i j thi thj x Hn Hi Hj. rewrite <- (fv_mine _ _ _ _ Hinv t i thi Hi), <- (fv_mine _ _ _ _ Hinv t j thj Hj). intros Hx Hy.
    apply in_map_iff in Hx as (o & <- & Hx). apply in_map_iff in Hy as (o' & E & Hy).
    enough (Heq : (i, o) = (j, o')) by congruence.
    apply (NoDup_map_inj (fun x => o_pid (snd x)) (L t)); auto using log_of_In.
    rewrite <- (map_map snd o_pid). eapply subseq_NoDup; [apply subseq_map, Hlog|]. now rewrite map_map.
Qed.

Lemma done_consumes cs prog i th t x : threads_done cs = true -> nth_error (cs_threads cs) i = Some th ->
  In x (map o_pid (del_seq t prog th)) -> consumes prog t.
Proof.
  intros Hdone E Hx. rewrite (proj1 (proj2 (proj2 (done_thread cs i th Hdone E)) prog t)) in Hx.
  apply in_map_iff in Hx as (o & _ & Ho). eapply del_hist_consumes; eauto.
Qed.

Theorem inv_accepts c progs cs :
  Forall (Forall (fun cl => simple_call cl = true)) progs -> single_consumer progs -> NoDup (offered_pids progs) ->
  INV c progs cs -> threads_done cs = true ->
  c05_run_ok progs (cresults cs) false = true.
Proof.
  intros Hsp SC Hnd Hinv Hdone.
  apply (ledger_accepts progs cs (simple_callP_progs _ Hsp) Hnd Hdone (iv_len _ _ _ Hinv) (fun i th Hi => proj2 (proj2 (iv_th _ _ _ Hinv i th Hi)))
           (iv_own _ _ _ Hinv) (iv_owned _ _ _ Hinv)).
  - (* what the consumer of t got is a prefix of the stream; the others got nothing *)
    intros t i th Hi. destruct (del_seq t (nth i progs []) th) as [|o l] eqn:E; [constructor|].
    rewrite <- E, <- (iv_del _ _ _ Hinv t i th Hi); [apply subseq_app_l|].
    apply (done_consumes cs _ i th t (o_pid o) Hdone Hi). rewrite E. now left.
  - intros t i j thi thj x _ Hi Hj Hx Hy. apply (SC t); [apply (done_consumes cs _ i thi t x Hdone Hi Hx)|apply (done_consumes cs _ j thj t x Hdone Hj Hy)].
Qed.
