(* EngineP3.v — persisted positions.  [LagAt] / [Lag]: behind the position lie entries already handed
   out ([pre]) and then exactly what is unread.  Between two restarts three things happen to it: the reader moves
   on ([Lag_moved]), the topic grows ([WRun_Lag]), the cursor is persisted ([Lag_cursor]).  [PGood] is the position
   without lag; [P3], the position invariant of StrictlyAtOnce mode, adds two dead cases ([P3_Lag]) and is kept by
   the write side ([WStep_P3], [WRun_P3]).  Stated on topic states whose reader is hydrated (or has no persisted
   position); raw post-restart states are covered through the normalisation of EngineNorm.v. *)
From W Require Import model.Base model.Engine proofs.EngineWF proofs.EngineInv proofs.EngineW proofs.EnginePos proofs.EngineGrow.

(* [PGood] below is the case [pre = []] with its body written out and the last equation turned round (PGood_LagAt). *)
Definition LagAt (c : Cfg) (T : tstate) (p : ppos) (pre : list entry) : Prop :=
  exists j b, nth_error (memne T) j = Some b /\
    (if p_tail p then b_id b = p_a p else p_a p = N.of_nat j /\ (j < length (chain_of T))%nat) /\
    okoff c (b_ents b) (p_off p) /\
    from c (memne T) j (p_off p) = pre ++ unread c T.

(* the lag of the persisted position (of the start of the stream, if none is persisted) *)
Definition Lag (c : Cfg) (T : tstate) (pre : list entry) : Prop :=
  match ts_index T with
  | None => stream T = pre ++ unread c T
  | Some p => LagAt c T p pre
  end.

Definition PGood (c : Cfg) (T : tstate) (p : ppos) : Prop :=
  exists j b, nth_error (memne T) j = Some b /\
    (if p_tail p then b_id b = p_a p else p_a p = N.of_nat j /\ (j < length (chain_of T))%nat) /\
    okoff c (b_ents b) (p_off p) /\
    unread c T = from c (memne T) j (p_off p).

(* a provisional position on the current, still empty, writer block *)
Definition PProv (c : Cfg) (T : tstate) (p : ppos) : Prop :=
  p_tail p = true /\ exists w, ts_writer T = Some w /\ b_id w = p_a p /\ b_ents w = [] /\ p_off p = 0 /\ unread c T = [].

(* a tail position whose block was retired empty: names no block any more, and never will: its id is below the
   next one the allocator hands out *)
Definition PDead (nid : N) (T : tstate) (p : ppos) : Prop :=
  p_tail p = true /\ p_a p < nid /\ Forall (fun b => b_id b <> p_a p) (chain_of T ++ w_list T).

Definition P3 (c : Cfg) (nid : N) (T : tstate) : Prop :=
  CNE T /\
  match ts_index T with
  | None => unread c T = stream T
  | Some p => PGood c T p \/ PProv c T p \/ PDead nid T p
  end.

Lemma PGood_LagAt c T p : PGood c T p <-> LagAt c T p [].
Proof. split; intros (j & b & A1 & A2 & A3 & A4); exists j, b; auto. Qed.

Lemma P3_Lag c nid T :
  P3 c nid T <-> CNE T /\ (Lag c T [] \/ exists p, ts_index T = Some p /\ (PProv c T p \/ PDead nid T p)).
Proof.
  unfold P3, Lag. destruct (ts_index T) as [p|]; (split; intros (Hc & H); (split; [exact Hc|])).
  - destruct H as [H|H]; [left; now apply PGood_LagAt|right; now exists p].
  - destruct H as [H|(p0 & [= <-] & H)]; [left; now apply PGood_LagAt|right; exact H].
  - left. now symmetry.
  - destruct H as [H|(p0 & [=] & _)]. now symmetry.
Qed.

Lemma P3_mono c nid nid' T : nid <= nid' -> P3 c nid T -> P3 c nid' T.
Proof.
  intros Hn (Hc & H). split; [exact Hc|]. destruct (ts_index T) as [p|]; [|exact H].
  destruct H as [H|[H|(A & B & C)]]; [left; exact H|right; left; exact H|right; right]. repeat split; auto. lia.
Qed.

Lemma P3_tstate0 c nid : P3 c nid tstate0.
Proof. split; [constructor|reflexivity]. Qed.

(* a read: same chain and writer; what is unread shrinks at its front by [d], which joins the entries
   already handed out *)
Lemma LagAt_moved c T T' p d pre : chain_of T' = chain_of T -> ts_writer T' = ts_writer T ->
  unread c T = d ++ unread c T' -> LagAt c T p pre -> LagAt c T' p (pre ++ d).
Proof.
  intros Hc Hw Hu (j & b & A1 & A2 & A3 & A4).
  assert (Hm : memne T' = memne T) by (unfold memne, w_list; now rewrite Hc, Hw).
  exists j, b. rewrite Hm, Hc, A4, Hu, app_assoc. auto.
Qed.

Lemma Lag_moved c T T' d pre : chain_of T' = chain_of T -> ts_writer T' = ts_writer T -> ts_index T' = ts_index T ->
  unread c T = d ++ unread c T' -> Lag c T pre -> Lag c T' (pre ++ d).
Proof.
  intros Hc Hw Hi Hu. unfold Lag. rewrite Hi. destruct (ts_index T) as [p|]; [now apply LagAt_moved|].
  intros H. unfold stream, w_ents. rewrite Hc, Hw. fold (w_ents T). fold (stream T). now rewrite H, Hu, app_assoc.
Qed.

Lemma PGood_ext c T T' p : chain_of T' = chain_of T -> ts_writer T' = ts_writer T -> unread c T' = unread c T ->
  PGood c T p -> PGood c T' p.
Proof. intros Hc Hw Hu. rewrite !PGood_LagAt. apply (LagAt_moved c T T' p [] [] Hc Hw). now rewrite Hu. Qed.

Lemma P3_ext c nid T T' : chain_of T' = chain_of T -> ts_writer T' = ts_writer T -> ts_index T' = ts_index T ->
  unread c T' = unread c T -> P3 c nid T -> P3 c nid T'.
Proof.
  intros Hc Hw Hi Hu (Hcne & H).
  assert (Hwl : w_list T' = w_list T) by (unfold w_list; now rewrite Hw).
  split; [unfold CNE; now rewrite Hc|]. rewrite Hi. destruct (ts_index T) as [p|].
  - destruct H as [H|[(A1 & w & A2 & A3 & A4 & A5 & A6)|(A1 & A2 & A3)]].
    + left. exact (PGood_ext c T T' p Hc Hw Hu H).
    + right. left. split; [exact A1|]. exists w. rewrite Hw, Hu. auto.
    + right. right. unfold PDead. rewrite Hc, Hwl. auto.
  - unfold stream, w_ents. rewrite Hu, Hc, Hw. exact H.
Qed.

Lemma chain_ents_map_eq l l' : map b_ents l = map b_ents l' -> chain_ents l = chain_ents l'.
Proof.
  revert l'; induction l as [|b l IH]; intros l' H; destruct l' as [|b' l']; cbn in H; try discriminate; [reflexivity|].
  injection H as Eb El. unfold chain_ents in *. cbn [flat_map]. rewrite Eb. f_equal. now apply IH.
Qed.

Lemma MG_tail b M b' M' es : M <> [] -> MG (b :: M) (b' :: M') es -> MG M M' es.
Proof.
  intros HM (Hl & Hp & Hc). destruct (Hp 0%nat b eq_refl) as (b0 & e1 & [= <-] & _ & He & Hz).
  rewrite (Hz ltac:(destruct M; [congruence|cbn; lia])), app_nil_r in He.
  split; [cbn in Hl; lia|]. split.
  - intros j x Hx. destruct (Hp (S j) x Hx) as (x' & e2 & A1 & A2 & A3 & A4). exists x', e2.
    repeat split; auto. intros H. apply A4. cbn [length]. lia.
  - unfold chain_ents in *. cbn [flat_map] in Hc. rewrite He, <- app_assoc in Hc. now apply app_inv_head in Hc.
Qed.

Lemma from_MG c (Hh : 0 < c_hdr c) : forall j M M' es b o,
  MG M M' es -> nth_error M j = Some b -> okoff c (b_ents b) o ->
  from c M' j o = from c M j o ++ es.
Proof.
  induction j as [|j IH]; intros M M' es b o HMG Hb Hok; (destruct M as [|b0 M]; [discriminate|]);
    pose proof HMG as (_ & Hp & Hce); destruct (Hp 0%nat b0 eq_refl) as (b' & e1 & Hb' & _ & He & _);
    (destruct M' as [|b1 M']; [discriminate|]); injection Hb' as ->; unfold from; cbn [skipn].
  - injection Hb as ->. rewrite He, (ents_from_app c Hh _ _ _ Hok), <- !app_assoc. f_equal.
    unfold chain_ents in Hce. cbn [flat_map] in Hce. rewrite He, <- !app_assoc in Hce. now apply app_inv_head in Hce.
  - apply (IH M M' es b o); [|exact Hb|exact Hok]. apply (MG_tail b0 M b' M' es); [intros ->; destruct j; discriminate|exact HMG].
Qed.

(* a position stays where it is, with the same entries in front of the consumer, when the topic grows *)
Lemma LagAt_grow c (Hh : 0 < c_hdr c) T T' p es pre :
  Grow T T' -> stream T' = stream T ++ es -> unread c T' = unread c T ++ es ->
  LagAt c T p pre -> LagAt c T' p pre.
Proof.
  intros ((q & Hq & _) & (es' & Hs' & HMG)) Hs Hu (j & b & Hb & Hpos & Hok & Hun).
  assert (es' = es) by (rewrite Hs in Hs'; now apply app_inv_head in Hs'). subst es'.
  pose proof HMG as (_ & Hp & _). destruct (Hp j b Hb) as (b' & e1 & Hb' & Hid & He & _).
  exists j, b'. split; [exact Hb'|]. split.
  - destruct (p_tail p); [congruence|]. destruct Hpos as (A & B). split; [exact A|]. rewrite Hq, app_length. lia.
  - split; [rewrite He; now apply okoff_app|].
    rewrite (from_MG c Hh _ _ _ _ _ _ HMG Hb Hok), Hun, Hu. now rewrite app_assoc.
Qed.

Lemma WRun_Lag c (Hh : 0 < c_hdr c) n T es n' T' pre : 0 < n -> TInvP c n T -> WRun c n T es n' T' ->
  CNE T -> Lag c T pre -> CNE T' /\ Lag c T' pre.
Proof.
  intros Hn HT Hrun Hcne HL. destruct (WRun_grows c Hh n T es n' T' Hn HT Hrun) as (Hg & Hs & Hu & Hi).
  split; [exact (Grow_CNE T T' Hg Hcne)|]. unfold Lag in *. rewrite Hi.
  destruct (ts_index T) as [p|]; [exact (LagAt_grow c Hh T T' p es pre Hg Hs Hu HL)|].
  now rewrite Hs, HL, Hu, app_assoc.
Qed.

Lemma PGood_grow c (Hh : 0 < c_hdr c) T T' p es :
  Grow T T' -> stream T' = stream T ++ es -> unread c T' = unread c T ++ es ->
  PGood c T p -> PGood c T' p.
Proof. rewrite !PGood_LagAt. now apply LagAt_grow. Qed.

Lemma chain_ents_wne ts : chain_ents (filter nonempty_b (w_list ts)) = w_ents ts.
Proof.
  rewrite chain_ents_filter. unfold w_list, w_ents. destruct (ts_writer ts); cbn; [now rewrite app_nil_r|reflexivity].
Qed.

(* the cursor of a hydrated reader is a position without lag *)
Lemma posis_PGood c nid T p : 0 < c_hdr c -> TInv c nid T -> CNE T -> PosIs T p -> PGood c T p.
Proof.
  intros Hh Hinv Hcne Hpos. unfold PosIs in Hpos. destruct (p_tail p) eqn:Etail.
  - (* a tail position: the writer block holds entries, so it is the last of the non-empty blocks *)
    destruct Hpos as (w & Hw' & Ha & Hri & Hoff & Ew).
    pose proof (ti_tail _ _ _ Hinv w Hw') as Hokw.
    assert (Hun : unread c T = ents_from c (b_ents w) (tail_start T w)).
    { unfold unread. fold (chain_of T). rewrite Hri. unfold chain_of. rewrite skipn_all, Hw'. reflexivity. }
    exists (length (chain_of T)), w.
    pose proof (memne_tail T w Hcne Hw' Ew) as Hm.
    split; [rewrite Hm; apply nth_error_snoc_len|].
    rewrite Etail. split; [congruence|]. split; [rewrite Hoff; exact Hokw|].
    rewrite Hun, Hm. unfold from. rewrite skipn_app, skipn_all, Nat.sub_diag. cbn [app skipn chain_ents flat_map].
    rewrite app_nil_r, Hoff. reflexivity.
  - (* a sealed position: block r_idx of the chain *)
    destruct Hpos as (Ha & Hlt & Hoff).
    destruct (nth_error (chain_of T) (r_idx (reader_of T))) as [b|] eqn:Eb; [|apply nth_error_None in Eb; lia].
    exists (r_idx (reader_of T)), b.
    rewrite (memne_cne T Hcne).
    split; [rewrite nth_error_app1 by exact Hlt; exact Eb|].
    rewrite Etail. split; [split; [exact Ha|exact Hlt]|]. split; [rewrite Hoff; exact (ti_cur _ _ _ Hinv b Eb)|].
    destruct (skipn_nth_error _ _ _ Eb) as (rest & Hsk).
    assert (Hun : unread c T = ents_from c (b_ents b) (r_off (reader_of T)) ++ chain_ents rest ++ w_ents T).
    { unfold unread. unfold chain_of in Hsk. rewrite Hsk. reflexivity. }
    rewrite Hun. unfold from. rewrite skipn_app, Hsk.
    replace (r_idx (reader_of T) - length (chain_of T))%nat with 0%nat by lia.
    cbn [skipn app]. rewrite chain_ents_app, chain_ents_wne, Hoff. reflexivity.
Qed.

Lemma Lag_cursor c nid T p : 0 < c_hdr c -> TInv c nid T -> CNE T -> ts_index T = Some p -> PosIs T p -> Lag c T [].
Proof. intros Hh Hinv Hcne Hi Hpos. unfold Lag. rewrite Hi. apply PGood_LagAt. exact (posis_PGood c nid T p Hh Hinv Hcne Hpos). Qed.

(* one leg of a read: the lag grows by what the reader moved over, or, the cursor persisted, is gone *)
Lemma Lag_leg c nid m bt T d b q T' pre : 0 < c_hdr c -> Leg c nid m bt T d b q T' -> CNE T ->
  Lag c T pre -> CNE T' /\ Lag c T' (if b then [] else pre ++ d).
Proof.
  intros Hh [[Hinv' _ Hw Hc _ Hu] Hi Hp _] Hcne HL.
  assert (Hcne' : CNE T') by (unfold CNE; now rewrite Hc). split; [exact Hcne'|]. destruct b.
  - exact (Lag_cursor c nid T' q Hh Hinv' Hcne' Hi (Hp eq_refl)).
  - exact (Lag_moved c T T' d pre Hc Hw Hi Hu HL).
Qed.

Lemma writer_id_fresh c nid ts w : TInvP c nid ts -> ts_writer ts = Some w ->
  Forall (fun b => b_id b <> b_id w) (chain_of ts).
Proof.
  intros Hinv Hw. pose proof (tp_nodup _ _ _ Hinv) as H. rewrite (w_list_some ts w Hw), map_app in H. cbn [map] in H.
  apply NoDup_remove_2 in H. rewrite app_nil_r in H.
  apply Forall_forall. intros b Hb Heq. apply H. rewrite <- Heq. now apply in_map.
Qed.

(* after a step every block carries the fresh id or the id of a block that was there before *)
Lemma WStep_ids c n T l n' T' : WStep c n T l n' T' -> forall b, In b (chain_of T' ++ w_list T') ->
  b_id b = n \/ exists b0, In b0 (chain_of T ++ w_list T) /\ b_id b0 = b_id b.
Proof.
  intros [nb Hw Hf|w e Hw _|w nb Hw Hf] b Hb; apply in_app_or in Hb.
  - (* ws_first *) destruct Hb as [Hb|[<-|[]]]; [right; exists b; split; [now apply in_or_app; left|reflexivity]|left; apply Hf].
  - (* ws_add *) rewrite (w_list_some T w Hw). right. destruct Hb as [Hb|[<-|[]]]; [exists b|exists w]; (split; [|reflexivity]);
      apply in_or_app; [now left|right; now left].
  - (* ws_rot *) destruct Hb as [Hb|[<-|[]]]; [right; exists b; split; [|reflexivity]|left; apply Hf].
    change (chain_of (with_writer (seal T w) (Some nb))) with (chain_of (seal T w)) in Hb.
    rewrite chain_of_seal in Hb. rewrite (w_list_some T w Hw). destruct (b_used w =? 0); [now apply in_or_app; left|exact Hb].
Qed.

Lemma count_add_P3 c nid ts d : P3 c nid ts -> P3 c nid (count_add ts d).
Proof. unfold count_add. destruct (d =? 0); [auto|]. intros H. exact H. Qed.

Lemma WStep_P3 c (Hh : 0 < c_hdr c) n T l n' T' : 0 < n -> TInvP c n T ->
  WStep c n T l n' T' -> P3 c n T -> P3 c n' T'.
Proof.
  intros Hn Hinv Hs (Hcne & HP).
  destruct (WStep_spec c Hh n T l n' T' Hn Hinv Hs) as (Hle & _ & Hst & Hun & _).
  pose proof (WStep_grow c Hh n T l n' T' Hinv Hs) as HG.
  pose proof (Grow_CNE T T' HG Hcne) as Hcne'. split; [exact Hcne'|].
  assert (Hidx : ts_index T' = ts_index T) by (destruct Hs; reflexivity).
  rewrite Hidx. destruct (ts_index T) as [p|]; [|now rewrite Hst, Hun, HP].
  destruct HP as [HL|[(Ht & w0 & Hw0 & Hid0 & He0 & Hoff & Hu0)|(Ht & Hlt & Hall)]].
  - left. exact (PGood_grow c Hh T T' p l HG Hst Hun HL).
  - (* a provisional position names the empty writer block *)
    destruct Hs as [nb Hw Hf|w e Hw Hfit|w nb Hw Hf]; [congruence| |]; assert (w0 = w) by congruence; subst w0.
    + (* ws_add: the block receives its first entry, the position becomes a good one *)
      left. set (w' := blk_add w c [e]) in *. set (T' := with_writer T (Some w')) in *.
      assert (Hents : b_ents w' = [e]) by (unfold w', blk_add; cbn [b_ents]; now rewrite He0).
      assert (Hmem : memne T' = chain_of T ++ [w']) by (apply (memne_tail T' w' Hcne' eq_refl); rewrite Hents; discriminate).
      exists (length (chain_of T)), w'. rewrite Hmem.
      split; [apply nth_error_snoc_len|]. split; [rewrite Ht; exact Hid0|].
      split; [rewrite Hoff; apply okoff_0|].
      rewrite Hun, Hu0, Hoff. unfold from. rewrite (skipn_app_exact _ _ _ eq_refl), ents_from_0, Hents. reflexivity.
    + (* ws_rot: the block is retired, the position names no block any more *)
      right; right. pose proof (writer_bwf c n T w Hinv Hw) as Hwwf.
      assert (Ez : (b_used w =? 0) = true).
      { destruct Hwwf as (Hu & _). rewrite He0 in Hu. cbn [sum_need] in Hu. lia. }
      pose proof (proj2 (writer_ok c n T w Hinv Hw)) as Hwid.
      split; [exact Ht|]. split; [lia|].
      change (Forall (fun b => b_id b <> p_a p) (chain_of (seal T w) ++ [nb])). rewrite chain_of_seal, Ez.
      apply Forall_snoc; [rewrite <- Hid0; exact (writer_id_fresh c n T w Hinv Hw)|]. destruct Hf as (Fi & _). lia.
  - right; right. split; [exact Ht|]. split; [lia|]. apply Forall_forall. intros b Hb.
    destruct (WStep_ids c n T l n' T' Hs b Hb) as [Hb0|(b0 & Hin & <-)]; [lia|].
    exact (proj1 (Forall_forall _ _) Hall b0 Hin).
Qed.

Lemma WRun_P3 c (Hh : 0 < c_hdr c) n T l n' T' : 0 < n -> TInvP c n T ->
  WRun c n T l n' T' -> P3 c n T -> P3 c n' T'.
Proof.
  apply (WRun_inv c Hh (P3 c)).
  - intros m X k m' X' Hm HX Hs. exact (WStep_P3 c Hh m X k m' X' Hm HX Hs).
  - intros m X d. apply count_add_P3.
Qed.
