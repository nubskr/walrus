(* ClusterSeqN2.v — C22, sequential system with any number of nodes: one exec_pc step preserves
   [Dn] and [Stn] of ClusterSeqN.v ([exec_spec]; a proposal together with every node's apply:
   [exec_settle]); the invariant [Invn] — one task, the focus, is at a pc whose clause holds,
   every other task is parked — along the steps of the sequential scheduler ([seq_task_inv]:
   clients and background loops alike, through the anatomy of a task step of ClusterP.v);
   [seq_model_ok_any] by induction over the schedule. *)
From W Require Import model.Base model.Map model.Bincode model.Meta model.Cluster model.ClusterSys spec.StreamSpec
  proofs.ListP proofs.MapP proofs.ClusterP proofs.StreamSpecP proofs.ClusterSeq proofs.ClusterSeqN.
Open Scope N_scope.

(* s1 has the queues, counters and cursors of s *)
Definition A3 (s s1 : cst) : Prop :=
  (forall n sg, qo s1 n sg = qo s n sg) /\ (forall n sg, co s1 n sg = co s n sg) /\ (forall h, cu s1 h = cu s h).

Lemma A3_refl s : A3 s s.
Proof. repeat split. Qed.

Lemma DS_A3 s s1 t Q : A3 s s1 -> DS s t Q -> DS s1 t Q.
Proof. intros (E1 & E2 & E3). now apply Dn_ext. Qed.

(* One exec_pc: its outcome satisfies [outn] in the state it leaves, for the topic as it was (a
   proposed command is applied afterwards, [exec_settle]).  Where a node is updated only the data invariant has to be carried over ([Dn_ext], with qo / co / cu
   of the new state described through those of the old one: [qo_put], [co_put], [DS_cursor], [DS_keep]). *)
Lemma exec_spec cfg s M t Q kd p pc :
  Synced cfg s M t -> Stn kd pc (qo s) (co s) (cu s) t Q -> kpn kd p ->
  let r := exec_pc cfg s p pc in outn kd (snd r) (qo (fst r)) (co (fst r)) (cu (fst r)) t Q.
Proof.
  intros HB HSt Hp. cbn zeta.
  assert (Hmeta : forall n x, get_node s n = Some x -> topic_of (nd_meta x) = Some t).
  { intros n x Hx. destruct (b_sync _ _ _ _ HB n x Hx) as [_ ->]. apply (b_topic _ _ _ _ HB). }
  (* a step that does not move keeps its clause *)
  pose proof (conj eq_refl HSt : outn kd (OBlocked [] pc) (qo s) (co s) (cu s) t Q) as Hb.
  destruct pc as [e ex k|e ex k|dst seg|e seg att|e seg att|e seg att|e seg att|e seg att|e seg|e seg|cm k|cm k|idx k
                 |h|h dst cur|h e cur|h e cur r|n|n|n seg]; cbn [Stn] in HSt; cbn [exec_pc].
  - (* PUlRead *)
    destruct (get_node s e) as [x|]; [|exact Hb].
    destruct (opt_eqb (nd_lease x) ex); [exact (outn_after_ul _ _ ex _ _ _ _ _ _ HSt)|exact (conj eq_refl HSt)].
  - (* PUlWrite *)
    destruct (get_node s e) as [x|] eqn:Hg; [|exact Hb].
    apply (outn_after_ul _ _ ex). split; [apply (DS_keep s e x Hg); [reflexivity..|apply HSt]|apply HSt].
  - (* PPutRpc *)
    destruct (get_node s dst) as [x|]; [exact (conj eq_refl HSt)|].
    exact (outn_perr _ _ _ _ _ _ _ (proj1 (proj2 HSt)) (proj1 HSt)).
  - (* PEnsure *)
    destruct (get_node s e) as [x|]; [|exact Hb].
    destruct (opt_eqb (nd_lease x) (Some seg)); [|destruct att]; [exact (conj eq_refl HSt)| |exact (conj eq_refl HSt)].
    exact (outn_perr _ _ _ _ _ _ _ (proj1 (proj2 HSt)) (proj1 HSt)).
  - (* PWlRead *)
    destruct (get_node s e) as [x|]; [|exact Hb]. destruct (mem seg (nd_wl x)); exact (conj eq_refl HSt).
  - (* PWlWrite *)
    destruct (get_node s e) as [x|] eqn:Hg; [|exact Hb].
    split; [reflexivity|split; [apply (DS_keep s e x Hg); [reflexivity..|apply HSt]|apply HSt]].
  - (* PKeyLock *)
    destruct (get_node s e) as [x|] eqn:Hg; [|exact Hb]. destruct (mem seg (nd_kl x)); [exact Hb|].
    split; [reflexivity|split; [apply (DS_keep s e x Hg); [reflexivity..|apply HSt]|apply HSt]].
  - (* PSpawn *)
    destruct HSt as (HD & Hk & -> & ->). destruct (get_node s (t_leader t)) as [x|] eqn:Hg; [|exact Hb].
    destruct kd as [p'| |]; try contradiction. cbn [kpn] in Hp. subst p'. cbv zeta. cbn [fst snd].
    rewrite <- (qo_node s _ x _ Hg). refine (conj eq_refl (conj _ (conj eq_refl (conj eq_refl I)))).
    eapply Dn_ext; [now apply (qo_put s _ x Hg)| |now apply (cu_keep s _ x Hg)|exact (Dn_append _ _ _ _ _ p HD)].
    intros n sg. unfold upd2. now rewrite !(co_keep s _ x Hg).
  - (* PRecord *)
    destruct (get_node s e) as [x|] eqn:Hg; [|exact Hb]. cbn [fst snd]. rewrite <- (co_node s e x seg Hg).
    refine (conj eq_refl (conj _ (proj2 HSt))).
    eapply Dn_ext; [now apply (qo_keep s e x Hg)|now apply (co_put s e x Hg)|now apply (cu_keep s e x Hg)|exact (proj1 HSt)].
  - (* PCount *)
    destruct HSt as (HD & -> & -> & Hk). destruct (get_node s (t_leader t)) as [x|] eqn:Hg; [|exact Hb].
    cbv zeta. destruct (count_of x (t_cur t) <? cf_thr cfg); [exact (outn_pok _ _ _ _ _ _ Hk HD)|].
    rewrite <- (co_node s _ x _ Hg). apply outn_enter_propose. cbn [Stn ppk_okn]. eauto.
  - (* PMetaRpc *)
    exact (conj eq_refl HSt).
  - (* PPropose *)
    exact (conj eq_refl (conj (proj1 HSt) (proj2 (proj2 HSt)))).
  - (* PWaitApplied *)
    destruct (get_node s raft_leader) as [x|]; [|exact Hb].
    destruct (Nat.ltb idx (nd_applied x)); [exact (outn_after_propose _ idx _ _ _ _ _ _ HSt)|exact Hb].
  - (* PGLock *)
    destruct HSt as [HD ->]. destruct (get_node s h) as [x|] eqn:Hg; [|exact Hb].
    destruct (nd_rc x); [exact Hb|].
    fold (cur_of x). pose proof (dn_curs _ _ _ _ _ HD h) as Hcv. rewrite (cu_node s h x Hg) in Hcv.
    destruct (cur_of x) as [seg del]. exact (loop_step s h x seg del t Q Hg (Hmeta _ _ Hg) HD Hcv).
  - (* PGRpc *)
    destruct (get_node s dst) as [y|]; [exact (conj eq_refl HSt)|].
    destruct (get_node s h) as [x|] eqn:Hg; [|exact Hb].
    destruct HSt as (HD & -> & _). split; [reflexivity|exists Q; split; [apply (DS_keep s h x Hg); [reflexivity..|exact HD]|reflexivity]].
  - (* PGRead *)
    destruct HSt as (HD & -> & -> & ->).
    destruct (get_node s h) as [xh|] eqn:Hg; [|exact Hb].
    destruct (get_node s (sl t (fst (cu s h)))) as [xe|] eqn:Hy; [|exact Hb].
    replace (match nd_cursor xh with Some c => fst c | None => 0 end) with (fst (cu s h))
      by (rewrite (cu_node s h xh Hg); unfold cur_of; now destruct (nd_cursor xh)).
    rewrite <- (qo_node s _ xe _ Hy).
    destruct (qo s (sl t (fst (cu s h))) (fst (cu s h))) as [|a rest] eqn:Eq; cbn [fst snd].
    + exact (conj eq_refl (conj eq_refl (conj eq_refl (conj HD Eq)))).
    + destruct (Dn_deq _ _ _ t Q h a rest HD Eq) as (Q' & EQ & HD').
      split; [reflexivity|]. cbn [Stn]. rewrite !(cu_keep s _ xe Hy (with_q xe _) eq_refl). refine (conj eq_refl (conj eq_refl (ex_intro _ Q' (conj EQ _)))).
      eapply Dn_ext; [now apply (qo_put s _ xe Hy)|now apply (co_keep s _ xe Hy)| |exact HD'].
      intros h'. unfold upd1. now rewrite (cu_keep s _ xe Hy).
  - (* PGHw *)
    destruct HSt as (-> & -> & Hr). destruct (get_node s h) as [x|] eqn:Hg; [|exact Hb].
    fold (cur_of x). rewrite (cu_node s h x Hg) in Hr. destruct (cur_of x) as [seg del] eqn:Ecx. cbn [fst snd] in Hr.
    destruct r as [a|].
    + destruct Hr as (Q' & EQ & HD'). cbn [fst snd].
      exact (conj eq_refl (ex_intro _ Q' (conj (DS_cursor s h x seg (del + 1) false t Q' Hg HD') EQ))).
    + destruct Hr as [HD Eq]. pose proof (dn_curs _ _ _ _ _ HD h) as Hcv. rewrite (cu_node s h x Hg), Ecx in Hcv. cbn [fst snd] in Hcv.
      destruct (N.ltb_spec seg (t_cur t)) as [Hlt|Hge].
      * exact (loop_step s h x (seg + 1) 0 t Q Hg (Hmeta _ _ Hg) HD (CVn_next _ _ _ t Q seg del HD Hcv Eq Hlt)).
      * (* nothing is left in any segment: behind the cursor by cn_lo, at it by Eq, and it is the last *)
        assert (EQ : Q = []).
        { rewrite (dn_q _ _ _ _ _ HD). apply flat_map_nil. intros s0 Hs0. apply in_segs in Hs0.
          destruct (N.eq_dec s0 seg) as [->|Hne]; [exact Eq|]. apply (cn_lo _ _ _ _ _ Hcv); [lia|].
          pose proof (cn_le _ _ _ _ _ Hcv). lia. }
        subst Q.
        exact (conj eq_refl (ex_intro _ [] (conj (DS_set_cursor s h x seg del false t [] Hg HD Hcv) (conj eq_refl eq_refl)))).
  - (* PLTick *)
    destruct (get_node s n) as [x|]; [exact (conj eq_refl HSt)|exact Hb].
  - (* PMTick *)
    destruct HSt as [HD ->]. destruct (get_node s n) as [x|] eqn:Hg; [|exact Hb].
    destruct (owned (nd_meta x) n) as [seg|] eqn:Ho; [|exact (conj eq_refl (conj HD eq_refl))].
    destruct (owned_spec _ _ _ Ho) as (t0 & Ht0 & El & Ec). rewrite (Hmeta _ _ Hg) in Ht0. inversion Ht0; subst t0.
    exact (conj eq_refl (conj HD (conj eq_refl (conj (eq_sym El) (eq_sym Ec))))).
  - (* PMCount *)
    destruct HSt as (HD & -> & -> & ->). destruct (get_node s (t_leader t)) as [x|] eqn:Hg; [|exact Hb].
    cbv zeta. destruct (count_of x (t_cur t) <? cf_thr cfg); [exact (conj eq_refl (conj HD eq_refl))|].
    rewrite <- (co_node s _ x _ Hg). apply outn_enter_propose. cbn [Stn ppk_okn Qn]. eauto.
Qed.

Definition kind_ofn (p : cpayload) (o : cop) : knd := match o with OPut _ => KP p | OGet _ => KG end.

Lemma kpn_kind_ofn p o : kpn (kind_ofn p o) p.
Proof. destruct o; cbn; auto. Qed.

Lemma invoke_spec cfg s M t Q o p :
  Synced cfg s M t -> DS s t Q -> outn (kind_ofn p o) (invoke s o) (qo s) (co s) (cu s) t Q.
Proof.
  intros HB HD.
  assert (Herr : forall n, outn (kind_ofn p o) (OFinish (CRErr n) []) (qo s) (co s) (cu s) t Q).
  { intros n. split; [reflexivity|]. exists Q. split; [exact HD|]. now destruct o. }
  destruct o as [h|h]; unfold invoke; destruct (get_node s h) as [x|] eqn:Hg; try apply Herr.
  - destruct (b_sync _ _ _ _ HB h x Hg) as [_ Em]. rewrite Em, (b_topic _ _ _ _ HB).
    destruct (N.eqb_spec (t_leader t) h) as [E|Hne].
    + subst h. exact (conj eq_refl (conj HD (conj I (conj eq_refl eq_refl)))).
    + destruct (has_addr M (t_leader t)); [|apply Herr]. exact (conj eq_refl (conj HD (conj I (conj eq_refl eq_refl)))).
  - exact (conj eq_refl (conj HD eq_refl)).
Qed.

Lemma A3_omap s s2 (f : node -> node) :
  (forall n, get_node s2 n = option_map f (get_node s n)) ->
  (forall x, nd_q (f x) = nd_q x /\ nd_offsets (f x) = nd_offsets x /\ nd_cursor (f x) = nd_cursor x) ->
  A3 s s2.
Proof.
  intros Hg Hf. unfold A3, qo, co, cu, queue_of, count_of, cur_of. repeat split; intros; rewrite Hg;
    (destruct (get_node s _) as [x|]; [|reflexivity]); cbn [option_map]; destruct (Hf x) as (E1 & E2 & E3); now rewrite ?E1, ?E2, ?E3.
Qed.

(* s' is the state a task step leaves, up to its task records; every node then applies what was
   proposed, and [out] is read in the result *)
Definition settled (cfg : ccfg) (kd : knd) (out : outcome) (s' : cst) (Q : list cpayload) : Prop :=
  let s2 := apply_everywhere cfg s' in
  exists M1 t1, Synced cfg s2 M1 t1 /\ outn kd out (qo s2) (co s2) (cu s2) t1 Q.

Lemma settle_same cfg s1 s' M t kd out Q :
  Synced cfg s1 M t -> s_nodes s' = s_nodes s1 -> s_log s' = s_log s1 ->
  outn kd out (qo s1) (co s1) (cu s1) t Q -> settled cfg kd out s' Q.
Proof.
  intros HB En El Ho. pose proof (Synced_eq cfg s1 s' M t En El HB) as HB'.
  unfold settled. rewrite (ae_same cfg s' M t HB'). exists M, t. exact (conj HB' (outn_nodes s1 s' _ _ _ _ En Ho)).
Qed.

Lemma exec_settle cfg s M t Q kd p pc s1 out s' :
  Synced cfg s M t -> Stn kd pc (qo s) (co s) (cu s) t Q -> kpn kd p ->
  exec_pc cfg s p pc = (s1, out) -> s_nodes s' = s_nodes s1 -> s_log s' = s_log s1 ->
  settled cfg kd out s' Q.
Proof.
  intros HB HSt Hp He En El.
  destruct (shape_log _ _ _ (exec_pc_shape _ _ _ _ _ _ He)) as [Hl|(cm & k & -> & _)].
  - pose proof (exec_spec cfg s M t Q kd p pc HB HSt Hp) as Ho. cbn zeta in Ho. rewrite He in Ho.
    exact (settle_same cfg s1 s' M t kd out Q (Synced_shape cfg s M t pc s1 HB (exec_pc_shape _ _ _ _ _ _ He) Hl) En El Ho).
  - unfold settled. cbn [Stn] in HSt. destruct HSt as (HD & (nl & Ecm) & Hk).
    cbn [exec_pc] in He. inversion He; subst s1 out. clear He. cbn [s_nodes s_log] in En, El.
    pose proof (ae_one cfg s M t cm s' HB En El) as Enodes. pose proof (proj1 (ae_tasks cfg s')) as Elog.
    set (s2 := apply_everywhere cfg s') in *.
    set (M' := fst (apply_cmd_fx M cm)) in *.
    assert (HA : A3 s s2).
    { apply (A3_omap s s2 (fun x => with_meta x M' (S (length (s_log s))))); [exact Enodes|]. intros x. repeat split. }
    assert (HBase : forall t1, topic_of M' = Some t1 -> Synced cfg s2 M' t1).
    { intros t1 Ht1. split; auto.
      - intros n y Hy. rewrite Enodes in Hy. destruct (get_node s n) as [x|]; [|discriminate]. cbn in Hy. inversion Hy. subst y.
        cbn [with_meta nd_applied nd_meta]. rewrite Elog, El, app_length. cbn [length]. split; [lia|reflexivity].
      - intros n Hn. apply (b_dom _ _ _ _ HB). rewrite Enodes in Hn. destruct (get_node s n); [discriminate|]. now cbn in Hn. }
    subst cm. destruct (apply_rollover M t nl (co s (t_leader t) (t_cur t)) (b_topic _ _ _ _ HB)) as (t' & Ht' & Er).
    exists M', t'. split; [now apply HBase|].
    refine (conj eq_refl (conj (DS_A3 s s2 _ _ HA _) Hk)). destruct Er as [->|Er]; [exact HD|exact (Dn_rolled _ _ _ _ _ _ _ HD Er)].
Qed.

Lemma Acc_respn o cc k r q c u t Q Q' hl :
  finn (kind_ofn (cc, k) o) r q c u t Q Q' -> Acc Q hl (Some (cc, k, is_put o)) [EResp cc k r] Q' hl None.
Proof.
  intros [_ Hf]. split; intros rest Hr; cbn [app seq_hist c22_seq_scan].
  - destruct o, r; try contradiction; cbn [kind_ofn] in Hf; subst; auto.
    + destruct Hf; subst. exact Hr.
    + now rewrite pl_eqb_refl.
  - rewrite !N.eqb_refl, Hr. destruct o, r; try contradiction; reflexivity.
Qed.

Definition parked (s : cst) (b : cev) : Prop :=
  match b with EvC _ => pc_of s b = None | _ => pc_at_rest (pc_of s b) = true end.

(* the kind of the task's current operation (the KG of a client with no operation left is a filler:
   it never moves, [an_top]); what is open in the acceptor at the focus: that operation between
   invocation and answer, nothing before *)
Definition tk (s : cst) (a : cev) : knd :=
  match top s a with Some o => kind_ofn (tpay s a) o | None => match a with EvC _ => KG | _ => KB end end.
Definition hco (s : cst) (a : cev) : hst :=
  match top s a with Some o => Some (fst (tpay s a), snd (tpay s a), is_put o) | None => None end.
Definition hcf (s : cst) (a : cev) : hst := match pc_of s a with Some _ => hco s a | None => None end.

Definition Focus (s : cst) (t : tstate) (Q : list cpayload) (a : cev) : Prop :=
  (forall b, b <> a -> parked s b) /\
  match pc_of s a with Some pc => Stn (tk s a) pc (qo s) (co s) (cu s) t Q | None => DS s t Q end.

Definition Invn (cfg : ccfg) (s : cst) (Q : list cpayload) (hl : list (N * N)) (hc : hst) : Prop :=
  exists M t a, Synced cfg s M t /\ hist_ok (s_clients s) hl /\ Focus s t Q a /\ hc = hcf s a.

Lemma rest_Stn pc q c u t Q : pc_at_rest (Some pc) = true -> Dn q c u t Q -> Stn KB pc q c u t Q.
Proof. destruct pc; cbn; try discriminate; auto. Qed.

Lemma tk_client s i : tk s (EvC i) <> KB.
Proof. unfold tk. destruct (top s (EvC i)) as [[h|h]|]; discriminate. Qed.

Lemma focus_rest s t Q a : Focus s t Q a -> pc_at_rest (pc_of s a) = true ->
  parked s a /\ DS s t Q /\ hcf s a = None.
Proof.
  intros [_ H] Hr. unfold hcf. destruct (pc_of s a) as [pc|] eqn:Hpc.
  - assert (E : tk s a = KB /\ DS s t Q) by (destruct pc; try discriminate Hr; cbn [Stn] in H; tauto).
    destruct E as [Ek HD]. destruct a as [i|n|n|n|n]; try (now destruct (tk_client s i)); cbn [parked]; rewrite Hpc; auto.
  - split; [|auto]. destruct a; cbn [parked]; now rewrite Hpc.
Qed.

Lemma focus_any s t Q ev : (forall b, parked s b) -> DS s t Q -> Focus s t Q ev /\ hcf s ev = None.
Proof.
  intros Hp HD. specialize (Hp ev) as Hev. unfold Focus, hcf. destruct (pc_of s ev) as [pc|] eqn:Hpc; [|auto].
  destruct ev as [i|n|n|n|n]; cbn [parked] in Hev; rewrite Hpc in Hev; try discriminate Hev;
    (split; [split; [auto|now apply rest_Stn]|reflexivity]).
Qed.

(* when everybody but [ev] rests, the focus may be taken to be [ev] *)
Lemma refocus s t Q a ev : Focus s t Q a -> (forall b, b <> ev -> pc_at_rest (pc_of s b) = true) ->
  Focus s t Q ev /\ hcf s ev = hcf s a.
Proof.
  intros HF Ho. destruct (cev_eq_dec a ev) as [->|Ha]; [auto|].
  destruct (focus_rest _ _ _ _ HF (Ho a Ha)) as (Pa & HD & ->). apply focus_any; [|exact HD].
  intros b. destruct (cev_eq_dec b a) as [->|Hb]; [exact Pa|now apply (proj1 HF)].
Qed.

Lemma forallb_lookup (f : N * option cpc -> bool) (l : list (N * cpc)) n pc :
  forallb f (map (fun x => (fst x, Some (snd x))) l) = true -> lookup N.compare n l = Some pc -> f (n, Some pc) = true.
Proof.
  rewrite forallb_forall. intros H Hl. apply H, in_map_iff. exists (n, pc).
  split; [reflexivity|exact (lookup_In N_cmp_ok _ _ _ Hl)].
Qed.

(* others_at_rest, read through pc_of *)
Lemma oar s ev : others_at_rest s ev = true -> forall b, b <> ev -> pc_at_rest (pc_of s b) = true.
Proof.
  intros H b Hb. unfold others_at_rest, rest_all in H.
  destruct b as [j|m|m|m|m]; try reflexivity; cbn [pc_of].
  - (* a client *)
    destruct (nth_error (s_clients s) j) as [cj|] eqn:Ej; [|reflexivity]. apply (map_nth_error cl_pc) in Ej.
    destruct ev as [i|n|n|n|n]; try discriminate H;
      apply andb_prop in H; destruct H as [H _]; apply andb_prop in H; destruct H as [H _].
    + apply (forallb_combine_seq pc_at_rest i _ 0%nat H j _ Ej). cbn. congruence.
    + exact (forallb_nth _ _ H j _ Ej).
    + exact (forallb_nth _ _ H j _ Ej).
  - (* a lease loop *)
    destruct (lookup N.compare m (s_lease s)) as [pc|] eqn:El; [|reflexivity].
    destruct ev as [i|n|n|n|n]; try discriminate H;
      apply andb_prop in H; destruct H as [H _]; apply andb_prop in H; destruct H as [_ H];
      pose proof (forallb_lookup _ _ m pc H El) as R; try exact R.
    cbn [fst snd] in R. destruct (N.eqb_spec m n); [congruence|exact R].
  - (* a monitor *)
    destruct (lookup N.compare m (s_mon s)) as [pc|] eqn:El; [|reflexivity].
    destruct ev as [i|n|n|n|n]; try discriminate H; apply andb_prop in H; destruct H as [_ H];
      pose proof (forallb_lookup _ _ m pc H El) as R; try exact R.
    cbn [fst snd] in R. destruct (N.eqb_spec m n); [congruence|exact R].
Qed.

(* the acceptors along the invocation event, if the step begins with one; the acting client's new
   record keeps the index while its operation is open and takes a larger one once it is answered *)
Lemma hist_step s ev out cs' Q hl :
  hist_ok (s_clients s) hl -> next_clients ev out (s_clients s) cs' ->
  exists hl0, Acc Q hl (hcf s ev) (tpre s ev) Q hl0 (hco s ev) /\ hist_ok cs' hl0.
Proof.
  intros Hh Hcs.
  assert (Hkeep : hist_ok cs' hl).
  { intros j cj k0 Hj Hl. rewrite Hcs in Hj. specialize (Hh j). destruct (cev_eq_dec ev (EvC j)); [|exact (Hh cj k0 Hj Hl)].
    destruct (nth_error (s_clients s) j) as [c|]; [|discriminate]. inversion Hj; subst cj. specialize (Hh c k0 eq_refl Hl).
    unfold next_client. destruct (out_pc out); destruct (cl_pc c); cbn [cl_pc cl_k]; lia. }
  unfold hcf, tpre, hco. destruct (pc_of s ev) as [pc|] eqn:Hpc; [exists hl; split; [apply Acc_nil|exact Hkeep]|].
  destruct (top s ev) as [o|] eqn:Ho; [|exists hl; split; [apply Acc_nil|exact Hkeep]].
  destruct ev as [i|n|n|n|n]; try discriminate Ho. unfold top, tpay, tcl in *. cbn [pc_of] in Hpc.
  destruct (nth_error (s_clients s) i) as [c|] eqn:Hc; [|discriminate Ho]. cbn [fst snd].
  exists (ins N.compare (N.of_nat i) (cl_k c) hl). split.
  - apply Acc_invoke. intros k0 Hl. specialize (Hh i c k0 Hc Hl). now rewrite Hpc in Hh.
  - intros j cj k0 Hj Hl. destruct (Nat.eq_dec j i) as [->|Hne].
    + rewrite (lookup_ins_same N_cmp_ok) in Hl. inversion Hl; subst k0. rewrite Hcs, Hc in Hj.
      destruct (cev_eq_dec (EvC i) (EvC i)); [|congruence]. inversion Hj.
      unfold next_client. destruct (out_pc out); cbn [cl_pc cl_k]; lia.
    + rewrite (lookup_ins_other N_cmp_ok) in Hl by lia. exact (Hkeep j cj k0 Hj Hl).
Qed.

(* while the operation stays open the acting client keeps its operation and index *)
Lemma open_keep s s' ev out pc' :
  out_pc out = Some pc' -> next_clients ev out (s_clients s) (s_clients s') ->
  top s' ev = top s ev /\ tpay s' ev = tpay s ev.
Proof.
  intros Eo Hcs. destruct ev as [i|n|n|n|n]; try (split; reflexivity). unfold top, tpay, tcl. rewrite (Hcs i).
  destruct (cev_eq_dec (EvC i) (EvC i)); [|congruence]. destruct (nth_error (s_clients s) i) as [c|]; [|auto].
  cbn [option_map]. unfold next_client. rewrite Eo. auto.
Qed.

(* A task moves while every other task rests: the focus is moved onto it; the outcome of its
   exec_pc (or invocation), read after every node has applied, is the clause of its next pc,
   and the focus stays; an answer closes the operation in the acceptors. *)
Lemma seq_task_inv cfg s ev s0 tok Q hl hc :
  Invn cfg s Q hl hc -> is_task ev = true -> others_at_rest s ev = true -> cl_step cfg s ev = (s0, tok) ->
  exists Q' hl' hc', Invn cfg (apply_everywhere cfg s0) Q' hl' hc' /\ Acc Q hl hc (snd tok) Q' hl' hc'.
Proof.
  intros (M & t & a & HB & Hh & HF & ->) Ht Hoar H.
  destruct (refocus _ _ _ _ ev HF (oar _ _ Hoar)) as [HF' <-]. clear HF a. pose proof HF' as [Hpk HSt].
  destruct (task_anatomy _ _ _ _ _ Ht H) as [[-> ->]|(s1 & out & [Src Hs An Al Atop Apc Ao Acl])].
  { rewrite (ae_same cfg s M t HB). exists Q, hl, (hcf s ev). split; [exists M, t, ev; auto|apply Acc_nil]. }
  rewrite Hs.
  assert (Hset : settled cfg (tk s ev) out s0 Q).
  { destruct (pc_of s ev) as [pc|] eqn:Hpc.
    - apply (exec_settle cfg s M t Q _ (tpay s ev) pc s1 out s0 HB HSt); auto.
      unfold tk. destruct (top s ev); [apply kpn_kind_ofn|now destruct ev].
    - destruct Src as (o & Ho & -> & ->). unfold tk. rewrite Ho.
      exact (settle_same cfg s s0 M t _ _ Q HB An Al (invoke_spec cfg s M t Q o _ HB HSt)). }
  destruct Hset as (M1 & t1 & HB1 & Ho). destruct (ae_tasks cfg s0) as [_ C].
  set (s2 := apply_everywhere cfg s0) in *.
  pose proof (pc_of_tasks s0 s2 C) as Hpc2. pose proof (proj1 C) as C1.
  destruct (hist_step s ev out (s_clients s2) Q hl Hh) as (hl0 & Apre & Hh2); [rewrite C1; exact Acl|].
  assert (Hpk2 : forall b, b <> ev -> parked s2 b).
  { intros b Hb. specialize (Hpk b Hb). destruct b; cbn [parked] in *; now rewrite Hpc2, (Ao _ Hb). }
  (* yield and blocked alike: the operation stays open, the acceptor's queue as it was *)
  assert (HY : forall pc' subs, out_pc out = Some pc' -> out_subs out = subs -> tpost s ev out = [] -> quiet subs = true ->
            Stn (tk s ev) pc' (qo s2) (co s2) (cu s2) t1 Q ->
            exists Q' hl' hc', Invn cfg s2 Q' hl' hc' /\ Acc Q hl (hcf s ev) (tpre s ev ++ out_subs out ++ tpost s ev out) Q' hl' hc').
  { intros pc' subs Eo Es Ep Hq HSt'. rewrite Es, Ep, app_nil_r. exists Q, hl0, (hco s ev). split; [|eapply Acc_trans; [exact Apre|now apply Acc_quiet]].
    rewrite <- C1 in Acl. destruct (open_keep s s2 ev out pc' Eo Acl) as [Et Ey].
    assert (Epc : pc_of s2 ev = Some pc') by (rewrite Hpc2, Apc, Eo; reflexivity).
    exists M1, t1, ev. split; [exact HB1|]. split; [exact Hh2|]. split.
    - split; [exact Hpk2|]. rewrite Epc. unfold tk in *. now rewrite Et, Ey.
    - unfold hcf, hco. now rewrite Epc, Et, Ey. }
  destruct out as [pc' st subs|r subs|subs pc']; cbn [outn] in Ho.
  - apply (HY pc' subs); try tauto; try reflexivity. now destruct ev.
  - destruct Ho as (Hq & Q' & Hfin). cbn [out_subs].
    destruct ev as [i|n|n|n|n]; try discriminate Ht; try (now destruct Hfin as [_ []]).
    destruct (top s (EvC i)) as [o|] eqn:Eo; [|now destruct Atop]. unfold tk in Hfin. rewrite Eo in Hfin.
    assert (Epc : pc_of s2 (EvC i) = None) by (rewrite Hpc2, Apc; reflexivity).
    exists Q', hl0, None. split.
    + exists M1, t1, (EvC i). split; [exact HB1|]. split; [exact Hh2|].
      split; [split; [exact Hpk2|rewrite Epc; exact (proj1 Hfin)]|unfold hcf; now rewrite Epc].
    + eapply Acc_trans; [exact Apre|]. eapply Acc_trans; [now apply Acc_quiet|].
      unfold hco, tpost. rewrite Eo. destruct (tpay s (EvC i)) as [cc k] eqn:Ey. cbn [fst snd].
      exact (Acc_respn o cc k r _ _ _ _ _ _ hl0 Hfin).
  - apply (HY pc' subs); try tauto; try reflexivity. now destruct ev.
Qed.

Lemma seq_step_invn cfg s ev s' tok Q hl hc :
  Invn cfg s Q hl hc -> seq_step cfg s ev = (s', tok) ->
  exists Q' hl' hc', Invn cfg s' Q' hl' hc' /\ Acc Q hl hc (snd tok) Q' hl' hc'.
Proof.
  intros HInv H.
  assert (Hstay : forall st, (s, (st, @nil csub)) = (s', tok) ->
                  exists Q' hl' hc', Invn cfg s' Q' hl' hc' /\ Acc Q hl hc (snd tok) Q' hl' hc').
  { intros st E. inversion E; subst. exists Q, hl, hc. split; [exact HInv|apply Acc_nil]. }
  destruct (is_task ev) eqn:Ht; [|destruct ev; try discriminate Ht; exact (Hstay _ H)].
  assert (F : seq_step cfg s ev = if others_at_rest s ev then let '(s1, t) := cl_step cfg s ev in (apply_everywhere cfg s1, t) else (s, (SBlocked, [])))
    by (destruct ev; try discriminate Ht; reflexivity).
  rewrite F in H. destruct (others_at_rest s ev) eqn:Hoar; [|exact (Hstay _ H)].
  destruct (cl_step cfg s ev) as [s0 t0] eqn:E. inversion H; subst s' tok. exact (seq_task_inv cfg s ev s0 t0 Q hl hc HInv Ht Hoar E).
Qed.

Lemma init_invn cfg : Invn cfg (cl_init cfg) [] [] None.
Proof.
  (* any event will do as the focus; EvA 0 names no task, so Focus asks for DS alone, every task parked *)
  exists (replay m_init (boot_log cfg)), (new_topic (cf_lead cfg)), (EvA 0).
  split; [|split; [|split; [split|reflexivity]]].
  - split.
    + intros n x Hg. destruct (init_node_of cfg n x Hg) as [-> _]. split; reflexivity.
    + apply boot_topic.
    + intros n Hn. destruct (get_node (cl_init cfg) n) as [x|] eqn:Hg; [|contradiction]. now destruct (init_node_of cfg n x Hg).
  - intros j cj k0 _ Hl. discriminate.
  - intros b _. destruct b as [i|n|n|n|n]; cbn [parked]; [apply init_client_idle|apply init_pc_rest..].
  - apply (Dn_ext (fun _ _ => []) (fun _ _ => 0) (fun _ => (0, 0))).
    1-3: intros n; intros; unfold qo, co, cu; (destruct (get_node (cl_init cfg) n) as [x|] eqn:Hg; [|reflexivity]);
      now destruct (init_node_of cfg n x Hg) as [-> _].
    split; cbn [new_topic t_cur t_leader t_leaders t_sealed fst snd].
    + lia.
    + intros s A B. replace s with 1 by lia. cbn. discriminate.
    + reflexivity.
    + intros s A B. lia.
    + auto.
    + auto.
    + intros s _ _. rewrite nlen_nil. lia.
    + symmetry. apply flat_map_nil. auto.
    + intros h. split; cbn [new_topic t_cur]; intros; lia.
Qed.

Lemma seq_run_invn cfg : forall sched s Q hl hc, Invn cfg s Q hl hc ->
  c22_seq_scan Q (events (fst (seq_run cfg s sched))) = true /\
  seq_hist hl hc (events (fst (seq_run cfg s sched))) = true.
Proof.
  induction sched as [|e r IH]; intros s Q hl hc HInv.
  - cbn. destruct hc; auto.
  - cbn [seq_run]. destruct (seq_step cfg s e) as [s1 tok] eqn:E.
    destruct (seq_step_invn cfg s e s1 tok Q hl hc HInv E) as (Q' & hl' & hc' & HInv' & [A1 A2]).
    specialize (IH s1 Q' hl' hc' HInv'). destruct (seq_run cfg s1 r) as [ts s2]. cbn [fst] in *.
    unfold events in *. cbn [flat_map]. destruct IH as [I1 I2]. auto.
Qed.

Theorem seq_model_ok_any : forall (cfg : ccfg) (sched : list cev),
  c22_seq_ok (seq_trace cfg sched) = true /\ seq_hist [] None (events (seq_trace cfg sched)) = true.
Proof. intros cfg sched. unfold c22_seq_ok, seq_trace. apply seq_run_invn. apply init_invn. Qed.

(* all four clauses of the general acceptor, via the queue acceptor *)
Lemma seq_accepted_any cfg sched : c22_ok (seq_trace cfg sched) = true.
Proof.
  destruct (seq_model_ok_any cfg sched) as [A B].
  unfold c22_ok, c22_verdict. rewrite (StreamSpecP.c22_seq_sound _ B A). reflexivity.
Qed.

(* non-vacuity: three nodes, topic led by node 2, threshold 2, PUTs and GETs sent to all three
   nodes (forwarded appends and reads, forwarded proposals), two rollovers moving the topic
   2 -> 3 -> 1, five values delivered in order, then EMPTY *)
Definition nv3_cfg : ccfg :=
  mkCfg 3 2 2 [[OPut 1; OPut 3; OPut 2; OPut 1; OPut 2]; [OGet 3; OGet 1; OGet 2; OGet 2; OGet 1; OGet 3]].
Definition nv3_sched : list cev := repeat (EvC 0) 120 ++ [EvM 2; EvM 2; EvL 3; EvL 3; EvL 3] ++ repeat (EvC 1) 90.
Definition nv3_summary : N * list cres * nat * nat :=
  let evs := events (seq_trace nv3_cfg nv3_sched) in
  (c22_verdict (seq_trace nv3_cfg nv3_sched),
   flat_map (fun u => match u with EResp 1 _ r => [r] | _ => [] end) evs,
   length (filter (fun u => match u with EL _ _ => true | _ => false end) evs),
   length (filter (fun u => match u with EW _ _ _ _ => true | _ => false end) evs)).
