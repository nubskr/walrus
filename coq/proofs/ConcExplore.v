(* ConcExplore.v — exhaustive exploration of ALL schedules of a given set of thread programs inside
   Coq, on concrete program families with batch appends and batch reads, by vm_compute.
   [accepted_from cs]: every schedule (any list of thread ids, of any length) run from [cs] that ends
   with all calls returned is accepted by the C05 acceptor.  Two procedures establish it:
   [explore] walks the TREE of schedule prefixes; [explore_graph] walks the GRAPH of reachable
   states breadth first, each state once, and is the one ConcFamilies.v uses.  At the top the
   induction along a run of model/Conc.v ([crun_from_ind]), which ConcMain.G_run uses as well. *)
From W Require Import model.Base model.Engine model.Conc spec.ConcSpec.
From Coq Require Import FMapPositive.

Lemma crun_from_ind v fx (P : cstate -> kflags -> Prop) :
  (forall cs k tid cs' l, P cs k -> cstep v fx tid cs = OStep cs' l -> P cs' (kstep cs tid l k)) ->
  forall sched cs acc k, P cs k -> P (ro_cs (crun_from v fx cs sched acc k)) (ro_k (crun_from v fx cs sched acc k)).
Proof.
  intros Hstep. induction sched as [|tid rest IH]; intros cs acc k H; cbn [crun_from]; [exact H|].
  destruct (cstep v fx tid cs) as [cs' l| |] eqn:E; cbn [ro_cs ro_k]; [apply IH, (Hstep _ _ _ _ _ H E)|exact H|apply IH, H].
Qed.

Section Explore.
Context (v : env) (fx : bool) (progs : list (list call)) (drained : bool).

Definition accepted_from (cs : cstate) : Prop :=
  forall sched acc k, let ro := crun_from v fx cs sched acc k in
  threads_done (ro_cs ro) = true -> c05_run_ok progs (cresults (ro_cs ro)) drained = true.

Lemma accepted_from_intro cs :
  (threads_done cs = true -> c05_run_ok progs (cresults cs) drained = true) ->
  (forall tid cs' l, cstep v fx tid cs = OStep cs' l -> accepted_from cs') ->
  accepted_from cs.
Proof.
  intros Hdone Hstep sched. induction sched as [|tid rest IH]; intros acc k; cbn [crun_from ro_cs]; [exact Hdone|].
  destruct (cstep v fx tid cs) as [cs' l| |] eqn:Es; cbn [ro_cs]; [apply (Hstep _ _ _ Es)|exact Hdone|apply IH].
Qed.

Lemma cstep_none_beyond tid cs : (length (cs_threads cs) <= tid)%nat -> cstep v fx tid cs = OFinished.
Proof. intros H. unfold cstep. now rewrite (proj2 (nth_error_None _ _) H). Qed.

Lemma threads_done_cstep tid cs : threads_done cs = true -> forall cs' l, cstep v fx tid cs <> OStep cs' l.
Proof.
  intros Hd cs' l. unfold cstep. destruct (nth_error (cs_threads cs) tid) as [th|] eqn:E; [|discriminate].
  unfold threads_done in Hd. rewrite forallb_forall in Hd. specialize (Hd th (nth_error_In _ _ E)).
  destruct (th_todo th); discriminate.
Qed.

Definition succs (cs : cstate) : list cstate :=
  flat_map (fun tid => match cstep v fx tid cs with OStep cs' _ => [cs'] | _ => [] end)
           (seq 0 (length (cs_threads cs))).

Lemma succs_spec tid cs cs' l : cstep v fx tid cs = OStep cs' l -> In cs' (succs cs).
Proof.
  intros Es. apply in_flat_map. exists tid. rewrite Es. split; [|now left].
  apply in_seq. destruct (Nat.lt_ge_cases tid (length (cs_threads cs))) as [Hlt|Hge]; [lia|].
  rewrite (cstep_none_beyond tid cs Hge) in Es. discriminate.
Qed.
End Explore.

Fixpoint explore (v : env) (fx : bool) (progs : list (list call)) (drained : bool) (fuel : nat) (cs : cstate) : bool :=
  if threads_done cs then c05_run_ok progs (cresults cs) drained else
  match fuel with
  | O => false
  | S f =>
    forallb (fun tid => match cstep v fx tid cs with
                        | OStep cs' _ => explore v fx progs drained f cs'
                        | _ => true
                        end) (seq 0 (length (cs_threads cs)))
  end.

Lemma explore_accepted v fx progs drained : forall fuel cs,
  explore v fx progs drained fuel cs = true -> accepted_from v fx progs drained cs.
Proof.
  induction fuel as [|f IH]; intros cs He; cbn [explore] in He.
  all: apply accepted_from_intro; [intros Hd; now rewrite Hd in He|]; intros tid cs' l Es.
  all: destruct (threads_done cs) eqn:Hd; [exfalso; eapply threads_done_cstep; eauto|].
  - discriminate.
  - rewrite forallb_forall in He. apply IH.
    destruct (Nat.lt_ge_cases tid (length (cs_threads cs))) as [Hlt|Hge];
      [|rewrite (cstep_none_beyond v fx tid cs Hge) in Es; discriminate].
    specialize (He tid ltac:(apply in_seq; lia)). now rewrite Es in He.
Qed.

(* The set of visited states.  States are compared by [cstate_eq]; to keep the number of
   comparisons small the set is a map from a fingerprint of the state to the states that have it.
   Nothing below depends on what the fingerprint is: a poor one costs time, not soundness. *)
(* under the lazy evaluation of coqchk [N.eq_dec] costs three times what [N.eqb] does *)
Lemma N_eq (a b : N) : {a = b} + {a <> b}.
Proof. destruct (a =? b) eqn:E; [left; now apply N.eqb_eq|right; now apply N.eqb_neq]. Defined.
Lemma entries_eq (a b : list entry) : {a = b} + {a <> b}.
Proof. repeat (decide equality; auto using N_eq). Defined.
Lemma blk_eq (a b : blk) : {a = b} + {a <> b}.
Proof. repeat (decide equality; auto using N_eq, entries_eq). Defined.
Lemma cstate_eq (a b : cstate) : {a = b} + {a <> b}.
Proof. repeat (decide equality; auto using N_eq, entries_eq, blk_eq). Defined.

Definition pc_tag (p : pc) : N :=
  match p with
  | PStart => 0 | PA_flag => 1 | PA_seal_pre _ => 2 | PA_seal_post => 3 | PA_written => 4
  | PB_flag => 5 | PB_seal_pre _ => 6 | PB_seal_post _ => 7 | PB_written => 8 | PR_top => 9
  | PR_commit _ _ _ => 10 | PR_idx _ => 11 | PR_t_snap _ _ => 12 | PR_t_wsnap _ _ _ => 13
  | PR_t_init _ _ => 14 | PBR_wsnap _ => 15 | PBR_commit _ _ _ => 16 | PBR_idx _ _ => 17
  end.
(* where each thread stands, and per topic the writer's offset, the reader's positions and the count,
   their binary digits in a row *)
Definition fingerprint (cs : cstate) : positive :=
  let s := sh_st (cs_sh cs) in
  fold_left (fun a n => append (N.succ_pos n) a)
    (flat_map (fun th => [pc_tag (th_pc th); N.of_nat (length (th_todo th)); N.of_nat (length (th_done th))]) (cs_threads cs)
     ++ flat_map (fun p => [match ts_writer (snd p) with Some w => b_used w | None => 0 end;
                            match ts_reader (snd p) with Some r => N.of_nat (r_idx r) + r_off r + r_tail_off r | None => 0 end;
                            match ts_count (snd p) with Some n => n | None => 0 end]) (s_topics s)
     ++ [a_next (s_alloc s); N.of_nat (length (sh_wl (cs_sh cs))); N.of_nat (length (sh_bf (cs_sh cs)))]) xH.

Definition vset := PositiveMap.t (list cstate).
Definition bucket (m : vset) (k : positive) : list cstate :=
  match PositiveMap.find k m with Some b => b | None => [] end.
Definition holds (m : vset) (x : cstate) : Prop := exists k, In x (bucket m k).

Lemma holds_add m k cs x : holds (PositiveMap.add k (cs :: bucket m k) m) x <-> x = cs \/ holds m x.
Proof.
  assert (E : forall k', bucket (PositiveMap.add k (cs :: bucket m k) m) k' = if PositiveMap.E.eq_dec k' k then cs :: bucket m k else bucket m k').
  { intros k'. unfold bucket at 1. rewrite PositiveMapAdditionalFacts.gsspec. now destruct (PositiveMap.E.eq_dec k' k). }
  split.
  - intros [k' I]. rewrite E in I. destruct (PositiveMap.E.eq_dec k' k); [destruct I as [->|I]; [now left|right; now exists k]|right; now exists k'].
  - intros [->|[k' I]]; [exists k|exists k']; rewrite E.
    + destruct (PositiveMap.E.eq_dec k k) as [_|n]; [now left|now destruct n].
    + destruct (PositiveMap.E.eq_dec k' k) as [->|_]; [now right|exact I].
Qed.

Definition visit (acc : list cstate * vset) (cs : cstate) : list cstate * vset :=
  let k := fingerprint cs in
  if in_dec cstate_eq cs (bucket (snd acc) k) then acc
  else (cs :: fst acc, PositiveMap.add k (cs :: bucket (snd acc) k) (snd acc)).

Lemma visit_spec l : forall new seen new' seen', fold_left visit l (new, seen) = (new', seen') ->
  (forall x, In x new -> In x new') /\ (forall x, holds seen x \/ In x l -> holds seen' x) /\
  (forall x, holds seen' x -> holds seen x \/ In x new').
Proof.
  induction l as [|cs l IH]; intros new seen new' seen' E; cbn [fold_left] in E.
  { inversion E; subst. repeat split; auto. now intros x [H|[]]. }
  unfold visit at 2 in E. cbn [fst snd] in E.
  destruct (in_dec cstate_eq cs (bucket seen (fingerprint cs))) as [Hin|_]; apply IH in E as (N & S1 & S2).
  - repeat split; auto. intros x [H|[<-|H]]; apply S1; auto. left. now exists (fingerprint cs).
  - repeat split.
    + intros x H. apply N. now right.
    + intros x [H|[<-|H]]; apply S1; rewrite ?holds_add; auto.
    + intros x H. destruct (S2 x H) as [H'|H']; [|now right]. apply holds_add in H' as [->|H']; [right; apply N|]; now left.
Qed.

Section Graph.
Context (v : env) (fx : bool) (progs : list (list call)) (drained : bool).

(* [front]: the states reached for the first time by the last step; [seen]: all states reached before *)
Fixpoint explore_graph (fuel : nat) (front : list cstate) (seen : vset) : bool :=
  match front, fuel with
  | [], _ => true
  | _, O => false
  | _, S f =>
    forallb (fun cs => negb (threads_done cs) || c05_run_ok progs (cresults cs) drained) front
    && let (front', seen') := fold_left visit (flat_map (succs v fx) front) ([], seen) in
       explore_graph f front' seen'
  end.

Definition good (S : vset) (cs : cstate) : Prop :=
  (threads_done cs = true -> c05_run_ok progs (cresults cs) drained = true) /\
  forall cs', In cs' (succs v fx cs) -> holds S cs'.

Lemma closed_accepted S : (forall cs, holds S cs -> good S cs) ->
  forall cs, holds S cs -> accepted_from v fx progs drained cs.
Proof.
  intros Hcl cs Hcs sched acc k. apply Hcl.
  apply (crun_from_ind v fx (fun cs _ => holds S cs)); [|exact Hcs].
  intros cs0 _ tid cs' l H Es. apply (Hcl cs0 H). eapply succs_spec; eauto.
Qed.

(* invariant: whatever has been seen is waiting in the front or is good; at the end the seen set is closed *)
Theorem explore_graph_sound : forall fuel front seen, explore_graph fuel front seen = true ->
  (forall cs, holds seen cs -> In cs front \/ good seen cs) ->
  Forall (accepted_from v fx progs drained) front /\
  exists S, (forall cs, holds S cs -> good S cs) /\ forall cs, holds seen cs -> holds S cs.
Proof.
  induction fuel as [|f IH]; intros [|c0 front0] seen He Hinv; try discriminate.
  1,2: split; [constructor|]; exists seen; split; auto; intros cs H; now destruct (Hinv cs H).
  cbn [explore_graph] in He. set (front := c0 :: front0) in *. apply andb_prop in He as [Hok He].
  rewrite forallb_forall in Hok.
  destruct (fold_left visit _ _) as [front' seen'] eqn:Ev. apply visit_spec in Ev as (_ & S1 & S2).
  assert (Hfront : forall cs, In cs front -> good seen' cs).
  { intros cs Hin. split; [intros Hd; specialize (Hok cs Hin); now rewrite Hd in Hok|].
    intros cs' Hs. apply S1. right. apply in_flat_map. now exists cs. }
  destruct (IH front' seen' He) as (_ & S & Hcl & Hsub).
  { intros cs H. destruct (S2 cs H) as [H'|H']; [|now left]. right.
    destruct (Hinv cs H') as [Hin|[Hd Hs]]; [now apply Hfront|]. split; [exact Hd|]. intros cs' Hc. apply S1. left. now apply Hs. }
  split; [|exists S; split; [exact Hcl|intros cs H; apply Hsub, S1; now left]].
  apply Forall_forall. intros cs Hin. destruct (Hfront cs Hin) as [Hd Hs]. apply accepted_from_intro; [exact Hd|].
  intros tid cs' l Es. apply (closed_accepted S Hcl), Hsub, Hs. eapply succs_spec; eauto.
Qed.

Corollary explore_graph_accepted fuel cs :
  explore_graph fuel [cs] (PositiveMap.empty _) = true -> accepted_from v fx progs drained cs.
Proof.
  intros He. apply explore_graph_sound in He as [H _]; [now inversion H|].
  intros x [k I]. unfold bucket in I. now rewrite PositiveMap.gempty in I.
Qed.
End Graph.

Theorem explore_sound v fx progs drained : forall sched fuel cs acc k,
  explore v fx progs drained fuel cs = true ->
  let ro := crun_from v fx cs sched acc k in
  threads_done (ro_cs ro) = true -> c05_run_ok progs (cresults (ro_cs ro)) drained = true.
Proof. intros sched fuel cs acc k He. exact (explore_accepted v fx progs drained fuel cs He sched acc k). Qed.

Lemma crun_from_app v fx : forall s1 s2 cs acc k,
  ro_blocked (crun_from v fx cs s1 acc k) = None ->
  ro_cs (crun_from v fx cs (s1 ++ s2) acc k) =
  ro_cs (crun_from v fx (ro_cs (crun_from v fx cs s1 acc k)) s2 (rev (ro_steps (crun_from v fx cs s1 acc k))) (ro_k (crun_from v fx cs s1 acc k))).
Proof.
  induction s1 as [|tid s1 IH]; intros s2 cs acc k Hb; cbn [app crun_from ro_cs ro_steps ro_k].
  - now rewrite rev_involutive.
  - cbn [crun_from] in Hb. destruct (cstep v fx tid cs) as [cs' l| |]; cbn [ro_cs ro_steps ro_k ro_blocked] in *;
      [apply IH; exact Hb|discriminate|apply IH; exact Hb].
Qed.

Corollary accepted_after_prefix v fx progs drained pre :
  ro_blocked (run_schedule v fx progs pre) = None ->
  accepted_from v fx progs drained (ro_cs (run_schedule v fx progs pre)) ->
  forall sched, let ro := run_schedule v fx progs (pre ++ sched) in
  threads_done (ro_cs ro) = true -> c05_run_ok progs (cresults (ro_cs ro)) drained = true.
Proof.
  intros Hb Ha sched. unfold run_schedule in *. cbn zeta. rewrite (crun_from_app v fx pre sched _ _ _ Hb). apply Ha.
Qed.

Corollary explore_after_prefix v fx progs drained pre fuel :
  ro_blocked (run_schedule v fx progs pre) = None ->
  explore v fx progs drained fuel (ro_cs (run_schedule v fx progs pre)) = true ->
  forall sched, let ro := run_schedule v fx progs (pre ++ sched) in
  threads_done (ro_cs ro) = true -> c05_run_ok progs (cresults (ro_cs ro)) drained = true.
Proof. intros Hb He. apply accepted_after_prefix; [exact Hb|]. eapply explore_accepted, He. Qed.
