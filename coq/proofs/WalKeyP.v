(* WalKeyP.v — why parse_wal_key inverts wal_key (props/C25.v).  The segment number printed by dec is
   read back by parse_u64 (both sides meet in val), and the right-most "_s_" of a key is
   the inserted one, whatever the topic contains, because digits hold neither '_' nor 's'. *)
From W Require Import model.Base model.WalKey proofs.BytesP.

Definition digits (s : str) : Prop := Forall (fun c => is_digit c = true) s.

Fixpoint val (acc : N) (ds : str) : N :=
  match ds with [] => acc | d :: r => val (acc * 10 + (d - ch_0)) r end.

Lemma dec_aux_digits fuel : forall n acc, digits acc -> digits (dec_aux fuel n acc).
Proof.
  induction fuel as [|f IH]; intros n acc Ha; cbn [dec_aux]; [exact Ha|].
  destruct (n <? 10) eqn:E; [|apply IH]; (constructor; [|exact Ha]);
    unfold is_digit, ch_0, ch_9; lia.
Qed.

Lemma dec_digits n : digits (dec n).
Proof. apply dec_aux_digits. constructor. Qed.

Lemma val_ge ds : forall a, a <= val a ds.
Proof.
  induction ds as [|d r IH]; intros a; cbn [val]; [lia|].
  etransitivity; [|apply IH]. lia.
Qed.

Lemma dec_aux_val fuel : forall n acc, n < 10 ^ N.of_nat fuel -> val 0 (dec_aux fuel n acc) = val n acc.
Proof.
  induction fuel as [|f IH]; intros n acc Hn; cbn [dec_aux].
  - f_equal. cbn in Hn. lia.
  - destruct (n <? 10) eqn:E; [|rewrite IH]; cbn [val].
    1,2: f_equal; unfold ch_0; lia.
    (* n / 10 is within the remaining fuel *)
    rewrite Nat2N.inj_succ, N.pow_succ_r' in Hn. set (p := 10 ^ N.of_nat f) in *. clearbody p. lia.
Qed.

Lemma dec_val n : n < two64 -> val 0 (dec n) = n.
Proof.
  intros Hn. unfold dec. rewrite dec_aux_val; [reflexivity|].
  eapply N.lt_trans; [exact Hn|]. vm_compute. reflexivity.
Qed.

Lemma parse_digits_val ds : digits ds -> forall a, val a ds <= u64_max ->
  parse_digits a ds = Some (val a ds).
Proof.
  induction 1 as [|d r Hx Hr IH]; intros a Hv; cbn [parse_digits val] in *; [reflexivity|].
  rewrite Hx.
  pose proof (val_ge r (a * 10 + (d - ch_0))) as Hge.
  destruct (u64_max <? a * 10 + (d - ch_0)) eqn:E; [lia|]. now apply IH.
Qed.

Lemma parse_u64_dec n : n < two64 -> parse_u64 (dec n) = Some n.
Proof.
  intros Hn. pose proof (dec_digits n) as Hd. pose proof (dec_val n Hn) as Hv.
  unfold parse_u64. destruct (dec n) as [|c r] eqn:E.
  { (* an empty print would read back as 0, which prints as "0" *)
    cbn in Hv. subst n. discriminate E. }
  destruct (c =? ch_plus) eqn:Ep.
  { inversion Hd as [|x l Hc _]. unfold is_digit, ch_0, ch_9, ch_plus in *. lia. }
  rewrite parse_digits_val, Hv; [reflexivity|exact Hd|]. unfold two64, u64_max in *. lia.
Qed.

Lemma rsplit_digits ds : digits ds -> rsplit_s ds = None.
Proof.
  induction 1 as [|d r Hx Hr IH]; [reflexivity|]. cbn [rsplit_s]. rewrite IH.
  cbn. unfold is_digit, ch_0, ch_9, ch_us in *.
  destruct (95 =? d) eqn:E; [lia|reflexivity].
Qed.

Lemma rsplit_app a ds : digits ds -> rsplit_s (a ++ pat_s ++ ds) = Some (a, ds).
Proof.
  intros Hd. induction a as [|c a IH]; [|cbn [app rsplit_s]; now rewrite IH].
  (* nothing to split in ds, "_" ++ ds or "s_" ++ ds: once rsplit_s ds is known, the only
     test not between constants compares 's' with the first digit *)
  cbn [pat_s app rsplit_s]. rewrite (rsplit_digits _ Hd). cbn.
  destruct Hd as [|d r Hx Hr]; [reflexivity|]. unfold is_digit, ch_0, ch_9 in Hx.
  destruct (ch_s =? d) eqn:E; [unfold ch_s in E; lia|reflexivity].
Qed.

Lemma rsplit_s_sound s : forall a b, rsplit_s s = Some (a, b) -> s = a ++ pat_s ++ b.
Proof.
  induction s as [|c s IH]; intros a b Hs; cbn [rsplit_s] in Hs; [discriminate|].
  destruct (rsplit_s s) as [[a' b']|].
  - inversion Hs; subst. cbn [app]. f_equal. now apply IH.
  - destruct (strip_prefix pat_s (c :: s)) as [rest|] eqn:Eq; [|discriminate].
    inversion Hs; subst. exact (strip_prefix_sound _ _ _ Eq).
Qed.

(* not the converse of the round trip: parse_u64 accepts leading zeros and '+', so a key that parses
   need not be wal_key of what it parses to *)
Lemma parse_wal_key_shape k topic n : parse_wal_key k = Some (topic, n) ->
  exists ds, k = pre_t ++ topic ++ pat_s ++ ds /\ parse_u64 ds = Some n.
Proof.
  unfold parse_wal_key. destruct (rsplit_s k) as [[l r]|] eqn:Er; [|discriminate].
  destruct (strip_prefix pre_t l) as [tp|] eqn:Es; [|discriminate].
  destruct (parse_u64 r) as [m|] eqn:Ep; [|discriminate].
  intros H; inversion H; subst. exists r. split; [|exact Ep].
  rewrite (rsplit_s_sound _ _ _ Er), (strip_prefix_sound _ _ _ Es). now rewrite <- app_assoc.
Qed.
