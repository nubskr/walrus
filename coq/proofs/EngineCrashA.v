(* EngineCrashA.v — crashes and the consumer, after any history with restarts outside block-id drift.  "No drift at
   the crash" is said as [outside_known] of the history followed by one more OReopen.
   Between two operations, ANY mode: a restart in the state the history reaches, which satisfies GM (GM_crash).
   Inside a CONSUMING read (read_next or batch read): the only durable effect of a read is the index persist (temp
   file, fsync, atomic rename, directory fsync), so the crash image is [reopen] of the state before the read or of
   the state after it: a restart in the state the history reaches, or one step of the invariant further
   (the read keeps block-id drift as it is).
   ANY mode, AtLeastOnce{n} in particular: in both images the stream is the acknowledged stream and the consumer
   resumes at a position k that is at or before the first entry not yet handed out — counting what the in-flight
   read was about to hand out as handed out for the new image — : nothing behind the in-flight read is ever skipped.
   StrictlyAtOnce: the position is exact in both images. *)
From W Require Import model.Base model.Engine spec.Queue proofs.EngineWF proofs.EngineInv proofs.EngineMain proofs.EngineDisk proofs.EngineBlk
  proofs.EngineNorm proofs.EngineRestart proofs.EngineReopen proofs.EngineC06 proofs.EngineGen proofs.EngineCrash proofs.EngineSinceR.
Local Open Scope N_scope.

Definition consuming_read (o : op) : bool :=
  match o with
  | ORead _ true => true
  | OBatchRead _ _ true None => true
  | _ => false
  end.

Lemma consuming_read_ok o : consuming_read o = true -> offered o = [] /\ forall c, op_ok c o.
Proof. destruct o as [| |t [|]|t mb [|] [st|]| |]; try discriminate; (split; [reflexivity|exact (fun _ => I)]). Qed.

(* what one ledger step does to the ledger of the operation's own topic (the other topics: ledger_step_other): the
   offered entries are appended (an acknowledged append or batch), or the stream stays and the position does not go back *)
Lemma ledger_step_own g o r :
  l_app (lget (ledger_step g o r) (otopic o)) = l_app (lget g (otopic o)) ++ offered o /\
  l_del (lget (ledger_step g o r) (otopic o)) = l_del (lget g (otopic o)) \/
  l_app (lget (ledger_step g o r) (otopic o)) = l_app (lget g (otopic o)) /\
  (l_del (lget g (otopic o)) <= l_del (lget (ledger_step g o r) (otopic o)))%nat.
Proof.
  destruct o as [t e | t es | t [|] | t mb [|] [st|] | t | ]; destruct r; cbn [ledger_step otopic offered];
    rewrite ?lget_lset_same; cbn [l_app l_del]; try (right; split; [reflexivity|lia]); left; split; reflexivity.
Qed.

Lemma ledger_step_read_mono g o r t0 : consuming_read o = true ->
  l_app (lget (ledger_step g o r) t0) = l_app (lget g t0) /\
  (l_del (lget g t0) <= l_del (lget (ledger_step g o r) t0))%nat.
Proof.
  intros Hcr. destruct (N.eq_dec t0 (otopic o)) as [->|Hne]; [|now rewrite (ledger_step_other g o r t0 Hne)].
  destruct (ledger_step_own g o r) as [(Ha & Hd)|H]; [|exact H].
  rewrite Ha, Hd, (proj1 (consuming_read_ok o Hcr)), app_nil_r. split; [reflexivity|lia].
Qed.

Lemma id_drift_consuming_read c m be s o : cfg_ok c -> DIs c s -> BIs c s -> consuming_read o = true ->
  id_drift c (fst (step (env_of c m be) s o)) = id_drift c s.
Proof.
  intros Hc Hd Hb Hcr. destruct o as [t e | t es | t ck | t maxb ck start | t | ]; try discriminate Hcr;
    cbn [step env_of v_cfg v_mode]; [now apply id_drift_read|now apply id_drift_batch_read].
Qed.

Theorem GM_ledger_reachable c m be : cfg_ok c -> forall ops s g B Bb,
  GM c s g B Bb -> outside_known (env_of c m be) s ops = true ->
  B + N.of_nat (length (offered_all ops)) <= u64_max -> Bb + sum_len (offered_all ops) <= u64_max ->
  GM c (exec (env_of c m be) s ops) (gm_ledger (env_of c m be) s g ops)
     (B + N.of_nat (length (offered_all ops))) (Bb + sum_len (offered_all ops)).
Proof.
  intros Hc ops s g B Bb HG Hout HB HBb.
  exact (proj1 (GM_history c m be Hc ops s g B Bb HG Hout HB HBb)).
Qed.

Corollary GM_from_init c m be ops : cfg_ok c -> outside_known (env_of c m be) init ops = true ->
  N.of_nat (length (offered_all ops)) <= u64_max -> sum_len (offered_all ops) <= u64_max ->
  GM c (exec (env_of c m be) init ops) (gm_ledger (env_of c m be) init [] ops)
     (N.of_nat (length (offered_all ops))) (sum_len (offered_all ops)).
Proof.
  intros Hc Hout HB HBb. exact (GM_ledger_reachable c m be Hc ops init [] 0 0 (GM_init c (proj1 (proj2 Hc))) Hout HB HBb).
Qed.

(* crash BETWEEN two operations of ANY history with restarts outside block-id drift, ANY mode: the fresh
   process holds the acknowledged stream and hands the consumer a suffix starting at or before its true
   position ([l_del] of the rolled-back ledger): entries may be delivered again, none is skipped *)
Theorem crash_between_operations_never_skips_with_restarts c m be ops : cfg_ok c ->
  outside_known (env_of c m be) init (ops ++ [OReopen]) = true ->
  N.of_nat (length (offered_all ops)) <= u64_max -> sum_len (offered_all ops) <= u64_max ->
  let s := exec (env_of c m be) init ops in
  let g := gm_ledger (env_of c m be) init [] ops in
  forall t x,
    stream (get_ts (reopen c s) t) = l_app (lget g t) /\
    (l_del (lget g t) <= length (l_app (lget g t)))%nat /\
    unread c (nrm x (get_ts s t)) = skipn (l_del (lget g t)) (l_app (lget g t)) /\
    exists k, (k <= l_del (lget g t))%nat /\
              unread c (nrm x (get_ts (reopen c s) t)) = skipn k (l_app (lget g t)).
Proof.
  intros Hc Hout HB HBb. cbn zeta. destruct (outside_known_split _ ops init Hout) as (Hout1 & Hk). intros t x.
  destruct (GM_crash c _ _ _ _ Hc (GM_from_init c m be ops Hc Hout1 HB HBb) Hk t x) as (A1 & A2 & A3 & k & A4 & A5 & _).
  split; [exact A1|]. split; [exact A2|]. split; [exact A3|]. exists k. auto.
Qed.

Theorem crash_inside_consuming_read_with_restarts c m be ops o : cfg_ok c ->
  consuming_read o = true ->
  outside_known (env_of c m be) init (ops ++ [OReopen]) = true ->
  N.of_nat (length (offered_all ops)) <= u64_max -> sum_len (offered_all ops) <= u64_max ->
  let v := env_of c m be in
  let s := exec v init ops in
  let s' := fst (step v s o) in
  let g := gm_ledger v init [] ops in
  let g' := ledger_step g o (snd (step v s o)) in
  forall image, image = reopen c s \/ image = reopen c s' ->
  forall t0 x,
    stream (get_ts image t0) = l_app (lget g t0) /\
    exists k, (k <= l_del (lget g' t0))%nat /\
              unread c (nrm x (get_ts image t0)) = skipn k (l_app (lget g t0)).
Proof.
  intros Hc Hcr Hout HB HBb. cbn zeta. destruct (outside_known_split _ ops init Hout) as (Hout1 & Hk). cbn [env_of v_cfg] in Hk.
  pose proof (GM_from_init c m be ops Hc Hout1 HB HBb) as HG.
  set (s := exec (env_of c m be) init ops) in *. set (g := gm_ledger (env_of c m be) init [] ops) in *.
  (* the read in flight is one more step of the invariant, and leaves drift as it was *)
  destruct (consuming_read_ok o Hcr) as (Hoff & Hok).
  destruct (GM_step c m be s g _ _ o Hc HG (Hok c) ltac:(rewrite Hoff; cbn; lia) ltac:(rewrite Hoff; cbn; lia)) as (_ & HG').
  pose proof HG as (_ & Hd & Hb & _). pose proof (id_drift_consuming_read c m be s o Hc Hd Hb Hcr) as Hk'. rewrite Hk in Hk'.
  intros image Him t0 x. destruct (ledger_step_read_mono g o (snd (step (env_of c m be) s o)) t0 Hcr) as (Ha & Hm).
  destruct Him as [->| ->].
  - destruct (GM_crash c s g _ _ Hc HG Hk t0 x) as (Hs & _ & _ & k & Hk1 & Hu & _). split; [exact Hs|]. exists k. split; [lia|exact Hu].
  - destruct (GM_crash c _ _ _ _ Hc HG' Hk' t0 x) as (Hs & _ & _ & k & Hk1 & Hu & _). rewrite Ha in Hs, Hu. eauto.
Qed.

(* both images are restarts between two operations, judged by the ledger before resp. after the read;
   the read itself is judged by the ledger before it, and only moves the position of its own topic *)
Lemma crash_inside_consuming_read_strict c be ops o : cfg_ok c -> consuming_read o = true ->
  N.of_nat (length (offered_all ops)) <= u64_max -> sum_len (offered_all ops) <= u64_max ->
  outside_known (env_of c Strict be) init (ops ++ [OReopen]) = true ->
  let v := env_of c Strict be in
  let s := exec v init ops in
  let s' := fst (step v s o) in
  let g := ledger_run [] (trace v init ops) in
  let g' := ledger_step g o (snd (step v s o)) in
  c01_step_ok g o (snd (step v s o)) = true /\
  (forall t0 x, stream (get_ts (reopen c s) t0) = l_app (lget g t0) /\
                unread c (nrm x (get_ts (reopen c s) t0)) = skipn (l_del (lget g t0)) (l_app (lget g t0))) /\
  (forall t0 x, stream (get_ts (reopen c s') t0) = l_app (lget g t0) /\
                (t0 <> otopic o -> unread c (nrm x (get_ts (reopen c s') t0)) = skipn (l_del (lget g t0)) (l_app (lget g t0))) /\
                unread c (nrm x (get_ts (reopen c s') (otopic o))) = skipn (l_del (lget g' (otopic o))) (l_app (lget g (otopic o)))).
Proof.
  intros Hc Hcr HB HBb Hout. cbn zeta. destruct (outside_known_split _ ops init Hout) as (Hout1 & Hk). cbn [env_of v_cfg] in Hk.
  destruct (G_from_init c be ops Hc HB HBb Hout1) as (HG & Hpg).
  set (s := exec (env_of c Strict be) init ops) in *. set (g := ledger_run [] (trace (env_of c Strict be) init ops)) in *.
  (* the read in flight is one more step of the invariant, and leaves drift as it was *)
  destruct (consuming_read_ok o Hcr) as (Hoff & Hok).
  assert (Hno : match o with OReopen => id_drift c s = false | _ => True end) by (destruct o; try discriminate Hcr; exact I).
  destruct (G_PG_step c be s g _ _ o Hc HG Hpg Hno ltac:(rewrite Hoff; cbn; lia) ltac:(rewrite Hoff; cbn; lia)) as (Hc01 & _ & HG' & Hpg').
  pose proof HG as (_ & Hd & Hb & _). pose proof (id_drift_consuming_read c Strict be s o Hc Hd Hb Hcr) as Hk'. rewrite Hk in Hk'.
  pose proof (GQ_view _ c _ _ _ _ (proj1 (G_reopen_pg c _ _ _ _ Hc HG Hpg Hk))) as V.
  pose proof (GQ_view _ c _ _ _ _ (proj1 (G_reopen_pg c _ _ _ _ Hc HG' Hpg' Hk'))) as V'.
  split; [exact Hc01|]. split; intros t0 x.
  - destruct (V t0 x) as (_ & Hs & Hu & _). auto.
  - destruct (V' t0 x) as (_ & Hs & Hu & _). destruct (V' (otopic o) x) as (_ & _ & Hut & _).
    rewrite (proj1 (ledger_step_read_mono g o _ t0 Hcr)) in Hs. rewrite (proj1 (ledger_step_read_mono g o _ (otopic o) Hcr)) in Hut.
    split; [exact Hs|]. split; [|exact Hut]. intros Hne. now rewrite (ledger_step_other _ o _ t0 Hne) in Hu.
Qed.
