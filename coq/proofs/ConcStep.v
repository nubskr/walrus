(* ConcStep.v — every segment of an append or a read_next preserves the invariant GINV of
   proofs/ConcInvF.v, for both versions of the code and for any window clause that survives the
   steps of the other threads (win_frames; the clause is a predicate of the reading thread's topic and
   pc, [lift]ed to threads).  A segment is described by what it does to its topic ([tchg], ConcInvF.v)
   and to the stepping thread's ledgers ([th_next]); [G_step] is the one proof that the invariant
   follows; the segment lemmas are stated about the functions of model/Conc.v themselves ([seg_ok]),
   and [G_cstep] sends each pc to its lemma.  Two clauses are given: win_ok_at, for the code before
   fix 4c905dc (fx = false), under one consumer per topic and as long as no block is sealed while a
   read_next of that topic is between its tail snapshot and its commit; winF_at, for the code as it
   is (fx = true), under no hypothesis.  Only two segments of read_next look at fx (after the writer
   snapshot, and the read from it): the last two fields of win_frames. *)
From W Require Import model.Base model.Engine model.Conc spec.ConcSpec proofs.EngineWF proofs.EngineInv proofs.EngineW proofs.EngineRd proofs.EngineMain proofs.ConcInv proofs.ConcInvF.

Definition single_consumer (progs : list (list call)) : Prop :=
  forall t i j, consumes (nth i progs []) t -> consumes (nth j progs []) t -> i = j.

Lemma head_in_prog prog th cl rest : hist_ok prog th -> th_todo th = cl :: rest -> In cl prog.
Proof. intros (d & H1 & _) H. rewrite H1, H. apply in_or_app. right. now left. Qed.

Lemma own_head prog t e : In (CAppend t e) prog -> own prog e = true.
Proof.
  intros Hin. apply existsb_eqb_in, in_flat_map. exists (CAppend t e). split; [exact Hin|now left].
Qed.

(* prog_pids (ConcInv.v) repeats the body of offered_pids (spec/ConcSpec.v) *)
Lemma offered_pids_cons p progs : offered_pids (p :: progs) = prog_pids p ++ offered_pids progs.
Proof. reflexivity. Qed.

Lemma offered_pids_nth progs i : (i < length progs)%nat ->
  exists a b, offered_pids progs = a ++ prog_pids (nth i progs []) ++ b.
Proof.
  revert i; induction progs as [|p progs IH]; intros i Hi; [cbn in Hi; lia|].
  rewrite offered_pids_cons. destruct i as [|i]; cbn [nth].
  - exists [], (offered_pids progs). reflexivity.
  - destruct (IH i ltac:(cbn in Hi; lia)) as (a & b & E). rewrite E.
    exists (prog_pids p ++ a), b. now rewrite <- app_assoc.
Qed.

Lemma own_offered progs k e : own (nth k progs []) e = true -> In (e_pid e) (offered_pids progs).
Proof.
  revert k; induction progs as [|p progs IH]; intros k Ok; [now destruct k|].
  rewrite offered_pids_cons. apply in_or_app. destruct k as [|k]; [left; now apply existsb_eqb_in|right; apply (IH k Ok)].
Qed.

Lemma own_excl progs i j e : NoDup (offered_pids progs) ->
  own (nth i progs []) e = true -> own (nth j progs []) e = true -> i = j.
Proof.
  revert i j; induction progs as [|p progs IH]; intros i j Hn Oi Oj; [now destruct i|].
  rewrite offered_pids_cons in Hn. apply NoDup_app_iff in Hn as (_ & Hn & Hd).
  destruct i as [|i], j as [|j]; cbn [nth] in *; [reflexivity| | |].
  - destruct (Hd (e_pid e)); [now apply existsb_eqb_in|apply (own_offered progs j e Oj)].
  - destruct (Hd (e_pid e)); [now apply existsb_eqb_in|apply (own_offered progs i e Oi)].
  - f_equal. now apply IH.
Qed.

Lemma lock_ok_holder cs : lock_ok cs <->
  forall t i th, nth_error (cs_threads cs) i = Some th -> th_holds t th = true -> wl_holder (sh_wl (cs_sh cs)) t = Some i.
Proof.
  split.
  - intros Hl t i th Hi Hh. specialize (Hl t). destruct (wl_holder (sh_wl (cs_sh cs)) t) as [x|]; [now rewrite (Hl i th Hi Hh)|].
    rewrite (Hl i th Hi) in Hh. discriminate.
  - intros H t. destruct (wl_holder (sh_wl (cs_sh cs)) t) as [x|] eqn:E; intros i th Hi; [intros Hh|destruct (th_holds t th) eqn:Hh; [|reflexivity]];
      pose proof (H t i th Hi Hh); congruence.
Qed.

Lemma lock_upd cs sh' tid th th' :
  lock_ok cs -> nth_error (cs_threads cs) tid = Some th ->
  (forall t, th_holds t th' = true -> wl_holder (sh_wl sh') t = Some tid) ->
  (forall t i, i <> tid -> wl_holder (sh_wl (cs_sh cs)) t = Some i -> wl_holder (sh_wl sh') t = Some i) ->
  lock_ok (upd cs sh' tid th').
Proof.
  intros Hl Hth Hown Hoth. apply lock_ok_holder. intros t i thi Hi Hh.
  destruct (upd_nth_cases _ _ _ _ _ _ _ Hth Hi) as [(-> & ->)|(Hne & Hio)]; [apply (Hown t Hh)|].
  apply (Hoth t i Hne), (proj1 (lock_ok_holder cs) Hl t i thi Hio Hh).
Qed.

Lemma lock_same cs sh' tid th th' :
  lock_ok cs -> nth_error (cs_threads cs) tid = Some th -> sh_wl sh' = sh_wl (cs_sh cs) ->
  (forall t, th_holds t th' = th_holds t th) -> lock_ok (upd cs sh' tid th').
Proof.
  intros Hl Hth Hwl Hh. apply (lock_upd cs sh' tid th th' Hl Hth); rewrite Hwl; [|auto].
  intros t Ht. rewrite Hh in Ht. apply (proj1 (lock_ok_holder cs) Hl t tid th Hth Ht).
Qed.

(* the writer mutexes of t0 are free or thread tid's: that thread alone decides [mid] *)
Definition sole (cs : cstate) (tid : nat) (t0 : N) : Prop :=
  forall j thj, j <> tid -> nth_error (cs_threads cs) j = Some thj -> th_holds t0 thj = false.

Lemma sole_intro cs tid th t0 :
  lock_ok cs -> nth_error (cs_threads cs) tid = Some th ->
  (wl_holder (sh_wl (cs_sh cs)) t0 = None \/ th_holds t0 th = true) -> sole cs tid t0.
Proof.
  intros Hl Hth Hx j thj Hne Hj. destruct (th_holds t0 thj) eqn:E; [|reflexivity]. exfalso.
  pose proof (proj1 (lock_ok_holder cs) Hl t0) as H. pose proof (H j thj Hj E) as Hj'.
  destruct Hx as [Hx|Hx]; [congruence|]. pose proof (H tid th Hth Hx). congruence.
Qed.

Lemma mid_sole cs sh' tid th th' t0 : nth_error (cs_threads cs) tid = Some th -> sole cs tid t0 ->
  mid (upd cs sh' tid th') t0 = th_mid t0 th'.
Proof.
  intros Hth Hs. unfold mid. destruct (existsb (th_mid t0) (cs_threads (upd cs sh' tid th'))) eqn:E.
  - apply existsb_exists in E as (x & Hin & Hx). apply In_nth_error in Hin as (j & Hj).
    destruct (upd_nth_cases _ _ _ _ _ _ _ Hth Hj) as [(_ & ->)|(Hne & Hjo)]; [congruence|].
    apply th_mid_holds in Hx. rewrite (Hs j x Hne Hjo) in Hx. discriminate.
  - symmetry. apply (existsb_false_in _ _ _ E), (nth_error_In _ tid). now rewrite (upd_nth _ _ _ _ _ _ Hth), Nat.eqb_refl.
Qed.
Lemma mid_sole_now cs tid th t0 : nth_error (cs_threads cs) tid = Some th -> sole cs tid t0 -> mid cs t0 = th_mid t0 th.
Proof. intros Hth Hs. rewrite <- (mid_upd_same cs (cs_sh cs) tid th th t0 Hth eq_refl). apply (mid_sole cs _ tid th th t0 Hth Hs). Qed.

Lemma get_upd_ts_same sh t ts : get_ts (sh_st (upd_ts sh t ts)) t = ts.
Proof. apply get_set_same. Qed.
Lemma get_upd_ts_other sh t ts t' : t' <> t -> get_ts (sh_st (upd_ts sh t ts)) t' = get_ts (sh_st sh) t'.
Proof. apply get_set_other. Qed.
Lemma reader_of_eff cs t : reader_of (eff cs t) = reader_of (rawts cs t).
Proof. rewrite eff_effst. apply reader_effst. Qed.
Lemma index_eff cs t : ts_index (eff cs t) = ts_index (rawts cs t).
Proof. unfold eff. now destruct (mid cs t). Qed.
Lemma rn_hydrate_eff cs t : rn_hydrate (eff cs t) = rn_hydrate (rawts cs t).
Proof. unfold eff. now destruct (mid cs t). Qed.
Lemma eff_nomid cs t : mid cs t = false -> eff cs t = rawts cs t.
Proof. unfold eff. now intros ->. Qed.

Lemma simple_tail cl rest : Forall (fun cl => simple_call cl = true) (cl :: rest) -> Forall (fun cl => simple_call cl = true) rest.
Proof. intros H. now inversion H. Qed.

(* [rthreadP] (ConcInvF.v) at ck = true; the segment lemmas are about rthreadP *)
Definition rthread (t : topic) (rest : list call) (p : pc) (d : list result) : thread :=
  {| th_todo := CRead t true :: rest; th_pc := p; th_done := d |}.

Lemma rthread_facts t rest p d :
  (forall t', th_mid t' (rthread t rest p d) = false) /\ (forall t', th_holds t' (rthread t rest p d) = false) /\
  (forall t', wr_pending t' (rthread t rest p d) = []).
Proof. repeat split. Qed.

Lemma start_flags rest d t :
  th_mid t {| th_todo := rest; th_pc := PStart; th_done := d |} = false /\
  th_holds t {| th_todo := rest; th_pc := PStart; th_done := d |} = false.
Proof. unfold th_mid, th_holds. cbn. now destruct rest as [|[| | |] ?]. Qed.

(* the pcs between the tail snapshot and the commit: the test inside Conc.in_read_window *)
Definition win_pc (p : pc) : bool :=
  match p with PR_t_snap _ _ | PR_t_wsnap _ _ _ | PR_t_init _ _ => true | _ => false end.

(* the pcs at which a read_next is hydrated and holds no entry for its consumer; from three of them
   it enters its loop top: the top itself and, with the fix, the two segments after the writer
   snapshot whose checks send the call back *)
Definition plain_pc (p : pc) : bool :=
  match p with PR_top | PR_t_snap _ _ | PR_t_wsnap _ _ _ | PR_t_init _ _ => true | _ => false end.

Definition athread (t : topic) (e : entry) (rest : list call) (p : pc) (d : list result) : thread :=
  {| th_todo := CAppend t e :: rest; th_pc := p; th_done := d |}.

(* get_or_create_writer does nothing, or gives the topic its first block *)
Lemma ensure_tchg c s t md : cfg_ok c -> TInvP c (a_next (s_alloc s)) (effst (get_ts s (t_id t)) md) ->
  exists s1 w k, ensure_writer c s t = (s1, w) /\ (k = KKeep \/ k = KFirst) /\
    (forall t', t' <> t_id t -> get_ts s1 t' = get_ts s t') /\
    tchg c (a_next (s_alloc s)) (get_ts s (t_id t)) md k (a_next (s_alloc s1)) (get_ts s1 (t_id t)) md [] [].
Proof.
  intros (Hh & Hb0 & Hba & Hbm & Hme & Hhb) HE. unfold ensure_writer.
  destruct (ts_writer (get_ts s (t_id t))) as [w|] eqn:Ew.
  - exists s, w, KKeep. split; [reflexivity|]. split; [now left|]. split; [reflexivity|apply tchg_none, HE].
  - destruct (alloc_first_spec c s ltac:(lia)) as (s1 & b & Ha & Hsame & Hnext & Hfresh & Hlim). rewrite Ha.
    eexists _, _, KFirst. split; [reflexivity|]. split; [now right|]. split.
    + intros t' Hne. rewrite get_set_other by exact Hne. apply Hsame.
    + rewrite get_set_same, Hsame. cbn [s_alloc set_ts]. rewrite Hnext. now apply tc_first.
Qed.

(* [sh'] is [sh] but for the state of topic t0, which is [raw']: all that the read segments and the
   returns do to the shared state (the append segments also take locks and allocate) *)
Definition only_ts (sh sh' : shared) (t0 : N) (raw' : tstate) : Prop :=
  sh_bf sh' = sh_bf sh /\ sh_wl sh' = sh_wl sh /\ a_next (s_alloc (sh_st sh')) = a_next (s_alloc (sh_st sh)) /\
  get_ts (sh_st sh') t0 = raw' /\ forall t, t <> t0 -> get_ts (sh_st sh') t = get_ts (sh_st sh) t.
Lemma only_ts_refl sh t0 : only_ts sh sh t0 (get_ts (sh_st sh) t0).
Proof. repeat split. Qed.
Lemma only_ts_upd sh t0 raw' : only_ts sh (upd_ts sh t0 raw') t0 raw'.
Proof. repeat split; [apply get_upd_ts_same|apply get_upd_ts_other]. Qed.

Definition reads (th : thread) : Prop := exists t ck rest, th_todo th = CRead t ck :: rest.
(* what Conc.kstep tests, negated, before it raises k_seal_in_read at a chain push on t *)
Definition no_read_window (cs : cstate) (t : N) : Prop := existsb (fun x => in_read_window x t) (cs_threads cs) = false.

(* A window clause: what the invariant records about a consuming read_next between its tail snapshot
   and its commit, as a predicate [W] of its topic (next block id, md = [mid], raw state) and its pc. *)
Definition lift (W : Cfg -> N -> bool -> tstate -> pc -> Prop) (c : Cfg) (cs : cstate) (th : thread) : Prop :=
  match th_todo th with
  | CRead t true :: _ => W c (nid_of cs) (mid cs (t_id t)) (rawts cs (t_id t)) (th_pc th)
  | _ => True
  end.

(* The two clauses.  [winF] (ConcInvF.v) and [win_ok] (ConcInv.v) repeat their text, lifted: winF_lift
   and win_ok_lift fail when one copy changes. *)
(* fx = true: a held writer snapshot satisfies J *)
Definition winF_at (c : Cfg) (nid : N) (md : bool) (raw : tstate) (p : pc) : Prop :=
  match p with PR_t_wsnap _ _ a | PR_t_init a _ => J c nid md raw a | _ => True end.

Lemma winF_lift : winF = lift winF_at.
Proof. reflexivity. Qed.

(* fx = false: the tail position and the snapshot are as they were when the window opened *)
Definition win_ok_at (c : Cfg) (nid : N) (md : bool) (raw : tstate) (p : pc) : Prop :=
  let r := reader_of raw in
  match p with
  | PR_t_snap sb so => r_idx r = length (r_chain r) /\ sb = r_tail_bid r /\ so = r_tail_off r
  | PR_t_wsnap sb so a => md = false /\ r_idx r = length (r_chain r) /\ sb = r_tail_bid r /\ so = r_tail_off r /\ snap_ok c raw a
  | PR_t_init a off => md = false /\ r_idx r = length (r_chain r) /\ snap_ok c raw a /\
                       off = (if r_tail_bid r =? b_id a then r_tail_off r else 0)
  | _ => True
  end.

Lemma win_ok_lift : win_ok = lift win_ok_at.
Proof. reflexivity. Qed.

(* [W] has to survive what the steps of the other threads do to the topic ([SEAL cs t]: what it needs
   of a state in which a block of t is sealed), to hold when the window opens, and to make the commit
   right; only the last two fields look at fx.  Every field is about one topic state, except
   wf_others: for fx = false what excludes a cursor move or a seal inside a window is an argument
   about the run (one consumer per topic, the monitor), so the field sees the two threads. *)
Section Frames.
Context {W : Cfg -> N -> bool -> tstate -> pc -> Prop} {SEAL : cstate -> N -> Prop} {fx : bool} {c : Cfg} {progs : list (list call)}.
Record win_frames : Prop := {
  wf_plain : forall nid md raw p, win_pc p = false -> W c nid md raw p;
  wf_nid : forall nid nid' md raw p, nid <= nid' -> W c nid md raw p -> W c nid' md raw p;
  (* thread j is inside a window on the topic t0 that thread tid's step takes through a [tchg] *)
  wf_others : forall cs tid th t0 j thj k nid' raw' md' da dd,
    TInvP c (nid_of cs) (eff cs t0) -> head_topic th = Some t0 -> hist_ok (nth tid progs []) th ->
    j <> tid -> nth_error (cs_threads cs) j = Some thj -> hist_ok (nth j progs []) thj -> in_read_window thj t0 = true ->
    tchg c (nid_of cs) (rawts cs t0) (mid cs t0) k nid' raw' md' da dd ->
    (k = KCursor -> reads th) -> (k = KSeal -> SEAL cs t0) ->
    W c (nid_of cs) (mid cs t0) (rawts cs t0) (th_pc thj) -> W c nid' md' raw' (th_pc thj);
  (* the window opens: tail snapshot, writer snapshot (taken with the writer mutexes free) *)
  wf_tail : forall nid md raw, TInvP c nid (effst raw md) ->
    let r := reader_of raw in
    nth_error (r_chain r) (r_idx r) = None -> W c nid md raw (PR_t_snap (r_tail_bid r) (r_tail_off r));
  wf_wsnap : forall nid raw sb so w, TInvP c nid raw -> W c nid false raw (PR_t_snap sb so) -> ts_writer raw = Some w ->
    W c nid false raw (PR_t_wsnap sb so w);
  (* after the writer snapshot the offset to read from is fixed: from the tail snapshot, or, with
     the fix, from the tail position as it is now (the pair is the one seg_read binds at PR_t_wsnap) *)
  wf_init : forall nid md raw raw' sb so a, W c nid md raw (PR_t_wsnap sb so a) ->
    rd_same raw raw' -> ts_writer raw' = ts_writer raw ->
    forall sb' so', (if fx then (r_tail_bid (reader_of raw), r_tail_off (reader_of raw)) else (sb, so)) = (sb', so') ->
    W c nid md raw' (PR_t_init a (if sb' =? b_id a then so' else 0));
  (* the read from the snapshot (with the fix: once its checks have passed) reads the first unread entry *)
  wf_commit : forall nid md raw a off, TInvP c nid (effst raw md) -> W c nid md raw (PR_t_init a off) ->
    let r := reader_of raw in
    off < b_used a ->
    fx && ((r_idx r <? length (r_chain r))%nat || sealed_since (r_chain r) a ||
           negb ((if r_tail_bid r =? b_id a then r_tail_off r else 0) =? off)) = false ->
    md = false /\ snap_ok c raw a /\ r_idx r = length (r_chain r) /\
    off = (if r_tail_bid r =? b_id a then r_tail_off r else 0)
}.

End Frames.
Arguments win_frames : clear implicits.

Lemma lift_plain {W SEAL fx c progs} : win_frames W SEAL fx c progs -> forall cs th, win_pc (th_pc th) = false -> lift W c cs th.
Proof. intros WF cs th Hp. unfold lift. destruct (th_todo th) as [|[| |t [|]|] ?]; auto. apply (wf_plain WF), Hp. Qed.

Section Segments.
Context (W : Cfg -> N -> bool -> tstate -> pc -> Prop).
Context (SEAL : cstate -> N -> Prop) (fx : bool).
Context (c : Cfg) (progs : list (list call)).
Context (WF : win_frames W SEAL fx c progs).
Context (Hc : cfg_ok c).
Context (Hnd : NoDup (offered_pids progs)).
Context (cs : cstate) (L : glog) (tid : nat).
Context (Hinv : GINV (lift W) c progs cs L).

(* what the step does to the stepping thread's own clauses and ledgers; [da] are entries of its current append *)
Record th_next (t0 : N) (th th' : thread) (da dd : list entry) : Prop := {
  tn_mid : forall t, t <> t0 -> th_mid t th' = false;
  tn_ok : Forall (fun cl => simple_callP cl = true) (th_todo th') /\ hist_ok (nth tid progs []) th';
  tn_cons : dd = [] \/ consumes (nth tid progs []) t0;
  tn_del : forall t, del_seq t (nth tid progs []) th' = del_seq t (nth tid progs []) th ++ (if t =? t0 then map out_of dd else []);
  tn_wr : forall t, wr_seq t (nth tid progs []) th' = wr_seq t (nth tid progs []) th ++ (if t =? t0 then da else []);
  tn_own : Forall (fun e => own (nth tid progs []) e = true) da
}.

(* what the kinds of [tchg] ask of the stepping thread and of the state [cs] *)
Definition side (k : tkind) (th : thread) (t0 : N) : Prop :=
  match k with
  | KCursor => reads th
  | KSeal => SEAL cs t0
  | KAdd | KNew => sole cs tid t0
  | _ => True
  end.

(* the window of another thread: on another topic nothing but the next block id moves *)
Lemma others_win sh' th th' t0 k da dd :
  nth_error (cs_threads cs) tid = Some th -> head_topic th = Some t0 ->
  let cs' := upd cs sh' tid th' in
  (forall t, t <> t0 -> get_ts (sh_st sh') t = get_ts (sh_st (cs_sh cs)) t) ->
  (forall t, t <> t0 -> th_mid t th' = false) ->
  tchg c (nid_of cs) (rawts cs t0) (mid cs t0) k (nid_of cs') (get_ts (sh_st sh') t0) (mid cs' t0) da dd -> side k th t0 ->
  forall j thj, j <> tid -> nth_error (cs_threads cs) j = Some thj -> lift W c cs' thj.
Proof.
  intros Hth Hhead cs' Hoth Tm Hch Hside j thj Hne Hj. subst cs'. pose proof (gv_win Hinv j thj Hj) as Hw.
  unfold lift, in_read_window in *. destruct (th_todo thj) as [|[| |t [|]|] ?] eqn:Et; auto. rewrite rawts_upd.
  destruct (N.eq_dec (t_id t) t0) as [E|Hn].
  - rewrite E in *. destruct (win_pc (th_pc thj)) eqn:Ep; [|apply (wf_plain WF), Ep].
    refine (wf_others WF cs tid th t0 j thj k _ _ _ da dd (gv_ts Hinv t0) Hhead (proj2 (proj2 (gv_th Hinv tid th Hth))) Hne
              Hj (proj2 (proj2 (gv_th Hinv j thj Hj))) _ Hch _ _ Hw); try (intros ->; exact Hside).
    unfold in_read_window. rewrite Et, E, N.eqb_refl. exact Ep.
  - rewrite (Hoth _ Hn), (mid_upd_other cs sh' tid th th' t0 _ Hth Hhead Tm Hn).
    exact (wf_nid WF _ _ _ _ _ (tchg_nid Hch) Hw).
Qed.

(* One step of thread tid, whose current call is on topic t0: the topic goes through a [tchg], the
   other topics stay, the delivered entries join the ghost log. *)
Lemma G_step sh' th th' t0 k nid' md' da dd :
  nth_error (cs_threads cs) tid = Some th -> head_topic th = Some t0 ->
  let cs' := upd cs sh' tid th' in
  sh_bf sh' = sh_bf (cs_sh cs) ->
  (forall t, t <> t0 -> get_ts (sh_st sh') t = get_ts (sh_st (cs_sh cs)) t) ->
  tchg c (nid_of cs) (rawts cs t0) (mid cs t0) k nid' (get_ts (sh_st sh') t0) md' da dd ->
  nid_of cs' = nid' -> mid cs' t0 = md' -> side k th t0 ->
  lock_ok cs' ->
  th_next t0 th th' da dd -> th_okP c cs' th' -> lift W c cs' th' ->
  GINV (lift W) c progs cs' (log_add L t0 tid dd).
Proof.
  intros Hth Hhead cs' Hbf Hoth Hch <- <- Hside Hlock [Tm To Tc Td Tw Town] Hok' Hwin'.
  pose proof (tchg_nid Hch) as Hnid.
  assert (Htl : (tid < length progs)%nat) by (rewrite <- (gv_len Hinv); eapply nth_error_lt; eauto).
  (* every topic: its invariant, what its stream gained and what was read of it *)
  assert (Heff : forall t, TInvP c (nid_of cs') (eff cs' t) /\
            effect_ok c (eff cs t) (eff cs' t) (if t =? t0 then da else []) (if t =? t0 then dd else [])).
  { intros t. destruct (N.eqb_spec t t0) as [->|Hne]; [exact (tchg_inv (proj1 Hc) (gv_next Hinv) (gv_ts Hinv t0) Hch)|].
    replace (eff cs' t) with (eff cs t).
    - split; [eapply TInvP_mono; [exact Hnid|apply (gv_ts Hinv)]|now apply effect_none].
    - unfold eff, rawts, cs'. rewrite (mid_upd_other cs sh' tid th th' t0 t Hth Hhead Tm Hne). cbn [upd cs_sh]. now rewrite (Hoth t Hne). }
  pose proof (fun i thi => upd_nth_cases cs sh' tid th th' i thi Hth) as Hnth'. fold cs' in Hnth'.
  (* distinct payload ids: what this thread appends is no other thread's *)
  assert (Hexcl : forall j, j <> tid -> filter (own (nth j progs [])) da = []).
  { intros j Hne. apply filter_none. eapply Forall_impl; [|exact Town]. cbn beta. intros e Ho.
    destruct (own (nth j progs []) e) eqn:Eo; [|reflexivity]. destruct Hne. apply (own_excl progs j tid e Hnd Eo Ho). }
  constructor.
  - pose proof (gv_next Hinv). lia.
  - intros t. apply Heff.
  - change (sh_bf sh' = []). rewrite Hbf. apply (gv_bf Hinv).
  - exact Hlock.
  - unfold cs'. cbn. rewrite length_set_nth. apply (gv_len Hinv).
  - intros i thi Hi. destruct (Hnth' i thi Hi) as [(-> & ->)|(Hne & Hio)]; [auto|].
    destruct (gv_th Hinv i thi Hio) as (A & B). split; [|exact B].
    apply (th_okP_tchg cs cs' thi t0 Hch Hoth); [|exact A]. intros [-> | ->]; exact (Hside i thi Hne Hio).
  - intros i thi Hi. destruct (Hnth' i thi Hi) as [(-> & ->)|(Hne & Hio)]; [exact Hwin'|].
    apply (others_win sh' th th' t0 k da dd Hth Hhead Hoth Tm Hch Hside i thi Hne Hio).
  - intros t. destruct (Heff t) as (_ & E1 & E2). unfold log_add.
    rewrite map_app, map_map. cbn [snd]. rewrite E1, map_app, <- (gv_log Hinv t), <- !app_assoc. f_equal.
    change (fun x : entry => out_of x) with out_of. rewrite <- !map_app. now rewrite E2.
  - intros t i thi Hi. rewrite log_of_add. destruct (Hnth' i thi Hi) as [(-> & ->)|(Hne2 & Hio)].
    + rewrite Nat.eqb_refl, andb_true_r, Td. f_equal. apply (gv_mine Hinv t tid th Hth).
    + rewrite (proj2 (Nat.eqb_neq tid i)), andb_false_r, app_nil_r by congruence. apply (gv_mine Hinv t i thi Hio).
  - intros t q o Hin. apply in_app_or in Hin as [Hin|Hin]; [apply (gv_cons Hinv t q o Hin)|].
    destruct (N.eqb_spec t t0) as [->|]; [|destruct Hin]. destruct Tc as [->|Hcons]; [destruct Hin|].
    apply in_map_iff in Hin as (e & He & _). inversion He; subst q. exact Hcons.
  - intros t i thi Hi. destruct (Heff t) as (_ & E1 & _). rewrite E1, filter_app.
    destruct (Hnth' i thi Hi) as [(-> & ->)|(Hne & Hio)].
    + rewrite Tw, (filter_all _ (if t =? t0 then da else [])); [f_equal; apply (gv_own Hinv t tid th Hth)|]. now destruct (t =? t0).
    + rewrite (gv_own Hinv t i thi Hio). destruct (t =? t0); [rewrite (Hexcl i Hne)|]; apply app_nil_r.
  - intros t e Hin. destruct (Heff t) as (_ & E1 & _). rewrite E1 in Hin.
    apply in_app_or in Hin as [Hin|Hin]; [apply (gv_owned Hinv t e Hin)|].
    exists tid. split; [exact Htl|]. destruct (t =? t0); [|destruct Hin]. eapply Forall_forall in Town; eauto.
Qed.

(* cstep's case SPark *)
Lemma th_go t0 th p' da dd :
  nth_error (cs_threads cs) tid = Some th -> head_topic th = Some t0 ->
  let th' := {| th_todo := th_todo th; th_pc := p'; th_done := th_done th |} in
  (forall t, del_pending t th' = del_pending t th ++ (if t =? t0 then map out_of dd else [])) ->
  (forall t, wr_pending t th' = wr_pending t th ++ (if t =? t0 then da else [])) ->
  (dd = [] \/ exists t rest, th_todo th = CRead t true :: rest) ->
  (da = [] \/ exists t e rest, th_todo th = CAppend t e :: rest /\ da = [e]) ->
  th_next t0 th th' da dd.
Proof.
  intros Hth Hhead th' Hd Hw Hdd Hda. destruct (gv_th Hinv tid th Hth) as (_ & Hs & Hh).
  constructor.
  - intros t Hne. apply (head_topic_mid_false th' t0 t Hhead Hne).
  - (* hist_ok looks at th_todo and th_done only *) exact (conj Hs Hh).
  - destruct Hdd as [->|(t & rest & Et)]; [now left|right]. exists t, true. split; [eapply head_in_prog; eauto|].
    unfold head_topic in Hhead. rewrite Et in Hhead. now inversion Hhead.
  - intros t. unfold del_seq, done_of. cbn [th' th_todo th_done]. now rewrite Hd, app_assoc.
  - intros t. unfold wr_seq, done_of. cbn [th' th_todo th_done]. now rewrite Hw, app_assoc.
  - destruct Hda as [->|(t & e & rest & Et & ->)]; constructor; [|constructor]. eapply own_head, head_in_prog; eauto.
Qed.

(* cstep's case SDoneC *)
Lemma th_ret th cl rest r :
  nth_error (cs_threads cs) tid = Some th -> th_todo th = cl :: rest -> res_ok cl r ->
  (forall t, del_hist t [cl] [r] = del_pending t th) -> (forall t, wr_hist t [cl] [r] = wr_pending t th) ->
  let th' := {| th_todo := rest; th_pc := PStart; th_done := r :: th_done th |} in
  th_next (t_id (call_topic cl)) th th' [] [] /\ forall cs', th_okP c cs' th'.
Proof.
  intros Hth Htodo Hres Hd Hw th'. destruct (gv_th Hinv tid th Hth) as (_ & A & B).
  rewrite Htodo in A. inversion A as [|x y _ A']; subst x y.
  pose proof (seq_ret _ th cl rest r B Htodo Hd Hw : forall t, del_seq t _ th' = _ /\ wr_seq t _ th' = _) as Hseq.
  split; [|intros cs'; apply th_okP_start; [reflexivity|exact A']].
  constructor.
  - intros t _. apply start_flags.
  - split; [exact A'|apply (hist_ok_ret _ th cl rest r Htodo Hres B)].
  - now left.
  - intros t. rewrite (proj1 (Hseq t)). now destruct (t =? _); rewrite app_nil_r.
  - intros t. rewrite (proj2 (Hseq t)). now destruct (t =? _); rewrite app_nil_r.
  - constructor.
Qed.

(* What a segment lemma concludes: the invariant holds, for some log, once the current call [cl] of
   thread tid (calls [rest] to follow, results [d] so far) has gone through a segment with outcome [res]. *)
Definition seg_ok (cl : call) (rest : list call) (d : list result) (res : segres) : Prop :=
  match res with
  | SPark sh' p' _ => exists L', GINV (lift W) c progs (upd cs sh' tid {| th_todo := cl :: rest; th_pc := p'; th_done := d |}) L'
  | SDoneC sh' r => exists L', GINV (lift W) c progs (upd cs sh' tid {| th_todo := rest; th_pc := PStart; th_done := r :: d |}) L'
  | SBlockedC => True
  end.

(* a segment of a read_next that does not return *)
Lemma G_rd sh' t ck rest p p' d l (f : tstate -> tstate) dd :
  nth_error (cs_threads cs) tid = Some (rthreadP t ck rest p d) ->
  let raw := rawts cs (t_id t) in
  only_ts (cs_sh cs) sh' (t_id t) (f raw) ->
  rd_fn c (nid_of cs) raw (mid cs (t_id t)) f dd ->
  hyd (f raw) ->
  let th' := rthreadP t ck rest p' d in
  let cs' := upd cs sh' tid th' in
  (forall t', del_pending t' th' = del_pending t' (rthreadP t ck rest p d) ++ (if t' =? t_id t then map out_of dd else [])) ->
  (dd = [] \/ ck = true) ->
  (hyd (rawts cs' (t_id t)) -> th_okP c cs' th') ->
  (ck = true -> win_pc p' = true -> W c (nid_of cs) (mid cs (t_id t)) (f raw) p') ->
  seg_ok (CRead t ck) rest d (SPark sh' p' l).
Proof.
  intros Hth raw (Sbf & Swl & Snid & Sraw & Soth) Hf Hhy th' cs' Hdp Hdd Hok' Hwin'.
  set (th := rthreadP t ck rest p d) in *. exists (log_add L (t_id t) tid dd).
  apply (G_step sh' th th' (t_id t) KCursor (nid_of cs) (mid cs (t_id t)) [] dd Hth eq_refl); try assumption.
  - (* tchg *) rewrite Sraw. apply tc_fn; [assumption|now right].
  - (* mid *) apply (mid_upd_same cs _ tid th th' (t_id t) Hth). reflexivity.
  - (* side *) exists t, ck, rest. reflexivity.
  - (* lock *) apply (lock_same cs _ tid th th' (gv_lock Hinv) Hth Swl); reflexivity.
  - (* th_next *) apply (th_go (t_id t) th p' [] dd Hth eq_refl Hdp); [intros t0; cbn; now destruct (t0 =? t_id t)| |now left].
    destruct Hdd as [->| ->]; [now left|right; now exists t, rest].
  - (* th_okP *) apply Hok'. unfold hyd, cs'. rewrite rawts_upd, Sraw. exact Hhy.
  - (* window *) unfold lift. cbn [th' th_todo th_pc rthreadP]. destruct ck; [|exact I].
    destruct (win_pc p') eqn:Ep; [|apply (wf_plain WF), Ep].
    rewrite rawts_upd, Sraw, (mid_upd_same cs sh' tid th th' (t_id t) Hth eq_refl), (Snid : nid_of (upd cs sh' tid th') = nid_of cs).
    now apply Hwin'.
Qed.

(* a call returns; on the way the entry count of its topic may have been updated *)
Lemma G_ret_count sh' cl rest p d r f :
  let th := {| th_todo := cl :: rest; th_pc := p; th_done := d |} in
  count_only f -> nth_error (cs_threads cs) tid = Some th ->
  res_ok cl r ->
  (forall t, th_mid t th = false) -> (forall t, th_holds t th = false) ->
  (forall t, del_hist t [cl] [r] = del_pending t th) -> (forall t, wr_hist t [cl] [r] = wr_pending t th) ->
  only_ts (cs_sh cs) sh' (t_id (call_topic cl)) (f (rawts cs (t_id (call_topic cl)))) ->
  seg_ok cl rest d (SDoneC sh' r).
Proof.
  intros th Hf Hth Hres Hm Hh Hd Hw (Sbf & Swl & Snid & Sraw & Soth).
  set (t0 := t_id (call_topic cl)) in *. exists (log_add L t0 tid []).
  destruct (th_ret th cl rest r Hth eq_refl Hres Hd Hw) as (Hnext & Hok).
  destruct (rd_fn_count c (nid_of cs) (rawts cs t0) (mid cs t0) f Hf (gv_ts Hinv t0)) as (Hfn & Hr).
  apply (G_step sh' th _ t0 KKeep (nid_of cs) (mid cs t0) [] [] Hth eq_refl); try assumption.
  - (* tchg *) rewrite Sraw. apply tc_fn; auto.
  - (* mid *) apply (mid_upd_same cs _ tid th _ t0 Hth). rewrite Hm. apply start_flags.
  - (* side *) exact I.
  - (* lock *) apply (lock_same cs _ tid th _ (gv_lock Hinv) Hth Swl). intros t. rewrite Hh. apply start_flags.
  - (* th_okP *) apply Hok.
  - (* window *) apply (lift_plain WF). reflexivity.
Qed.

Lemma plain_pending t ck rest p d : plain_pc p = true -> forall t', del_pending t' (rthreadP t ck rest p d) = [].
Proof. intros Hp t'. unfold del_pending. cbn. destruct ck; [|reflexivity]. destruct p; try discriminate; reflexivity. Qed.
Lemma plain_hyd t ck rest p d : nth_error (cs_threads cs) tid = Some (rthreadP t ck rest p d) ->
  plain_pc p = true -> hyd (rawts cs (t_id t)).
Proof. intros Hth Hp. pose proof (proj1 (gv_th Hinv tid _ Hth)) as H. destruct p; try discriminate Hp; exact H. Qed.

(* a read_next returns without having touched anything: nothing to deliver, or a peek *)
Lemma G_rd_noop t ck rest p d r :
  nth_error (cs_threads cs) tid = Some (rthreadP t ck rest p d) -> plain_pc p = true ->
  res_ok (CRead t ck) r -> (ck = true -> r = RNone) ->
  seg_ok (CRead t ck) rest d (SDoneC (cs_sh cs) r).
Proof.
  intros Hth Hpc Hr Hck.
  apply (G_ret_count _ (CRead t ck) rest p d r (fun x => x) count_only_id Hth Hr); try reflexivity; [|apply only_ts_refl].
  intros t'. rewrite (plain_pending t ck rest p d Hpc). destruct ck; [now rewrite Hck|now destruct r].
Qed.

(* the first locked section: hydration *)
Lemma G_hydrate m t ck rest d :
  nth_error (cs_threads cs) tid = Some (rthreadP t ck rest PStart d) ->
  seg_ok (CRead t ck) rest d (seg_read c m fx tid (cs_sh cs) t ck PStart).
Proof.
  intros Hth. cbn [seg_read]. set (ts := get_ts (sh_st (cs_sh cs)) (t_id t)).
  pose proof (gv_ts Hinv (t_id t)) as HE. pose proof (moved_hydrated c _ _ HE) as Hmv. rewrite <- (rn_hydrate_eq c _ _ HE), rn_hydrate_eff in Hmv.
  apply (G_rd _ t ck rest PStart PR_top d _ (fun x => with_reader x (rn_hydrate ts)) [] Hth (only_ts_upd _ _ _)); auto.
  - (* rd_fn *) apply rd_fn_reader, Hmv.
  - (* hyd *) apply Hmv.
  - (* pending *) intros t'. cbn. now destruct ck, (t' =? t_id t).
  - (* window *) discriminate.
Qed.

(* the loop top of read_next, entered from PR_top and, with the fix, from the two segments after the
   writer snapshot: an exhausted sealed block is stepped over; an entry of a sealed block is read (the
   consumer takes the first unread entry); behind the chain the tail position is snapshotted *)
Lemma G_rn_top m t ck rest p d :
  nth_error (cs_threads cs) tid = Some (rthreadP t ck rest p d) -> plain_pc p = true ->
  seg_ok (CRead t ck) rest d (rn_top c m (cs_sh cs) t ck).
Proof.
  intros Hth Hpc. unfold rn_top. fold (rawts cs (t_id t)). set (ts := rawts cs (t_id t)). set (r := reader_of ts).
  pose proof (plain_hyd t ck rest p d Hth Hpc) as Hhy. pose proof (plain_pending t ck rest p d Hpc) as Hpend.
  pose proof (gv_ts Hinv (t_id t)) as HE.
  destruct (nth_error (r_chain r) (r_idx r)) as [b|] eqn:Hnth.
  - destruct (b_used b <=? r_off r) eqn:Eex.
    + apply (G_rd _ t ck rest p PR_top d _ (fun x => with_reader x (set_cur r (S (r_idx r)) 0)) [] Hth (only_ts_upd _ _ _)); auto.
      * (* rd_fn *) apply rd_fn_reader, (moved_adv c (proj1 Hc) _ _ r b HE (reader_of_eff _ _) Hhy Hnth), N.leb_le, Eex.
      * (* pending *) intros t'. rewrite Hpend. cbn. now destruct ck, (t' =? t_id t).
      * (* window *) discriminate.
    + destruct (moved_sealed c (proj1 Hc) _ _ r b HE (reader_of_eff _ _) Hhy Hnth (proj1 (N.leb_gt _ _) Eex)) as (e & Hbr & Hmv).
      rewrite Hbr. destruct ck; [|apply (G_rd_noop t false rest p d (REntry (out_of e)) Hth Hpc I); discriminate].
      destruct (should_persist m _ false) as [r5 q] eqn:Esp. apply (moved_persisted Esp) in Hmv.
      apply (G_rd _ t true rest p _ d _ (fun x => with_reader x r5) [e] Hth (only_ts_upd _ _ _)); auto.
      * (* rd_fn *) apply rd_fn_reader, Hmv.
      * (* hyd *) apply Hmv.
      * (* pending *) intros t'. rewrite Hpend, N.eqb_sym. reflexivity.
      * (* th_okP *) intros Hy. split; [reflexivity|]. split; [exact Hy|eauto].
      * (* window *) discriminate.
  - apply (G_rd _ t ck rest p _ d _ (fun x => x) [] Hth (only_ts_refl _ _)); auto.
    + (* rd_fn *) apply rd_fn_id, HE.
    + (* pending *) intros t'. rewrite Hpend. cbn. now destruct ck, (t' =? t_id t).
    + (* window *) intros _ _. apply (wf_tail WF _ _ _ HE Hnth).
Qed.

(* the index write that follows a commit *)
Lemma G_idx m t rest d tl rr pp :
  nth_error (cs_threads cs) tid = Some (rthreadP t true rest (PR_commit tl rr (Some pp)) d) ->
  seg_ok (CRead t true) rest d (seg_read c m fx tid (cs_sh cs) t true (PR_commit tl rr (Some pp))).
Proof.
  intros Hth. cbn [seg_read].
  destruct (gv_th Hinv tid _ Hth) as ((_ & Hhy & Hro) & _).
  apply (G_rd _ t true rest _ (PR_idx rr) d _ (fun x => with_index x pp) [] Hth (only_ts_upd _ _ _)); auto.
  - (* rd_fn *) apply (rd_fn_index c _ _ _ (fun x => x)); [apply rd_fn_id, (gv_ts Hinv)|exact Hhy].
  - (* pending *) intros t'. cbn. destruct (t' =? t_id t); now rewrite app_nil_r.
  - (* th_okP *) intros Hy. split; [reflexivity|]. split; [exact Hy|exact Hro].
  - (* window *) discriminate.
Qed.

(* the count update that ends a consuming read_next *)
Lemma G_ret t rest p d rr :
  nth_error (cs_threads cs) tid = Some (rthreadP t true rest p d) ->
  (exists tl, p = PR_commit tl rr None) \/ p = PR_idx rr ->
  seg_ok (CRead t true) rest d (SDoneC (upd_ts (cs_sh cs) (t_id t) (count_sub (get_ts (sh_st (cs_sh cs)) (t_id t)) 1)) rr).
Proof.
  intros Hth Hpc.
  destruct (gv_th Hinv tid _ Hth) as (Hok & _).
  assert (Hro : exists o, rr = REntry o) by (destruct Hpc as [(tl & ->)| ->]; apply Hok).
  destruct Hro as (o & ->).
  apply (G_ret_count _ (CRead t true) rest p d (REntry o) (fun x => count_sub x 1) (count_only_sub 1) Hth I); try reflexivity; [|apply only_ts_upd].
  intros t'. cbn [del_hist]. rewrite app_nil_r. now destruct Hpc as [(tl & ->)| ->].
Qed.

(* the writer snapshot *)
Lemma G_wsnap m t ck rest d sb so :
  nth_error (cs_threads cs) tid = Some (rthreadP t ck rest (PR_t_snap sb so) d) ->
  seg_ok (CRead t ck) rest d (seg_read c m fx tid (cs_sh cs) t ck (PR_t_snap sb so)).
Proof.
  intros Hth. cbn [seg_read].
  destruct (ts_writer (get_ts (sh_st (cs_sh cs)) (t_id t))) as [w|] eqn:Hw0; [|apply (G_rd_noop t ck rest _ d RNone Hth eq_refl I); reflexivity].
  destruct (wl_holder (sh_wl (cs_sh cs)) (t_id t)) as [x|] eqn:Hfree; [exact I|].
  destruct (gv_th Hinv tid _ Hth) as (Hhy & _).
  apply (G_rd _ t ck rest _ _ d _ (fun x => x) [] Hth (only_ts_refl _ _)); auto.
  - (* rd_fn *) apply rd_fn_id, (gv_ts Hinv).
  - (* pending *) intros t'. cbn. now destruct ck, (t' =? t_id t).
  - (* window *) intros -> _.
    pose proof (mid_false_free cs (t_id t) (gv_lock Hinv) Hfree) as Hnm.
    pose proof (gv_win Hinv tid _ Hth) as Hw. unfold lift in Hw. cbn [th_todo th_pc rthreadP] in Hw. rewrite Hnm in Hw |- *.
    pose proof (gv_ts Hinv (t_id t)) as HE. rewrite (eff_nomid _ _ Hnm) in HE. exact (wf_wsnap WF _ _ sb so w HE Hw Hw0).
Qed.

(* after the writer snapshot: the offset to read from is fixed (how depends on the fix), and a
   provisional tail position may be persisted *)
Lemma G_init m t ck rest d sb so a :
  nth_error (cs_threads cs) tid = Some (rthreadP t ck rest (PR_t_wsnap sb so a) d) ->
  seg_ok (CRead t ck) rest d (seg_read c m fx tid (cs_sh cs) t ck (PR_t_wsnap sb so a)).
Proof.
  intros Hth. cbn [seg_read]. fold (rawts cs (t_id t)). set (ts := rawts cs (t_id t)). set (r := reader_of ts).
  destruct (fx && (r_idx r <? length (r_chain r))%nat); [apply (G_rn_top m t ck rest _ d Hth eq_refl)|].
  destruct (if fx then (r_tail_bid r, r_tail_off r) else (sb, so)) as [sb' so'] eqn:Esb.
  destruct (gv_th Hinv tid _ Hth) as (Hhy & _). cbn in Hhy. pose proof (gv_ts Hinv (t_id t)) as HE.
  (* whatever the segment makes of the topic state: ts, or ts with the new persist counter, the index written or not *)
  assert (Hgo : forall f, rd_fn c (nid_of cs) ts (mid cs (t_id t)) f [] -> rd_same ts (f ts) ->
            seg_ok (CRead t ck) rest d (SPark (upd_ts (cs_sh cs) (t_id t) (f ts)) (PR_t_init a (if sb' =? b_id a then so' else 0)) S_rn_t_init)).
  { intros f Hfn G1.
    apply (G_rd _ t ck rest _ _ d _ f [] Hth (only_ts_upd _ _ _) Hfn);
      [exact (rf_hyd _ _ _ _ _ _ Hfn Hhy)| |now left|auto|].
    - (* pending *) intros t'. cbn. now destruct ck, (t' =? t_id t).
    - (* window *) intros -> _. apply (wf_init WF _ _ ts (f ts) sb so a (gv_win Hinv tid _ Hth) G1 (rf_writer _ _ _ _ _ _ Hfn) sb' so' Esb). }
  destruct (ck && _ && _); [|apply (Hgo (fun x => x)); [apply rd_fn_id, HE|apply rd_same_refl]].
  destruct (should_persist m r true) as [r' q] eqn:Esp.
  pose proof (moved_persisted Esp (moved_same c _ _ r r HE (reader_of_eff _ _) ltac:(repeat split) Hhy)) as Hmv.
  pose proof (should_persist_fields m r true) as F. rewrite Esp in F.
  assert (G1 : rd_same ts (with_reader ts r')) by (unfold rd_same; cbn; tauto).
  destruct q; [apply (Hgo (fun x => persist (with_reader x r') true (b_id a) 0))|apply (Hgo (fun x => with_reader x r'))];
    try exact G1; [apply rd_fn_index; [|apply Hmv]|]; apply rd_fn_reader, Hmv.
Qed.

(* the read from the writer snapshot: the commit delivers the first unread entry *)
Lemma G_commit m t ck rest d a off :
  nth_error (cs_threads cs) tid = Some (rthreadP t ck rest (PR_t_init a off) d) ->
  seg_ok (CRead t ck) rest d (seg_read c m fx tid (cs_sh cs) t ck (PR_t_init a off)).
Proof.
  intros Hth. cbn [seg_read]. set (ts := get_ts (sh_st (cs_sh cs)) (t_id t)). set (r := reader_of ts).
  pose proof (fun r => G_rd_noop t ck rest _ d r Hth eq_refl) as Hnoop.
  destruct (off <? b_used a) eqn:Elt; [|now apply (Hnoop RNone)].
  destruct (block_read c a off) as [[e consumed]|] eqn:Hbr; [|now apply (Hnoop RNone)].
  destruct (fx && _) eqn:Eval; [apply (G_rn_top m t ck rest _ d Hth eq_refl)|].
  destruct ck; [|apply (Hnoop (REntry (out_of e)) I); discriminate].
  pose proof (gv_ts Hinv (t_id t)) as HE.
  destruct (wf_commit WF _ _ _ a off HE (gv_win Hinv tid _ Hth) (proj1 (N.ltb_lt _ _) Elt) Eval) as (W0 & Hsnap & W1 & W3).
  destruct (gv_th Hinv tid _ Hth) as (Hhy & _). cbn in Hhy.
  rewrite <- (eff_nomid cs (t_id t) W0) in Hsnap. destruct Hsnap as (w & suf & Hsome & Hid & Hpre & Hau).
  destruct (moved_snap c (proj1 Hc) _ _ r w a suf off HE (reader_of_eff _ _) Hhy W1 Hsome Hid Hpre Hau W3 (proj1 (N.ltb_lt _ _) Elt)) as (e' & Hbr' & Hmv).
  rewrite Hbr in Hbr'. inversion Hbr'; subst e' consumed.
  destruct (should_persist m _ false) as [r6 q] eqn:Esp. apply (moved_persisted Esp) in Hmv.
  apply (G_rd _ t true rest _ _ d _ (fun x => with_reader x r6) [e] Hth (only_ts_upd _ _ _)); auto.
  - (* rd_fn *) apply rd_fn_reader, Hmv.
  - (* hyd *) apply Hmv.
  - (* pending *) intros t'. cbn. now rewrite N.eqb_sym.
  - (* th_okP *) intros Hy. split; [reflexivity|]. split; [exact Hy|eauto].
  - (* window *) discriminate.
Qed.

Definition written (p : pc) : bool := match p with PA_written => true | _ => false end.

Lemma wr_pending_app t e rest p d t' :
  wr_pending t' (athread t e rest p d) = if written p then if t_id t =? t' then [e] else [] else [].
Proof. now destruct p. Qed.

(* an append goes from pc p to pc p'; on the way it has written its entry or nothing *)
Lemma G_app t e rest p p' d l sh' k nid' md' :
  nth_error (cs_threads cs) tid = Some (athread t e rest p d) ->
  let th := athread t e rest p d in
  let th' := athread t e rest p' d in
  let cs' := upd cs sh' tid th' in
  written p = false ->
  sh_bf sh' = sh_bf (cs_sh cs) ->
  (forall t', t' <> t_id t -> get_ts (sh_st sh') t' = get_ts (sh_st (cs_sh cs)) t') ->
  tchg c (nid_of cs) (rawts cs (t_id t)) (mid cs (t_id t)) k nid' (get_ts (sh_st sh') (t_id t)) md' (if written p' then [e] else []) [] ->
  nid_of cs' = nid' -> mid cs' (t_id t) = md' -> side k th (t_id t) ->
  lock_ok cs' -> th_okP c cs' th' ->
  seg_ok (CAppend t e) rest d (SPark sh' p' l).
Proof.
  intros Hth th th' cs' Hp Hbf Hoth Hch Hnid Hmd Hside Hlock Hok. exists (log_add L (t_id t) tid []).
  apply (G_step sh' th th' (t_id t) k nid' md' (if written p' then [e] else []) [] Hth eq_refl); try assumption.
  - (* th_next *) apply (th_go (t_id t) th p' (if written p' then [e] else []) [] Hth eq_refl).
    + intros t'. cbn. now destruct (t' =? t_id t).
    + intros t'. change (wr_pending t' th' = wr_pending t' th ++ (if t' =? t_id t then if written p' then [e] else [] else [])).
      unfold th, th'. rewrite !wr_pending_app, Hp, N.eqb_sym. now destruct (written p'), (t' =? t_id t).
    + now left.
    + destruct (written p'); [right; now exists t, e, rest|now left].
  - (* window *) exact I.
Qed.

(* get_or_create_writer (and the flag / argument checks): the thread parks at w_flag or returns an
   error; the error return also happens after a fresh writer block was installed *)
Lemma G_ensure t e rest d :
  nth_error (cs_threads cs) tid = Some (athread t e rest PStart d) ->
  seg_ok (CAppend t e) rest d (seg_append c tid (cs_sh cs) t e PStart).
Proof.
  intros Hth. cbn [seg_append]. set (th := athread t e rest PStart d) in *.
  destruct (ensure_tchg c (sh_st (cs_sh cs)) t (mid cs (t_id t)) Hc (gv_ts Hinv (t_id t))) as (s1 & w & k & -> & Hk & Hoth & Hch).
  rewrite (gv_bf Hinv). cbn [bf_mem existsb].
  assert (Hside : side k th (t_id t)) by (destruct Hk as [-> | ->]; exact I).
  destruct (appendable c t (e_len e)) as [kk|] eqn:Hap.
  - (* an error is returned *) destruct (th_ret th (CAppend t e) rest (RErr kk) Hth eq_refl I) as (Hnext & Hok); try reflexivity.
    exists (log_add L (t_id t) tid []).
    apply (G_step _ th _ (t_id t) k (a_next (s_alloc s1)) (mid cs (t_id t)) [] [] Hth eq_refl); try reflexivity; try assumption.
    + (* mid *) apply (mid_upd_same cs _ tid th _ (t_id t) Hth). apply start_flags.
    + (* lock *) apply (lock_same cs _ tid th _ (gv_lock Hinv) Hth eq_refl). intros t'. apply start_flags.
    + (* th_okP *) apply Hok.
    + (* window *) apply (lift_plain WF). reflexivity.
  - (* the thread parks at w_flag *) apply (G_app t e rest PStart PA_flag d _ _ k (a_next (s_alloc s1)) (mid cs (t_id t)) Hth); try reflexivity; try assumption.
    + (* mid *) apply (mid_upd_same cs _ tid th _ (t_id t) Hth). reflexivity.
    + (* lock *) apply (lock_same cs _ tid th _ (gv_lock Hinv) Hth); reflexivity.
Qed.

(* with the writer mutexes free, the entry goes into the current block if it fits; if not, the
   mutexes are taken and the seal comes next *)
Lemma G_write t e rest d :
  nth_error (cs_threads cs) tid = Some (athread t e rest PA_flag d) ->
  seg_ok (CAppend t e) rest d (seg_append c tid (cs_sh cs) t e PA_flag).
Proof.
  intros Hth. cbn [seg_append]. set (th := athread t e rest PA_flag d) in *.
  destruct (wl_holder (sh_wl (cs_sh cs)) (t_id t)) as [x|] eqn:Hfree; [exact I|].
  destruct (ts_writer (get_ts (sh_st (cs_sh cs)) (t_id t))) as [w|] eqn:Hw0;
    [|apply (G_ret_count _ (CAppend t e) rest _ d (RErr EOther) (fun x => x) count_only_id Hth I); try reflexivity; apply only_ts_refl].
  pose proof (sole_intro cs tid th (t_id t) (gv_lock Hinv) Hth (or_introl Hfree)) as Hs.
  destruct (b_limit w <? b_used w + need c e) eqn:Erot.
  - (* rotation: the mutexes are taken *) apply (G_app t e rest PA_flag (PA_seal_pre w) d _ _ KKeep (nid_of cs) (mid cs (t_id t)) Hth); try reflexivity.
    + (* tchg *) apply tchg_none, (gv_ts Hinv).
    + (* mid *) apply (mid_upd_same cs _ tid th _ (t_id t) Hth). reflexivity.
    + (* lock *) apply (lock_upd cs _ tid th _ (gv_lock Hinv) Hth); intros t'; rewrite wl_holder_take; destruct (N.eqb_spec (t_id t) t') as [<-|Hne]; try congruence.
      intros Hh. rewrite (head_topic_holds_false (athread t e rest (PA_seal_pre w) d) (t_id t) t' eq_refl) in Hh by congruence. discriminate.
    + (* th_okP *) split; [apply (gv_th Hinv tid th Hth)|exact Hw0].
  - (* the entry fits *) apply (G_app t e rest PA_flag PA_written d _ _ KAdd (nid_of cs) false Hth); try reflexivity.
    + (* other topics *) intros t' Hne. unfold write_entry. cbn [with_st sh_st]. rewrite get_set_other by exact Hne. apply get_ts_disk_write.
    + (* tchg *) unfold write_entry. cbn [with_st sh_st]. rewrite get_set_same, get_ts_disk_write.
      apply tc_add; [apply (mid_sole_now cs tid th _ Hth Hs)|exact Hw0|lia].
    + (* mid *) rewrite (mid_sole cs _ tid th _ _ Hth Hs). reflexivity.
    + (* side *) exact Hs.
    + (* lock *) apply (lock_same cs _ tid _ _ (gv_lock Hinv) Hth); reflexivity.
Qed.

(* the chain push *)
Lemma G_seal t e rest d w :
  nth_error (cs_threads cs) tid = Some (athread t e rest (PA_seal_pre w) d) -> SEAL cs (t_id t) ->
  seg_ok (CAppend t e) rest d (seg_append c tid (cs_sh cs) t e (PA_seal_pre w)).
Proof.
  intros Hth Hseal. cbn [seg_append].
  destruct (gv_th Hinv tid _ Hth) as ((Hap & Hw0) & _).
  pose proof (sole_intro cs tid _ (t_id t) (gv_lock Hinv) Hth (or_intror (N.eqb_refl _))) as Hs.
  apply (G_app t e rest (PA_seal_pre w) PA_seal_post d _ _ KSeal (nid_of cs) true Hth); try reflexivity.
  - (* other topics *) intros t' Hne. apply get_upd_ts_other, Hne.
  - (* tchg *) rewrite get_upd_ts_same. apply tc_seal; [|exact Hw0]. apply (mid_sole_now cs tid _ _ Hth Hs).
  - (* mid *) rewrite (mid_sole cs _ tid _ _ _ Hth Hs). apply N.eqb_refl.
  - (* side *) exact Hseal.
  - (* lock *) apply (lock_same cs _ tid _ _ (gv_lock Hinv) Hth); reflexivity.
  - (* th_okP *) exact Hap.
Qed.

(* the new block is allocated, the entry written into it, the mutexes released *)
Lemma G_new t e rest d :
  nth_error (cs_threads cs) tid = Some (athread t e rest PA_seal_post d) ->
  seg_ok (CAppend t e) rest d (seg_append c tid (cs_sh cs) t e PA_seal_post).
Proof.
  intros Hth. cbn [seg_append]. set (th := athread t e rest PA_seal_post d) in *.
  destruct (gv_th Hinv tid th Hth) as (Hok & _).
  pose proof Hc as (Hh0 & Hb0 & Hba & Hbm & Hme & Hhb).
  destruct (appendable_none_inv c t (e_len e) Hc Hok) as (Hname & Hsz). fold (need c e) in Hsz.
  destruct (alloc_sized_spec c (sh_st (cs_sh cs)) (need c e) Hb0 Hbm (need_pos c e Hh0) Hsz) as (s1 & nb & -> & Hsame & Hnext & Hfresh & Hlim).
  assert (Hhold : th_holds (t_id t) th = true) by apply N.eqb_refl.
  pose proof (sole_intro cs tid th (t_id t) (gv_lock Hinv) Hth (or_intror Hhold)) as Hs.
  apply (G_app t e rest PA_seal_post PA_written d _ _ KNew (nid_of cs + 1) false Hth); try reflexivity.
  - (* other topics *) intros t' Hne. unfold write_entry. cbn [wl_release with_st sh_st]. rewrite get_set_other by exact Hne. rewrite get_ts_disk_write. apply Hsame.
  - (* tchg *) unfold write_entry. cbn [wl_release with_st sh_st]. rewrite get_set_same, get_ts_disk_write, Hsame.
    apply tc_new; [|exact Hfresh|exact Hlim]. rewrite (mid_sole_now cs tid th _ Hth Hs). apply N.eqb_refl.
  - (* nid *) exact Hnext.
  - (* mid *) rewrite (mid_sole cs _ tid th _ _ Hth Hs). reflexivity.
  - (* side *) exact Hs.
  - (* lock *) apply (lock_upd cs _ tid th _ (gv_lock Hinv) Hth); intros t'; [discriminate|].
    intros i Hne Hi. rewrite wl_holder_release. destruct (N.eqb_spec (t_id t) t') as [<-|]; [|exact Hi].
    pose proof (proj1 (lock_ok_holder cs) (gv_lock Hinv) _ _ _ Hth Hhold). congruence.
Qed.

(* the count update after the write *)
Lemma G_count t e rest d :
  nth_error (cs_threads cs) tid = Some (athread t e rest PA_written d) ->
  seg_ok (CAppend t e) rest d (seg_append c tid (cs_sh cs) t e PA_written).
Proof.
  intros Hth.
  apply (G_ret_count _ (CAppend t e) rest _ d ROk (fun x => count_add x 1) (count_only_add 1) Hth I); try reflexivity; [|apply only_ts_upd].
  intros t'. cbn. apply app_nil_r.
Qed.

(* every step of model/Conc.v: the segment lemma of the pc at which the thread stands *)
Lemma G_cstep m be cs' l :
  cstep (env_of c m be) fx tid cs = OStep cs' l ->
  (forall t e rest w d, nth_error (cs_threads cs) tid = Some (athread t e rest (PA_seal_pre w) d) -> SEAL cs (t_id t)) ->
  exists L', GINV (lift W) c progs cs' L'.
Proof.
  intros Hstep Hseal.
  unfold cstep in Hstep. destruct (nth_error (cs_threads cs) tid) as [[[|cl rest] p d]|] eqn:Hth; try discriminate.
  cbn [th_todo th_pc th_done] in *.
  assert (H : seg_ok cl rest d (seg (env_of c m be) fx tid (cs_sh cs) cl p)).
  { destruct (gv_th Hinv tid _ Hth) as (Hok & Hsimple & _).
    inversion Hsimple as [|x y Hs1 _]; subst x y.
    (* The pattern and the bullets follow the constructors of [pc] in the order of model/Conc.v;
       [th_okP] (Hok) rules out the pcs of the other call. *)
    destruct p as [| |w| | | |b|b| | |tl r pers|r|sb so|sb so a|a off|w|r pers n|r n];
      destruct cl as [t e|t es|t ck|t mb ck]; try discriminate Hs1; cbn [seg env_of v_cfg v_mode];
      unfold th_okP in Hok; cbn [th_todo th_pc] in Hok; try contradiction.
    - (* PStart, append *) apply G_ensure, Hth.
    - (* PStart, read_next *) apply G_hydrate, Hth.
    - (* PA_flag *) apply G_write, Hth.
    - (* PA_seal_pre *) apply G_seal; [exact Hth|apply (Hseal t e rest w d eq_refl)].
    - (* PA_seal_post *) apply G_new, Hth.
    - (* PA_written *) apply G_count, Hth.
    - (* PR_top *) apply (G_rn_top m t ck rest _ d Hth eq_refl).
    - (* PR_commit *) destruct Hok as (-> & _). destruct pers as [pp|]; [apply G_idx, Hth|]. apply (G_ret t rest _ d r Hth). left. now exists tl.
    - (* PR_idx *) destruct Hok as (-> & _). apply (G_ret t rest _ d r Hth). now right.
    - (* PR_t_snap *) apply G_wsnap, Hth.
    - (* PR_t_wsnap *) apply G_init, Hth.
    - (* PR_t_init *) apply G_commit, Hth. }
  destruct (seg _ fx tid (cs_sh cs) cl p); inversion Hstep; subst cs' l; exact H.
Qed.

End Segments.

Lemma winF_frames c progs : win_frames winF_at (fun _ _ => True) true c progs.
Proof.
  constructor.
  - (* wf_plain *) intros nid md raw p Hp. destruct p; try discriminate; exact I.
  - (* wf_nid *) intros nid nid' md raw p Hn H. destruct p; auto; exact (J_same c nid nid' md raw raw _ eq_refl eq_refl Hn H).
  - (* wf_others *) intros cs tid th t0 j thj k nid' raw' md' da dd HE _ _ _ _ _ _ Hch _ _ H.
    destruct (th_pc thj); auto; exact (J_tchg _ HE Hch H).
  - (* wf_tail *) intros; exact I.
  - (* wf_wsnap *) intros nid raw sb so w X _ Hw0. unfold winF_at.
    pose proof (proj1 (writer_bwf c _ _ w X Hw0)) as Hbw. pose proof (proj2 (writer_ok c _ _ w X Hw0)) as Hid.
    split; [exact Hbw|]. split; [apply Hid|]. split.
    + intros w' Hw'. rewrite Hw0 in Hw'. inversion Hw'. apply N.le_refl.
    + left. split; [reflexivity|apply (snap_ok_writer c nid raw w X Hw0)].
  - (* wf_init *) intros nid md raw raw' sb so a H (_ & G2 & _) G6 sb' so' _. exact (J_same c nid nid md raw raw' a G2 G6 (N.le_refl _) H).
  - (* wf_commit: of the three disjuncts of J the fix's checks leave "still a prefix": off < b_used a excludes the empty
       snapshot, sealed_since = false the sealed one; the third check gives the tail position *)
    intros nid md raw a off HE Hwin r Hlt Hval. cbn [andb] in Hval. unfold winF_at in Hwin.
    apply orb_false_iff in Hval. destruct Hval as (Hval & V3). apply orb_false_iff in Hval. destruct Hval as (V1 & V2).
    destruct Hwin as (Ju & Jid & Jle & [(-> & Hsnap)|[Jz|Js]]); [|exfalso; lia|fold r in Js; congruence].
    pose proof (tp_idx _ _ _ HE) as Hidx. unfold effst, chain_of in Hidx. fold r in Hidx.
    split; [reflexivity|]. split; [exact Hsnap|]. split; [lia|]. apply negb_false_iff, N.eqb_eq in V3. now rewrite V3.
Qed.

Lemma win_ok_at_frame c nid nid' md md' raw raw' p : win_ok_at c nid md raw p -> rd_same raw raw' ->
  (md = false -> forall a, snap_ok c raw a -> snap_ok c raw' a) -> (md = false -> md' = false) -> win_ok_at c nid' md' raw' p.
Proof.
  unfold win_ok_at. intros H (R1 & R2 & R3 & R4) Hs Hm. cbn zeta in *. rewrite R1, R2, R3, R4.
  destruct p; auto; [destruct H as (A & B & C0 & D & E)|destruct H as (A & B & E & D)]; auto 8.
Qed.

Lemma quiet_windows c progs cs tid th th' t0 raw' :
  INV c progs cs -> nth_error (cs_threads cs) tid = Some th -> head_topic th = Some t0 ->
  (forall t, th_mid t th' = th_mid t th) ->
  rd_same (rawts cs t0) raw' ->
  (forall a, snap_ok c (rawts cs t0) a -> snap_ok c raw' a) ->
  forall j thj, j <> tid -> nth_error (cs_threads cs) j = Some thj ->
    win_ok c (upd cs (upd_ts (cs_sh cs) t0 raw') tid th') thj.
Proof.
  intros Hinv Hth Hhead Hmid Hrd Hsnap j thj Hne Hj. pose proof (iv_win _ _ _ Hinv j thj Hj) as Hw.
  rewrite win_ok_lift in Hw |- *. unfold lift in *.
  destruct (th_todo thj) as [|[| |t [|]|] ?]; auto. rewrite rawts_upd, (mid_upd_same cs _ tid th th' _ Hth (Hmid _)).
  destruct (N.eq_dec (t_id t) t0) as [E|Hn]; [rewrite E in *; rewrite get_upd_ts_same|rewrite get_upd_ts_other by exact Hn; exact Hw].
  apply (win_ok_at_frame c _ _ _ _ _ _ _ Hw Hrd); auto.
Qed.

(* what a step that neither moves the cursor nor seals keeps of a window of the single consumer *)
Lemma win_tchg {c nid raw md k nid' raw' md' da dd} : tchg c nid raw md k nid' raw' md' da dd ->
  k <> KCursor -> k <> KSeal ->
  rd_same raw raw' /\ (md = false -> forall a, snap_ok c raw a -> snap_ok c raw' a) /\ (md = false -> md' = false).
Proof.
  intros [k0 f dd0 [_ _ _ _ _ Hw _] [(_ & Hr)| ->]|nb Hnone _|w e -> Hw _|w _ _|nb e -> _ _] H1 H2; try congruence.
  - unfold rd_same, snap_ok. rewrite Hr, Hw. repeat split; auto.
  - split; [repeat split|]. split; [|auto]. intros _ a (w0 & suf & A & _). congruence.
  - split; [repeat split|]. split; [|auto]. intros _ a. apply (snap_ok_add c raw w e a Hw).
  - split; [repeat split|]. split; discriminate.
Qed.

(* win_ok survives every step of a run with one consumer per topic in which no block is sealed
   inside a read window *)
Lemma win_ok_frames c progs : single_consumer progs -> win_frames win_ok_at no_read_window false c progs.
Proof.
  intros SC. constructor.
  - (* wf_plain *) intros nid md raw p Hp. destruct p; try discriminate; exact I.
  - (* wf_nid *) intros nid nid' md raw p _ H. exact H.
  - (* wf_others *) intros cs tid th t0 j thj k nid' raw' md' da dd _ Hhead Hh1 Hne Hj Hh2 Hin Hch Hrd Hseal H.
    destruct k; try (destruct (win_tchg Hch) as (A & B & C0); try discriminate;
                     exact (win_ok_at_frame c _ nid' _ _ _ _ _ H A B C0)); exfalso.
    + (* the cursor moves: thread j reads this topic too, against the single consumer *)
      destruct (Hrd eq_refl) as (t & ck & rest & Et). apply Hne.
      unfold head_topic in Hhead. rewrite Et in Hhead. inversion Hhead as [Ht0].
      unfold in_read_window in Hin. destruct (th_todo thj) as [|[| |t1 [|]|] rest1] eqn:Etj; try discriminate.
      apply andb_prop, proj1, N.eqb_eq in Hin.
      apply (SC t0 j tid); [exists t1, true|exists t, ck]; (split; [eapply head_in_prog; eauto|congruence]).
    + (* a seal: no thread is inside a window on t0 *)
      pose proof (existsb_false_in _ _ _ (Hseal eq_refl) (nth_error_In _ _ Hj)) as Hnw. cbn beta in Hnw. congruence.
  - (* wf_tail *) intros nid md raw HE r Hnone. split; [|split; reflexivity]. fold r.
    pose proof (tp_idx _ _ _ HE) as Hidx. unfold chain_of in Hidx. rewrite reader_effst in Hidx. fold r in Hidx.
    apply nth_error_None in Hnone. lia.
  - (* wf_wsnap *) intros nid raw sb so w X (W1 & W2 & W3) Hw0. split; [reflexivity|]. fold (reader_of raw). split; [exact W1|]. split; [exact W2|]. split; [exact W3|].
    apply (snap_ok_writer c nid raw w X Hw0).
  - (* wf_init *) intros nid md raw raw' sb so a (W0 & W1 & W2 & W3 & (w & suf & A & B)) (G1 & G2 & G3 & G4) G6 sb' so' [= <- <-]. cbv beta iota zeta delta [win_ok_at]. rewrite G1, G2, G3, G4.
    split; [exact W0|]. split; [exact W1|]. split; [exists w, suf; rewrite G6; auto|]. now rewrite W2, W3.
  - (* wf_commit *) intros nid md raw a off _ (W0 & W1 & Hsnap & W3) r _ _. auto.
Qed.
