(* EngineWF.v — what the engine proofs share below every invariant: the list facts of ListP.v, exported
   from here, subsequences ([subseq]) and association lists; the side conditions on a configuration,
   [cfg_ok]; and the list-level lemmas about entry tiling: offsets that are entry boundaries ([okoff]),
   what the header view / the parser sees there, and how they move. *)
From W Require Import model.Base model.Engine.
From W Require Export proofs.ListP.
(* the Zify instances loaded here serve [lia] on N, nat and bool in every file that imports this one *)
From Coq Require Import ZArith ZifyBool ZifyN ZifyNat.

Inductive subseq {A} : list A -> list A -> Prop :=
| sub_nil l : subseq [] l
| sub_cons x a b : subseq a b -> subseq (x :: a) (x :: b)
| sub_skip x a b : subseq a b -> subseq a (x :: b).

Lemma subseq_refl {A} (l : list A) : subseq l l.
Proof. induction l; constructor; auto. Qed.

Lemma subseq_firstn {A} k (l : list A) : subseq (firstn k l) l.
Proof. revert l; induction k as [|k IH]; intros l; [constructor|]. destruct l; cbn; constructor; auto. Qed.

Lemma subseq_trans {A} (a b c : list A) : subseq a b -> subseq b c -> subseq a c.
Proof.
  intros H1 H2. revert a H1. induction H2; intros a' H1.
  - inversion H1. constructor.
  - inversion H1; subst; [constructor|constructor; auto|constructor; auto].
  - constructor. auto.
Qed.

Lemma subseq_tail {A} (x : A) a b : subseq (x :: a) b -> subseq a b.
Proof. apply subseq_trans, sub_skip, subseq_refl. Qed.

Lemma subseq_app {A} (a1 a2 b1 b2 : list A) : subseq a1 a2 -> subseq b1 b2 -> subseq (a1 ++ b1) (a2 ++ b2).
Proof.
  intros Ha Hb. induction Ha as [l|x l1 l2 H IH|x l1 l2 H IH]; cbn.
  - induction l; cbn; [exact Hb|now apply sub_skip].
  - now apply sub_cons.
  - now apply sub_skip.
Qed.

Lemma subseq_app_l {A} (a b : list A) : subseq a (a ++ b).
Proof. induction a; cbn; constructor; auto. Qed.

Lemma subseq_app_r {A} (a b : list A) : subseq b (a ++ b).
Proof. induction a; cbn; [apply subseq_refl|now apply sub_skip]. Qed.

Lemma subseq_filter_self {A} (f : A -> bool) l : subseq (filter f l) l.
Proof. induction l as [|x l IH]; cbn; [constructor|]. destruct (f x); constructor; auto. Qed.

Lemma subseq_map {A B} (f : A -> B) a b : subseq a b -> subseq (map f a) (map f b).
Proof. induction 1; cbn; constructor; auto. Qed.

Lemma subseq_filter {A} (f : A -> bool) a b : subseq a b -> subseq (filter f a) (filter f b).
Proof. induction 1; cbn; [constructor| |]; destruct (f x); try constructor; auto. Qed.

Lemma subseq_In {A} (a b : list A) x : subseq a b -> In x a -> In x b.
Proof. induction 1 as [l|y a b Hs IH|y a b Hs IH]; cbn; intros Hin; [destruct Hin|destruct Hin; auto|auto]. Qed.

Lemma subseq_NoDup {A} (a b : list A) : subseq a b -> NoDup b -> NoDup a.
Proof.
  induction 1 as [l|x a b Hs IH|x a b Hs IH]; intros Hn; [constructor| |]; apply NoDup_cons_iff in Hn; destruct Hn as (Hx & Hn); auto.
  constructor; auto. intros Hin. apply Hx. eapply subseq_In; eauto.
Qed.

(* the topic table of the state, the ledgers of the spec and of the AtLeastOnce acceptor are all
   [find (fun p => fst p =? k)] over [set_assoc] *)
Lemma find_set_assoc_same {A} k (v : A) l : find (fun p => fst p =? k) (set_assoc k v l) = Some (k, v).
Proof.
  induction l as [|[k' v'] l IH]; cbn [set_assoc].
  - cbn. now rewrite N.eqb_refl.
  - destruct (k' =? k) eqn:E; cbn [find fst]; [now rewrite N.eqb_refl|]. now rewrite E.
Qed.

Lemma find_set_assoc_other {A} k k0 (v : A) l : k0 <> k ->
  find (fun p => fst p =? k0) (set_assoc k v l) = find (fun p => fst p =? k0) l.
Proof.
  intros Hne. induction l as [|[k' v'] l IH]; cbn [set_assoc].
  - cbn. now replace (k =? k0) with false by lia.
  - destruct (k' =? k) eqn:E; cbn [find fst].
    + replace (k =? k0) with false by lia. now replace (k' =? k0) with false by lia.
    + now rewrite IH.
Qed.

Lemma in_fst_set_assoc {A} k k0 (v : A) l : In k0 (map fst (set_assoc k v l)) <-> k0 = k \/ In k0 (map fst l).
Proof.
  induction l as [|[k' v'] l IH]; cbn [set_assoc]; [cbn; intuition|].
  destruct (k' =? k) eqn:E; cbn [map fst In].
  - apply N.eqb_eq in E. subst k'. intuition.
  - rewrite IH. intuition.
Qed.

Lemma find_map_key {A} (F : N * A -> N * A) (t : N) : (forall p, fst (F p) = fst p) ->
  forall l, find (fun p => fst p =? t) (map F l) = option_map F (find (fun p => fst p =? t) l).
Proof.
  intros HF. induction l as [|p l IH]; cbn [map find option_map]; [reflexivity|].
  rewrite HF. destruct (fst p =? t); [reflexivity|exact IH].
Qed.

(* The side conditions of every engine theorem; props/C01.v shows them for the two geometries the code is
   built with.  In order: an entry has positive size, so boundaries of a tiling are distinct; rounding a request
   up to units divides by the unit; the one-unit block every rotation of a batch asks for at least is allocatable;
   a rounded-up request is at most c_max_alloc + c_block, so block limits stay below 2^64 ([bwf]); a batch read
   with anything unread returns something; a header fits a unit.  [c_bpf], [c_max_bytes], [c_small] and the
   overflow flag are not constrained. *)
Definition cfg_ok (c : Cfg) : Prop :=
  0 < c_hdr c /\ 0 < c_block c /\ c_block c <= c_max_alloc c /\
  c_max_alloc c + c_block c <= u64_max /\ 1 <= c_max_entries c /\ c_hdr c <= c_block c.

Lemma need_pos c e : 0 < c_hdr c -> 0 < need c e.
Proof. unfold need. lia. Qed.

Lemma sum_need_app c a b : sum_need c (a ++ b) = sum_need c a + sum_need c b.
Proof. induction a as [|x a IH]; cbn [app sum_need]; [lia|]. rewrite IH. lia. Qed.

(* [off] is an entry boundary of the tiling [es] (the end counts as one) *)
Definition okoff (c : Cfg) (es : list entry) (off : N) : Prop :=
  off + sum_need c (ents_from c es off) = sum_need c es.

Lemma okoff_0 c es : okoff c es 0.
Proof. unfold okoff. destruct es; cbn [ents_from]; [reflexivity|]. rewrite N.eqb_refl. lia. Qed.

Lemma ents_from_0 c es : ents_from c es 0 = es.
Proof. destruct es; cbn [ents_from]; [reflexivity|]. now rewrite N.eqb_refl. Qed.

Lemma okoff_le c es off : okoff c es off -> off <= sum_need c es.
Proof. unfold okoff. lia. Qed.

(* whatever [off] is, what stands from it on is a rear part of the tiling (empty, if [off] is no boundary) *)
Lemma ents_from_suffix c : forall es off, exists k, (k <= length es)%nat /\ ents_from c es off = skipn k es.
Proof.
  induction es as [|e r IH]; intros off; [exists 0%nat; split; [apply Nat.le_refl|reflexivity]|]. cbn [ents_from].
  destruct (off =? 0); [exists 0%nat; split; [apply Nat.le_0_l|reflexivity]|].
  destruct (off <? need c e).
  - exists (S (length r)). split; [apply Nat.le_refl|]. symmetry. apply (skipn_all (e :: r)).
  - destruct (IH (off - need c e)) as (k & Hkl & Hk). exists (S k). split; [exact (le_n_S _ _ Hkl)|exact Hk].
Qed.

Lemma ents_from_view_eq c : forall es off,
  ents_from c es off = match view_at c es off with HEntry e r => e :: r | _ => [] end.
Proof.
  induction es as [|x es IH]; intros off; cbn [ents_from view_at]; [reflexivity|].
  destruct (off =? 0); [reflexivity|]. destruct (off <? need c x); [reflexivity|apply IH].
Qed.

Lemma ents_from_view c : forall es off e r,
  ents_from c es off = e :: r -> view_at c es off = HEntry e r.
Proof. intros es off e r. rewrite ents_from_view_eq. destruct (view_at c es off); congruence. Qed.

Lemma ents_from_nil_view c : forall es off,
  ents_from c es off = [] -> forall e r, view_at c es off <> HEntry e r.
Proof. intros es off H e r E. rewrite ents_from_view_eq, E in H. discriminate. Qed.

Lemma ents_from_step c : 0 < c_hdr c -> forall es off e r,
  ents_from c es off = e :: r -> ents_from c es (off + need c e) = r.
Proof.
  intros Hh. induction es as [|x es IH]; intros off e r H; cbn [ents_from] in *; [discriminate|].
  pose proof (need_pos c e Hh) as Hne. pose proof (need_pos c x Hh) as Hnx.
  destruct (off =? 0) eqn:E0.
  - inversion H; subst. assert (off = 0) by lia; subst off.
    replace (0 + need c e =? 0) with false by lia.
    replace (0 + need c e <? need c e) with false by lia.
    replace (0 + need c e - need c e) with 0 by lia. apply ents_from_0.
  - destruct (off <? need c x) eqn:E1; [discriminate|].
    replace (off + need c e =? 0) with false by lia.
    replace (off + need c e <? need c x) with false by lia.
    replace (off + need c e - need c x) with (off - need c x + need c e) by lia.
    now apply IH.
Qed.

Lemma okoff_step c : 0 < c_hdr c -> forall es off e r,
  okoff c es off -> ents_from c es off = e :: r -> okoff c es (off + need c e).
Proof.
  intros Hh es off e r Ho He. unfold okoff in *.
  rewrite (ents_from_step c Hh _ _ _ _ He). rewrite He in Ho. cbn [sum_need] in Ho. lia.
Qed.

Lemma ents_from_end c : 0 < c_hdr c -> forall es off, sum_need c es <= off -> ents_from c es off = [].
Proof.
  intros Hh. induction es as [|x es IH]; intros off H; cbn [ents_from sum_need] in *; [reflexivity|].
  pose proof (need_pos c x Hh).
  replace (off =? 0) with false by lia. replace (off <? need c x) with false by lia.
  apply IH. lia.
Qed.

Lemma okoff_nonempty c es off : okoff c es off -> off < sum_need c es -> ents_from c es off <> [].
Proof. unfold okoff. intros Ho Hlt E. rewrite E in Ho. cbn in Ho. lia. Qed.

Lemma ents_from_app c : 0 < c_hdr c -> forall es es' off,
  okoff c es off -> ents_from c (es ++ es') off = ents_from c es off ++ es'.
Proof.
  intros Hh. induction es as [|x es IH]; intros es' off Ho.
  - unfold okoff in Ho. cbn in Ho. assert (off = 0) by lia. subst. cbn. apply ents_from_0.
  - cbn [app ents_from]. unfold okoff in Ho. cbn [ents_from sum_need] in Ho.
    destruct (off =? 0) eqn:E0; [reflexivity|].
    destruct (off <? need c x) eqn:E1.
    + cbn in Ho. pose proof (need_pos c x Hh). lia.
    + apply IH. unfold okoff. lia.
Qed.

Lemma okoff_app c : 0 < c_hdr c -> forall es es' off, okoff c es off -> okoff c (es ++ es') off.
Proof.
  intros Hh es es' off Ho. unfold okoff. rewrite (ents_from_app c Hh _ _ _ Ho).
  rewrite !sum_need_app. unfold okoff in Ho. lia.
Qed.

Lemma okoff_prefix c (Hh : 0 < c_hdr c) : forall a suf off,
  okoff c (a ++ suf) off -> off <= sum_need c a -> okoff c a off.
Proof.
  induction a as [|x a IH]; intros suf off Ho Hle.
  - cbn [sum_need] in Hle. assert (off = 0) by lia. subst. apply okoff_0.
  - unfold okoff in *. cbn [app ents_from sum_need] in *.
    destruct (off =? 0) eqn:E0; [cbn [sum_need]; lia|].
    destruct (off <? need c x) eqn:E1.
    + cbn [sum_need] in Ho. pose proof (need_pos c x Hh). lia.
    + assert (H1 : okoff c a (off - need c x)) by (apply (IH suf); [unfold okoff; lia|lia]).
      unfold okoff in H1. lia.
Qed.

Lemma entry_at c (Hh : 0 < c_hdr c) es off : okoff c es off -> off < sum_need c es ->
  exists e re, ents_from c es off = e :: re /\ view_at c es off = HEntry e re /\ okoff c es (off + need c e).
Proof.
  intros Ho Hlt. destruct (ents_from c es off) as [|e re] eqn:E; [destruct (okoff_nonempty _ _ _ Ho Hlt E)|].
  exists e, re. split; [reflexivity|]. split; [exact (ents_from_view c _ _ _ _ E)|exact (okoff_step c Hh _ _ _ _ Ho E)].
Qed.

Lemma okoff_end c es : okoff c es (sum_need c es) -> True. Proof. trivial. Qed.

Lemma okoff_total c : 0 < c_hdr c -> forall es, okoff c es (sum_need c es).
Proof. intros Hh es. unfold okoff. rewrite (ents_from_end c Hh) by lia. cbn. lia. Qed.

Lemma okoff_ge_end c es off : okoff c es off -> sum_need c es <= off -> off = sum_need c es.
Proof. intros Ho H. pose proof (okoff_le _ _ _ Ho). lia. Qed.

Lemma sum_need_ge_len c : forall es, N.of_nat (length es) * c_hdr c <= sum_need c es.
Proof. induction es as [|x es IH]; cbn [length sum_need]; [lia|]. unfold need. lia. Qed.
