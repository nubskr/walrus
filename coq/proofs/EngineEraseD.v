(* EngineEraseD.v — the simulation behind the erasure theorem.  No operation's result depends on
   the reader's hydration flag or on where the cursor stands among exhausted blocks
   ([cur_norm]), and a non-consuming read changes nothing else ([peek_ssimD]).  The reader's tail
   fields may even DIFFER on the two sides when both are "dead", i.e. name a block id that is
   neither the current writer block's id nor an id the allocator can still hand out: the tail
   fields are only ever compared against the current writer block (or the block being filled
   by a batch plan: the old writer or a freshly allocated one), so dead tails behave alike.
   Restarts produce such pairs (EngineEraseR.v). *)
From W Require Import model.Base model.Engine proofs.EngineBasic proofs.EngineInv proofs.EngineWF
  proofs.EngineW proofs.EngineMain proofs.EngineNorm proofs.EngineErase.

Definition dead (nid : N) (wo : option blk) (tb : N) : Prop :=
  tb < nid /\ forall w, wo = Some w -> b_id w <> tb.

Record rsimD (nid : N) (wo : option blk) (r r' : reader) : Prop := {
  rd_chain : r_chain r' = r_chain r;
  rd_tail  : (r_tail_bid r' = r_tail_bid r /\ r_tail_off r' = r_tail_off r) \/
             (dead nid wo (r_tail_bid r) /\ dead nid wo (r_tail_bid r'));
  rd_since : r_since r' = r_since r;
  rd_norm  : cur_norm (r_chain r') (r_idx r') (r_off r') = cur_norm (r_chain r) (r_idx r) (r_off r) }.

Record tsimD (nid : N) (ts ts' : tstate) : Prop := {
  td_writer : ts_writer ts' = ts_writer ts;
  td_poison : ts_poisoned ts' = ts_poisoned ts;
  td_count  : ts_count ts' = ts_count ts;
  td_index  : ts_index ts' = ts_index ts;
  td_unm    : ts_unmodelled ts' = ts_unmodelled ts;
  td_reader : rsimD nid (ts_writer ts) (reader_of ts) (reader_of ts') }.

Definition ssimD (s s' : st) : Prop :=
  s_alloc s' = s_alloc s /\ s_disk s' = s_disk s /\ s_files s' = s_files s /\
  forall t, tsimD (a_next (s_alloc s)) (get_ts s t) (get_ts s' t).

(* the same under the id bound [nid] of an operation's start, which the allocator has reached: inside the
   operation the allocator moves on while the dead ids are still those of the start *)
Definition ssimG (nid : N) (s s' : st) : Prop :=
  nid <= a_next (s_alloc s) /\ s_alloc s' = s_alloc s /\ s_disk s' = s_disk s /\ s_files s' = s_files s /\
  forall t, tsimD nid (get_ts s t) (get_ts s' t).

Lemma dead_neqb nid wo tb w : dead nid wo tb -> wo = Some w -> (tb =? b_id w) = false.
Proof. intros [_ H] E. apply N.eqb_neq. intros Heq. exact (H w E (eq_sym Heq)). Qed.

Lemma writer_not_dead nid w : ~ dead nid (Some w) (b_id w).
Proof. intros [_ D]. exact (D w eq_refl eq_refl). Qed.

(* the relation only grows when more ids are dead *)
Lemma rsimD_change nid nid' wo wo' r r' : rsimD nid wo r r' -> (forall tb, dead nid wo tb -> dead nid' wo' tb) ->
  rsimD nid' wo' r r'.
Proof.
  intros [A1 A2 A3 A4] H. constructor; auto. destruct A2 as [E|[D1 D2]]; [left; exact E|right; split; apply H; assumption].
Qed.

Lemma tsimD_mono nid nid' ts ts' : tsimD nid ts ts' -> nid <= nid' -> tsimD nid' ts ts'.
Proof.
  intros [A1 A2 A3 A4 A5 A6] Hle. constructor; auto. apply (rsimD_change _ _ _ _ _ _ A6). intros tb [L D]. split; [lia|exact D].
Qed.

Lemma ssimD_G s s' : ssimD s s' -> ssimG (a_next (s_alloc s)) s s'.
Proof. exact (conj (N.le_refl _)). Qed.

Lemma ssimG_D nid s s' : ssimG nid s s' -> ssimD s s'.
Proof.
  intros (Hn & A1 & A2 & A3 & A4). repeat (split; [assumption|]). intros t0. exact (tsimD_mono _ _ _ _ (A4 t0) Hn).
Qed.

Lemma rsimD_refl nid wo r : rsimD nid wo r r. Proof. constructor; auto. Qed.
Lemma tsimD_refl nid ts : tsimD nid ts ts. Proof. constructor; auto. apply rsimD_refl. Qed.
Lemma ssimD_refl s : ssimD s s.
Proof. split; [reflexivity|]. split; [reflexivity|]. split; [reflexivity|]. intros t. apply tsimD_refl. Qed.

Lemma rsimD_sym nid wo a b : rsimD nid wo a b -> rsimD nid wo b a.
Proof.
  intros [A1 A2 A3 A4]. constructor; try congruence.
  destruct A2 as [[E1 E2]|[D1 D2]]; [left; split; congruence|right; split; assumption].
Qed.
Lemma tsimD_sym nid a b : tsimD nid a b -> tsimD nid b a.
Proof. intros [A1 A2 A3 A4 A5 A6]. constructor; try congruence. rewrite A1. now apply rsimD_sym. Qed.
Lemma ssimD_sym s s' : ssimD s s' -> ssimD s' s.
Proof.
  intros (A1 & A2 & A3 & A4). split; [congruence|]. split; [congruence|]. split; [congruence|].
  intros t0. rewrite A1. apply tsimD_sym, A4.
Qed.

Lemma rsimD_trans nid wo a b c : rsimD nid wo a b -> rsimD nid wo b c -> rsimD nid wo a c.
Proof.
  intros [A1 A2 A3 A4] [B1 B2 B3 B4]. constructor; try congruence.
  destruct A2 as [[E1 E2]|[D1 D2]], B2 as [[F1 F2]|[G1 G2]].
  - left; split; congruence.
  - right. split; [now rewrite <- E1|exact G2].
  - right. split; [exact D1|now rewrite F1].
  - right. split; assumption.
Qed.
Lemma tsimD_trans nid a b c : tsimD nid a b -> tsimD nid b c -> tsimD nid a c.
Proof.
  intros [A1 A2 A3 A4 A5 A6] [B1 B2 B3 B4 B5 B6]. constructor; try congruence.
  rewrite A1 in B6. eapply rsimD_trans; eauto.
Qed.
Lemma ssimD_trans s1 s2 s3 : ssimD s1 s2 -> ssimD s2 s3 -> ssimD s1 s3.
Proof.
  intros (A1 & A2 & A3 & A4) (B1 & B2 & B3 & B4). split; [congruence|]. split; [congruence|]. split; [congruence|].
  intros t0. rewrite A1 in B4. eapply tsimD_trans; eauto.
Qed.

Lemma ssimG_set nid s s' t ts ts' : ssimG nid s s' -> tsimD nid ts ts' -> ssimG nid (set_ts s t ts) (set_ts s' t ts').
Proof.
  intros (A0 & A1 & A2 & A3 & A4) Ht. repeat (split; [assumption|]).
  intros t0. destruct (N.eq_dec t0 t) as [->|Hne]; [now rewrite !get_set_same|]. rewrite !get_set_other by exact Hne. apply A4.
Qed.
Lemma ssimG_get nid s s' t : ssimG nid s s' -> tsimD nid (get_ts s t) (get_ts s' t).
Proof. intros (_ & _ & _ & _ & H). apply H. Qed.

Lemma set_cur_rsimD nid wo r r' i o : rsimD nid wo r r' -> rsimD nid wo (set_cur r i o) (set_cur r' i o).
Proof. intros [A1 A2 A3 A4]. constructor; cbn; auto. now rewrite A1. Qed.
Lemma set_tail_rsimD nid wo r r' b o : rsimD nid wo r r' -> rsimD nid wo (set_tail r b o) (set_tail r' b o).
Proof. intros [A1 A2 A3 A4]. constructor; cbn; auto. Qed.
Lemma set_since_rsimD nid wo r r' n : rsimD nid wo r r' -> rsimD nid wo (set_since r n) (set_since r' n).
Proof. intros [A1 A2 A3 A4]. constructor; auto. Qed.

Lemma sp_rsimD nid wo m r r' force : rsimD nid wo r r' ->
  snd (should_persist m r' force) = snd (should_persist m r force) /\
  rsimD nid wo (fst (should_persist m r force)) (fst (should_persist m r' force)).
Proof.
  intros H. unfold should_persist. destruct m as [|n]; [split; [reflexivity|exact H]|].
  destruct force; [split; [reflexivity|now apply set_since_rsimD]|].
  rewrite (rd_since _ _ _ _ H). destruct (N.max n 1 <=? N.min (r_since r + 1) u32_max); cbn [fst snd];
    (split; [reflexivity|now apply set_since_rsimD]).
Qed.

(* where a read of the writer block [w] starts *)
Lemma start_rsimD nid w r r' : rsimD nid (Some w) r r' ->
  (if r_tail_bid r' =? b_id w then r_tail_off r' else 0) = (if r_tail_bid r =? b_id w then r_tail_off r else 0).
Proof.
  intros [_ [[E1 E2]|[D1 D2]] _ _]; [now rewrite E1, E2|].
  now rewrite (dead_neqb _ _ _ w D1 eq_refl), (dead_neqb _ _ _ w D2 eq_refl).
Qed.

Lemma with_reader_tsimD nid ts ts' r r' : tsimD nid ts ts' -> rsimD nid (ts_writer ts) r r' ->
  tsimD nid (with_reader ts r) (with_reader ts' r').
Proof. intros [A1 A2 A3 A4 A5 A6] Hr. constructor; cbn; auto. Qed.
Lemma count_sub_tsimD nid x y d : tsimD nid x y -> tsimD nid (count_sub x d) (count_sub y d).
Proof. intros [X1 X2 X3 X4 X5 X6]. unfold count_sub. destruct (d =? 0); [constructor; auto|]. constructor; cbn; auto. now rewrite X3. Qed.
Lemma persist_tsimD nid x y tl a off : tsimD nid x y -> tsimD nid (persist x tl a off) (persist y tl a off).
Proof. intros [X1 X2 X3 X4 X5 X6]. constructor; cbn; auto. Qed.

(* under the engine invariant hydration only sets the flag: either it was set already or nothing
   is persisted *)
Lemma GInv_hyd x c s t : GInv c s ->
  hyd x (reader_of (get_ts s t)) (ts_index (get_ts s t)) = set_hydrated (reader_of (get_ts s t)).
Proof. intros (_ & H). unfold hyd. now rewrite (hydrate_eq _ _ x (ti_hyd _ _ _ (H t))). Qed.

Lemma rsimD_hydrated nid wo r : rsimD nid wo r (set_hydrated r).
Proof. constructor; auto. Qed.

Lemma set_hydrated_rsimD nid wo r r' : rsimD nid wo r r' -> rsimD nid wo (set_hydrated r) (set_hydrated r').
Proof. intros [A1 A2 A3 A4]. constructor; auto. Qed.

(* [read_next] entering the writer block (its [let '(r4, ts1) := ..]): under [b] the position (tail, a, off) is
   persisted provisionally.  The [if p] is the model's text: a forced [should_persist] answers true in every mode
   (EngineInv.sp_forced) *)
Definition prov (m : mode) (b : bool) (a off : N) (r : reader) (ts : tstate) : reader * tstate :=
  if b then let '(r1, p) := should_persist m r true in (r1, if p then persist ts true a off else ts) else (r, ts).

Lemma prov_simD nid m w b a off r r' ts ts' : rsimD nid (Some w) r r' -> tsimD nid ts ts' -> ts_writer ts = Some w ->
  rsimD nid (Some w) (fst (prov m b a off r ts)) (fst (prov m b a off r' ts')) /\
  tsimD nid (snd (prov m b a off r ts)) (snd (prov m b a off r' ts')) /\ ts_writer (snd (prov m b a off r ts)) = Some w.
Proof.
  intros Hr Ht Hw. unfold prov. destruct b; [|auto].
  pose proof (sp_rsimD nid (Some w) m _ _ true Hr) as Hsp.
  destruct (should_persist m r true) as [r1 p]. destruct (should_persist m r' true) as [r1' p']. cbn [fst snd] in *.
  destruct Hsp as (-> & Hr1). split; [exact Hr1|]. destruct p; [split; [now apply persist_tsimD|exact Hw]|auto].
Qed.

Lemma rn_from_simD nid c m ts ts' r r' ck : tsimD nid ts ts' -> rsimD nid (ts_writer ts) r r' ->
  snd (rn_from c m ts' r' ck) = snd (rn_from c m ts r ck) /\
  tsimD nid (fst (rn_from c m ts r ck)) (fst (rn_from c m ts' r' ck)).
Proof.
  intros Ht Hrr. pose proof Hrr as [Rc _ _ Rn]. pose proof Ht as [Tw Tp _ _ _ _]. unfold rn_from.
  rewrite Rc in Rn |- *. rewrite (rn_walk_norm _ _ _ _ _ Rn).
  destruct (rn_walk (skipn (r_idx r) (r_chain r)) (r_idx r) (r_off r)) as [[i o] hit].
  (* from here on the cursor is the same on both sides *)
  set (wo := ts_writer ts) in *.
  pose proof (set_cur_rsimD nid wo r r' i o Hrr) as Er.
  set (r3 := set_cur r i o) in *. set (r3' := set_cur r' i o) in *.
  pose proof (fun q q' => with_reader_tsimD nid ts ts' q q' Ht) as Ewr. fold wo in Ewr.
  destruct hit as [b|].
  - destruct (block_read c b o) as [[e consumed]|]; [|split; [reflexivity|now apply Ewr]].
    destruct ck; [|split; [reflexivity|now apply Ewr]].
    pose proof (sp_rsimD nid wo m _ _ false (set_cur_rsimD nid wo r3 r3' i (o + consumed) Er)) as Hsp.
    destruct (should_persist m (set_cur r3 i (o + consumed)) false) as [r5 p].
    destruct (should_persist m (set_cur r3' i (o + consumed)) false) as [r5' p'].
    cbn [fst snd] in Hsp. destruct Hsp as (-> & Hr5).
    split; [reflexivity|]. apply count_sub_tsimD. destruct p; [apply persist_tsimD|]; now apply Ewr.
  - rewrite Tw, Tp. fold wo. destruct wo as [w|] eqn:Ewo; [|split; [reflexivity|now apply Ewr]].
    destruct (ts_poisoned ts); [split; [reflexivity|now apply Ewr]|].
    rewrite (start_rsimD nid w r3 r3' Er). set (start := if r_tail_bid r3 =? b_id w then r_tail_off r3 else 0).
    pose proof (prov_simD nid m w (ck && (start =? 0) && (0 <? b_used w)) (b_id w) start r3 r3' ts ts' Er Ht Ewo) as Hp.
    unfold prov in Hp. revert Hp.
    destruct (if ck && _ && _ then let '(r', p) := should_persist m r3 true in _ else _) as [r4 ts1].
    destruct (if ck && _ && _ then let '(r', p) := should_persist m r3' true in _ else _) as [r4' ts1'].
    cbn [fst snd]. intros (Hr4 & Ht1 & Hw1).
    pose proof (fun q q' => with_reader_tsimD nid ts1 ts1' q q' Ht1) as Hf1. rewrite Hw1 in Hf1.
    destruct (start <? b_used w); [|split; [reflexivity|now apply Hf1]].
    destruct (block_read c w start) as [[e consumed]|]; [|split; [reflexivity|now apply Hf1]].
    destruct ck; [|split; [reflexivity|now apply Hf1]].
    pose proof (sp_rsimD nid (Some w) m _ _ false (set_tail_rsimD nid (Some w) r4 r4' (b_id w) (start + consumed) Hr4)) as Hsp.
    destruct (should_persist m (set_tail r4 (b_id w) (start + consumed)) false) as [r6 p].
    destruct (should_persist m (set_tail r4' (b_id w) (start + consumed)) false) as [r6' p'].
    cbn [fst snd] in Hsp. destruct Hsp as (-> & Hr6).
    split; [reflexivity|]. apply count_sub_tsimD. destruct p; [apply persist_tsimD|]; now apply Hf1.
Qed.

Lemma read_next_simG nid c m s s' t ck : ssimG nid s s' -> GInv c s -> GInv c s' ->
  snd (read_next c m s' t ck) = snd (read_next c m s t ck) /\
  ssimG nid (fst (read_next c m s t ck)) (fst (read_next c m s' t ck)).
Proof.
  intros Hs Hg Hg'. pose proof (ssimG_get _ _ _ (t_id t) Hs) as Ht.
  rewrite !read_next_from, (GInv_hyd false c s _ Hg), (GInv_hyd false c s' _ Hg').
  destruct (rn_from_simD _ c m _ _ _ _ ck Ht (set_hydrated_rsimD _ _ _ _ (td_reader _ _ _ Ht))) as (Hr & Ht1).
  split; [exact Hr|]. now apply ssimG_set.
Qed.

(* the plan reads the cursor through [cur_norm] and the tail fields through where a read of the
   writer block starts *)
Lemma br_parsed_simD c maxb nid ts ts' r r' q q' : tsimD nid ts ts' -> rsimD nid (ts_writer ts) r r' ->
  br_parsed c maxb (br_wsnap ts') (q', r_chain r', r_idx r', r_off r', r_tail_bid r', r_tail_off r', 0, 0, false) =
  br_parsed c maxb (br_wsnap ts) (q, r_chain r, r_idx r, r_off r, r_tail_bid r, r_tail_off r, 0, 0, false).
Proof.
  intros [Tw Tp _ _ _ _] Hrr. pose proof Hrr as [Rc _ _ Rn]. unfold br_parsed, br_plan, br_wsnap.
  rewrite Tw, Tp, Rc in *. rewrite (plan_sealed_cur_norm c maxb _ _ _ _ _ Rn).
  destruct (plan_sealed _ _ _ _ _ _ _ _ _) as [[[racc planned] idx_after] truncated].
  destruct (negb truncated && _); [|reflexivity]. destruct (ts_poisoned ts); [reflexivity|].
  destruct (ts_writer ts) as [w|]; [|reflexivity]. now rewrite (start_rsimD nid w r r' Hrr).
Qed.

Lemma br_commit_tsimD nid m ck n x y p : tsimD nid x y ->
  tsimD nid (br_commit m ck false n x p) (br_commit m ck false n y p).
Proof.
  intros H. unfold br_commit. cbn [negb]. rewrite !andb_true_r.
  (* the committed reader is the stored one with its cursor overwritten *)
  pose proof (fun q q' => with_reader_tsimD nid x y q q' H) as Hwr.
  pose proof (td_reader _ _ _ H) as Hr.
  destruct ((0 <? ps_parsed p) && ck) eqn:Ecommit.
  - replace ck with true by (destruct ck; [reflexivity|now rewrite andb_false_r in Ecommit]).
    apply count_sub_tsimD. destruct m as [|n0].
    + destruct (ps_saw_tail p); apply persist_tsimD, Hwr; [apply set_tail_rsimD|]; now apply set_cur_rsimD.
    + rewrite (rd_since _ _ _ _ Hr). destruct (ps_saw_tail p); apply Hwr; [apply set_tail_rsimD|]; now apply set_cur_rsimD, set_since_rsimD.
  - destruct ck; [apply count_sub_tsimD|]; exact H.
Qed.

(* what a batch read returns depends on the topic state only through the writer snapshot *)
Lemma br_from_snd c m s s' t maxb ck ts ts' pos :
  ts_writer ts' = ts_writer ts -> ts_poisoned ts' = ts_poisoned ts ->
  snd (br_from c m s' t maxb ck ts' pos) = snd (br_from c m s t maxb ck ts pos).
Proof. intros Hw Hp. rewrite !br_from_result. unfold br_wsnap. now rewrite Hw, Hp. Qed.

Lemma batch_read_simG nid c m s s' t maxb ck start : ssimG nid s s' -> GInv c s -> GInv c s' ->
  snd (batch_read c m s' t maxb ck start) = snd (batch_read c m s t maxb ck start) /\
  ssimG nid (fst (batch_read c m s t maxb ck start)) (fst (batch_read c m s' t maxb ck start)).
Proof.
  intros Hs Hg Hg'. pose proof (ssimG_get _ _ _ (t_id t) Hs) as Ht. pose proof Ht as [Tw Tp _ _ _ Hrr].
  destruct start as [st0|].
  - (* offset-addressed: reads the chain and the writer only, stores nothing *)
    destruct (batch_read_stateless c m s t maxb ck st0) as (os & E1).
    destruct (batch_read_stateless c m s' t maxb ck st0) as (os' & E2).
    split; [|rewrite E1, E2; now apply ssimG_set].
    unfold batch_read, br_position. rewrite !chain_of_raw. unfold chain_of. rewrite (rd_chain _ _ _ _ Hrr). now apply br_from_snd.
  - unfold batch_read. rewrite !br_position_hyd, (GInv_hyd true c s _ Hg), (GInv_hyd true c s' _ Hg').
    cbn zeta. rewrite !br_from_eq. cbn zeta. apply set_hydrated_rsimD in Hrr.
    rewrite (br_parsed_simD c maxb _ _ _ _ _ (Some (set_hydrated (reader_of (get_ts s (t_id t))))) (Some (set_hydrated (reader_of (get_ts s' (t_id t))))) Ht Hrr), (rd_chain _ _ _ _ Hrr).
    pose proof (with_reader_tsimD _ _ _ _ _ Ht Hrr) as Hh.
    destruct (br_parsed _ _ _ _) as [p|]; (split; [reflexivity|apply ssimG_set; [exact Hs|]]); [now apply br_commit_tsimD|exact Hh].
Qed.

(* sealing a block whose id no tail field names dead *)
Lemma chain_push_rsimD nid wo r r' b : rsimD nid wo r r' -> ~ dead nid wo (b_id b) ->
  rsimD nid wo (chain_push r b) (chain_push r' b).
Proof.
  intros [A1 A2 A4 A5] Hb. unfold chain_push. destruct (b_used b =? 0); [constructor; auto|].
  destruct A2 as [[E1 E2]|[D1 D2]].
  - rewrite E1. destruct (r_tail_bid r =? b_id b).
    + constructor; cbn; [congruence|left; auto|congruence|rewrite A1, E2; reflexivity].
    + constructor; cbn; [congruence|left; auto|congruence|rewrite A1 in *; now apply cur_norm_app].
  - replace (r_tail_bid r =? b_id b) with false by (symmetry; apply N.eqb_neq; intros E; apply Hb; now rewrite <- E).
    replace (r_tail_bid r' =? b_id b) with false by (symmetry; apply N.eqb_neq; intros E; apply Hb; now rewrite <- E).
    constructor; cbn; [congruence|right; auto|congruence|rewrite A1 in *; now apply cur_norm_app].
Qed.

Lemma seal_tsimD nid ts ts' b : tsimD nid ts ts' -> ~ dead nid (ts_writer ts) (b_id b) -> tsimD nid (seal ts b) (seal ts' b).
Proof. intros [A1 A2 A3 A4 A5 A6] Hb. constructor; cbn; auto. now apply chain_push_rsimD. Qed.

(* switching the writer: the new one must avoid the dead ids *)
Lemma with_writer_tsimD nid ts ts' x : tsimD nid ts ts' -> ~ dead nid (ts_writer ts) (b_id x) ->
  tsimD nid (with_writer ts (Some x)) (with_writer ts' (Some x)).
Proof.
  intros [A1 A2 A3 A4 A5 A6] Hx. constructor; cbn; auto.
  change (rsimD nid (Some x) (reader_of ts) (reader_of ts')). apply (rsimD_change _ _ _ _ _ _ A6).
  intros tb D. split; [exact (proj1 D)|]. intros w [= <-] E. apply Hx. now rewrite E.
Qed.
Lemma count_add_tsimD nid ts ts' d : tsimD nid ts ts' -> tsimD nid (count_add ts d) (count_add ts' d).
Proof. intros [A1 A2 A3 A4 A5 A6]. unfold count_add. destruct (d =? 0); constructor; cbn; auto. now rewrite A3. Qed.
Lemma with_poison_tsimD nid ts ts' : tsimD nid ts ts' -> tsimD nid (with_poison ts) (with_poison ts').
Proof. intros [A1 A2 A3 A4 A5 A6]. constructor; cbn; auto. Qed.

(* A write is walked under the id bound [nid] of its start: a block it allocates has an id from [nid] up, and a
   block it seals or stores as the writer is the topic's writer block or one it allocated, so neither is a dead id. *)
Lemma alloc_first_ssimG nid c s s' : ssimG nid s s' ->
  snd (alloc_first c s') = snd (alloc_first c s) /\ ssimG nid (fst (alloc_first c s)) (fst (alloc_first c s')) /\
  nid <= b_id (snd (alloc_first c s)).
Proof.
  intros (A0 & A1 & A2 & A3 & A4). unfold alloc_first, disk_add. rewrite A1, A2, A3.
  destruct (c_file c <=? a_off (s_alloc s)); cbn; (split; [reflexivity|]); (split; [|exact A0]);
    (split; [cbn; lia|]); repeat (split; [reflexivity|]); exact A4.
Qed.

Lemma alloc_sized_ssimG nid c s s' want : ssimG nid s s' ->
  match alloc_sized c s want, alloc_sized c s' want with
  | None, None => True
  | Some (s1, b), Some (s1', b') => b' = b /\ ssimG nid s1 s1' /\ nid <= b_id b
  | _, _ => False
  end.
Proof.
  intros (A0 & A1 & A2 & A3 & A4). unfold alloc_sized, disk_add. rewrite A1, A2, A3.
  destruct ((want =? 0) || (c_max_alloc c <? want)); [exact I|].
  destruct (c_file c <? _); cbn; (split; [reflexivity|]); (split; [|exact A0]);
    (split; [cbn; lia|]); repeat (split; [reflexivity|]); exact A4.
Qed.

Lemma st_disk_write_ssimG nid s s' b t es : ssimG nid s s' -> ssimG nid (st_disk_write s b t es) (st_disk_write s' b t es).
Proof.
  intros (A0 & A1 & A2 & A3 & A4). unfold st_disk_write. cbn. rewrite A2. repeat (split; [assumption||reflexivity|]). exact A4.
Qed.

Lemma seal_ssimG nid s s' t b : ssimG nid s s' -> ~ dead nid (ts_writer (get_ts s t)) (b_id b) ->
  ssimG nid (set_ts s t (seal (get_ts s t) b)) (set_ts s' t (seal (get_ts s' t) b)).
Proof. intros Hs Hb. apply ssimG_set; [exact Hs|]. apply seal_tsimD; [now apply ssimG_get|exact Hb]. Qed.

(* storing the writer block [x] and counting [n] entries; with [n = 0] the block is only stored *)
Lemma commit_ssimG nid s s' t x n : ssimG nid s s' -> ~ dead nid (ts_writer (get_ts s t)) (b_id x) ->
  ssimG nid (set_ts s t (count_add (with_writer (get_ts s t) (Some x)) n)) (set_ts s' t (count_add (with_writer (get_ts s' t) (Some x)) n)).
Proof. intros Hs Hx. apply ssimG_set; [exact Hs|]. apply count_add_tsimD, with_writer_tsimD; [now apply ssimG_get|exact Hx]. Qed.

Lemma ensure_writer_ssimG nid c s s' t : ssimG nid s s' ->
  snd (ensure_writer c s' t) = snd (ensure_writer c s t) /\ ssimG nid (fst (ensure_writer c s t)) (fst (ensure_writer c s' t)) /\
  ts_writer (get_ts (fst (ensure_writer c s t)) (t_id t)) = Some (snd (ensure_writer c s t)).
Proof.
  intros Hs. unfold ensure_writer. rewrite (td_writer _ _ _ (ssimG_get _ _ _ (t_id t) Hs)).
  destruct (ts_writer (get_ts s (t_id t))) as [w|] eqn:Ew; [cbn [fst snd]; auto|].
  destruct (alloc_first_ssimG _ c s s' Hs) as (Hb & Hs1 & Hid).
  destruct (alloc_first c s) as [s1 b]. destruct (alloc_first c s') as [s1' b']. cbn [fst snd] in *. subst b'.
  split; [reflexivity|]. split; [|now rewrite get_set_same].
  apply (commit_ssimG nid s1 s1' (t_id t) b 0 Hs1). intros [D _]. lia.
Qed.

(* batch planning: the running block [cur] is local to the plan, the topic keeps the block it started with *)
Lemma batch_plan_simG c t nid : forall es s s' cur rot, ssimG nid s s' ->
  ~ dead nid (ts_writer (get_ts s (t_id t))) (b_id cur) ->
  let '(s1, c1, ok1, rot1) := batch_plan c s t cur rot es in
  let '(s1', c1', ok1', rot1') := batch_plan c s' t cur rot es in
  c1' = c1 /\ ok1' = ok1 /\ rot1' = rot1 /\ ssimG nid s1 s1' /\ ~ dead nid (ts_writer (get_ts s1 (t_id t))) (b_id c1).
Proof.
  induction es as [|e es IH]; intros s s' cur rot Hs Hc; cbn [batch_plan]; [auto 10|].
  destruct (need c e <=? b_limit cur - b_used cur).
  - apply IH; [now apply st_disk_write_ssimG|now rewrite get_ts_disk_write].
  - pose proof (seal_ssimG nid s s' (t_id t) cur Hs Hc) as Hseal.
    pose proof (alloc_sized_ssimG nid c _ _ (N.max (need c e) (c_block c)) Hseal) as Ha.
    destruct (alloc_sized c (set_ts s (t_id t) (seal (get_ts s (t_id t)) cur)) (N.max (need c e) (c_block c))) as [[s2 nb]|];
      destruct (alloc_sized c (set_ts s' (t_id t) (seal (get_ts s' (t_id t)) cur)) (N.max (need c e) (c_block c))) as [[s2' nb']|]; try contradiction.
    + destruct Ha as (-> & Hs2 & Hid). apply IH; [now apply st_disk_write_ssimG|]. intros [D _]. cbn [blk_add b_id] in D. lia.
    + repeat (split; [reflexivity|]). split; [exact Hseal|]. now rewrite get_set_same.
Qed.

Lemma put_simG nid c s s' t over es : ssimG nid s s' ->
  snd (put c s' t over es) = snd (put c s t over es) /\ ssimG nid (fst (put c s t over es)) (fst (put c s' t over es)).
Proof.
  intros Hs. unfold put.
  destruct (ensure_writer_ssimG nid c s s' t Hs) as (Hw & Hs1 & Hww).
  destruct (ensure_writer c s t) as [s1 w]. destruct (ensure_writer c s' t) as [s1' w']. cbn [fst snd] in *. subst w'.
  destruct over; [split; [reflexivity|exact Hs1]|].
  destruct (appendable c t (max_len es)); [split; [reflexivity|exact Hs1]|].
  destruct es as [|e0 es0]; [split; [reflexivity|exact Hs1]|].
  rewrite (td_poison _ _ _ (ssimG_get _ _ _ (t_id t) Hs1)).
  destruct (ts_poisoned (get_ts s1 (t_id t))); [split; [reflexivity|exact Hs1]|].
  pose proof (batch_plan_simG c t nid (e0 :: es0) s1 s1' w false Hs1 ltac:(rewrite Hww; apply writer_not_dead)) as Hp.
  destruct (batch_plan c s1 t w false (e0 :: es0)) as [[[s2 wfin] okp] rot].
  destruct (batch_plan c s1' t w false (e0 :: es0)) as [[[s2' wfin'] okp'] rot'].
  destruct Hp as (-> & -> & _ & Hs2 & Hc2).
  destruct okp; (split; [reflexivity|]); [now apply commit_ssimG|exact Hs2].
Qed.

Lemma step_simD c m be s s' o : cfg_ok c -> ssimD s s' -> GInv c s -> GInv c s' -> o <> OReopen ->
  snd (step (env_of c m be) s' o) = snd (step (env_of c m be) s o) /\
  ssimD (fst (step (env_of c m be) s o)) (fst (step (env_of c m be) s' o)).
Proof.
  intros Hc Hs Hg Hg' Hne. apply ssimD_G in Hs.
  (* every operation is simulated under the id bound of its start *)
  assert (H : snd (step (env_of c m be) s' o) = snd (step (env_of c m be) s o) /\
              ssimG (a_next (s_alloc s)) (fst (step (env_of c m be) s o)) (fst (step (env_of c m be) s' o))).
  { destruct o as [t e | t es | t ck | t maxb ck start | t | ]; cbn [step env_of v_cfg v_mode v_backend fst snd].
    - rewrite !(append_put c _ t e Hc). now apply put_simG.
    - rewrite !(batch_put c be _ t es Hc). now apply put_simG.
    - now apply read_next_simG.
    - now apply batch_read_simG.
    - split; [|exact Hs]. now rewrite (td_count _ _ _ (ssimG_get _ _ _ (t_id t) Hs)).
    - congruence. }
  exact (conj (proj1 H) (ssimG_D _ _ _ (proj2 H))).
Qed.

Lemma ssimD_set_r s t ts' : tsimD (a_next (s_alloc s)) (get_ts s t) ts' -> ssimD s (set_ts s t ts').
Proof.
  intros H. repeat (split; [reflexivity|]).
  intros t0. destruct (N.eq_dec t0 t) as [->|Hne]; [now rewrite get_set_same|]. rewrite get_set_other by exact Hne. apply tsimD_refl.
Qed.

Lemma tsimD_with_reader nid ts r' : rsimD nid (ts_writer ts) (reader_of ts) r' -> tsimD nid ts (with_reader ts r').
Proof. intros H. constructor; try reflexivity. exact H. Qed.

(* without checkpoint a read stores the reader it computed with: hydrated, the cursor walked *)
Lemma rn_from_peek c m ts r : fst (rn_from c m ts r false) =
  with_reader ts (let '(i, o, _) := rn_walk (skipn (r_idx r) (r_chain r)) (r_idx r) (r_off r) in set_cur r i o).
Proof.
  unfold rn_from. destruct (rn_walk _ _ _) as [[i o] hit]. destruct hit as [b|].
  - destruct (block_read c b o) as [[e consumed]|]; reflexivity.
  - destruct (ts_writer ts) as [w|]; [|reflexivity]. destruct (ts_poisoned ts); [reflexivity|]. cbn [andb].
    destruct (_ <? b_used w); [|reflexivity]. destruct (block_read c w _) as [[e consumed]|]; reflexivity.
Qed.

Lemma walk_rsimD nid wo r :
  rsimD nid wo r (let '(i, o, _) := rn_walk (skipn (r_idx r) (r_chain r)) (r_idx r) (r_off r) in set_cur r i o).
Proof.
  pose proof (cur_norm_idem (r_chain r) (r_idx r) (r_off r)) as Hid. unfold cur_norm in Hid.
  destruct (rn_walk (skipn (r_idx r) (r_chain r)) (r_idx r) (r_off r)) as [[i o] hit] eqn:Ew.
  constructor; cbn; auto. unfold cur_norm. now rewrite Ew.
Qed.

Lemma peek_ssimD c m be s o : GInv c s -> nonconsuming o = true -> ssimD s (fst (step (env_of c m be) s o)).
Proof.
  intros Hg Hn.
  destruct o as [t e | t es | t ck | t maxb ck [st0|] | t | ]; try discriminate; cbn [step env_of v_cfg v_mode v_backend].
  - destruct ck; [discriminate|]. rewrite read_next_from, (GInv_hyd false c s _ Hg). cbn [fst]. rewrite rn_from_peek.
    apply ssimD_set_r, tsimD_with_reader. eapply rsimD_trans; [apply rsimD_hydrated|apply walk_rsimD].
  - destruct (batch_read_stateless c m s t maxb ck st0) as (os & E). rewrite E. apply ssimD_set_r, tsimD_refl.
  - destruct ck; [discriminate|]. unfold batch_read. rewrite br_position_hyd, (GInv_hyd true c s _ Hg). cbn zeta.
    rewrite br_from_peek. apply ssimD_set_r, tsimD_with_reader, rsimD_hydrated.
Qed.
