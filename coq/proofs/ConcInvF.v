(* ConcInvF.v — invariant INVF of the concurrent model for the code as it is (fx = true), programs
   of single appends and read_next calls, ANY number of consumers per topic, no hypothesis on the
   schedule: what props/C05.v states.  The proofs use GINV WIN: INVF with the clause about race
   windows a parameter ([winF] here, [win_ok] of ConcInv.v for fx = false) and one more clause
   (gv_cons: whoever stands in the ghost log of a topic consumes it).  [tchg]: what one segment can
   do to the topic it works on, with the facts that are stable under it (the per-topic invariant,
   the writer snapshots); where the segments of read_next take the reader is [moved] of EngineRd.v.
   * a writer snapshot [a] held by a read_next (pcs PR_t_wsnap / PR_t_init) is described by a
     history fact J that survives block rotations: either [a] is still a prefix of the writer
     block, or it is empty, or its id is at most the last id in the chain (it was sealed) — the
     last two are exactly what the fix's checks at the commit detect;
   * deliveries are recorded in a ghost log per topic (thread, out) in commit order: the log's
     outs ++ unread = stream, and each thread's part of the log is what that thread returned. *)
From W Require Import model.Base model.Engine model.Conc proofs.EngineWF proofs.EngineInv proofs.EngineW proofs.EngineRd proofs.ConcInv.

(* [md] = [mid]: an append of the topic sits between its chain push and the installation of the
   new block, when [a] cannot be compared with the writer; third conjunct: ids only grow *)
Definition J (c : Cfg) (nid : N) (md : bool) (ts : tstate) (a : blk) : Prop :=
  b_used a = sum_need c (b_ents a) /\ b_id a < nid /\
  (forall w, ts_writer ts = Some w -> b_id a <= b_id w) /\
  ((md = false /\ snap_ok c ts a) \/ b_used a = 0 \/ sealed_since (r_chain (reader_of ts)) a = true).

Lemma snap_ok_writer c nid ts w : TInvP c nid ts -> ts_writer ts = Some w -> snap_ok c ts w.
Proof. intros X Hw. exists w, []. rewrite app_nil_r. repeat split; [exact Hw|exact (proj1 (writer_bwf c nid ts w X Hw))]. Qed.
Lemma snap_ok_add c ts w e a : ts_writer ts = Some w -> snap_ok c ts a -> snap_ok c (with_writer ts (Some (blk_add w c [e]))) a.
Proof.
  intros Hw (w0 & suf & S1 & S2 & S3 & S4). rewrite Hw in S1. inversion S1; subst w0.
  exists (blk_add w c [e]), (suf ++ [e]). cbn [with_writer ts_writer blk_add b_id b_ents]. repeat split; auto. now rewrite S3, app_assoc.
Qed.

Lemma J_same c nid nid' md ts ts' a :
  r_chain (reader_of ts') = r_chain (reader_of ts) -> ts_writer ts' = ts_writer ts -> nid <= nid' ->
  J c nid md ts a -> J c nid' md ts' a.
Proof.
  intros Hc Hw Hn (A & B & C0 & D). split; [exact A|]. split; [lia|]. split; [now rewrite Hw|].
  rewrite Hc. destruct D as [(D1 & (w & suf & S1 & S2 & S3 & S4))|[D|D]]; auto.
  left. split; [exact D1|]. exists w, suf. rewrite Hw. auto.
Qed.

Lemma J_write c nid md ts w e a : ts_writer ts = Some w ->
  J c nid md ts a -> J c nid md (with_writer ts (Some (blk_add w c [e]))) a.
Proof.
  intros Hw (A & B & C0 & D). split; [exact A|]. split; [exact B|]. split.
  - intros w' Hw'. cbn in Hw'. inversion Hw'; subst w'. cbn [blk_add b_id]. now apply C0.
  - change (reader_of (with_writer ts (Some (blk_add w c [e])))) with (reader_of ts).
    destruct D as [(D1 & D)|[D|D]]; auto. left. split; [exact D1|apply (snap_ok_add c ts w e a Hw D)].
Qed.

Lemma J_new_writer c nid md md' ts nb a : b_id nb = nid ->
  (md = false -> ts_writer ts = None) ->
  J c nid md ts a -> J c (nid + 1) md' (with_writer ts (Some nb)) a.
Proof.
  intros Hid Hnone (A & B & C0 & D). split; [exact A|]. split; [lia|]. split.
  - intros w' Hw'. cbn in Hw'. inversion Hw'; subst w'. lia.
  - change (reader_of (with_writer ts (Some nb))) with (reader_of ts).
    destruct D as [(D1 & (w0 & suf & S1 & _))|[D|D]]; auto. rewrite (Hnone D1) in S1. discriminate.
Qed.

Lemma last_id_snoc ch b : last_id (ch ++ [b]) = Some (b_id b).
Proof. induction ch as [|x ch IH]; [reflexivity|]. cbn [app last_id]. destruct (ch ++ [b]) eqn:E; [destruct ch; discriminate|]. exact IH. Qed.

(* a block sealed empty leaves a snapshot of it empty; otherwise the pushed id bounds the snapshot's *)
Lemma J_seal c nid md ts w a : ts_writer ts = Some w -> b_used w = sum_need c (b_ents w) ->
  J c nid md ts a -> J c nid true (seal ts w) a.
Proof.
  intros Hw Hwu (A & B & C0 & D). split; [exact A|]. split; [exact B|]. split; [exact C0|].
  unfold seal. cbn [reader_of ts_reader]. rewrite chain_push_chain.
  assert (Hle : b_id a <= b_id w) by (now apply C0).
  destruct (b_used w =? 0) eqn:Ez.
  - destruct D as [(D1 & (w0 & suf & S1 & S2 & S3 & S4))|[D|D]]; auto.
    rewrite Hw in S1. inversion S1; subst w0. right. left. rewrite S3, sum_need_app in Hwu. lia.
  - right. right. unfold sealed_since. rewrite last_id_snoc. lia.
Qed.

(* Suffix P (simple_callP, th_okP, rthreadP, ...): programs whose read_next calls may peek
   (checkpoint flag false); without it (ConcInv.v) every read_next consumes. *)
Definition simple_callP (cl : call) : bool :=
  match cl with CAppend _ _ | CRead _ _ => true | _ => false end.

Definition rthreadP (t : topic) (ck : bool) (rest : list call) (p : pc) (d : list result) : thread :=
  {| th_todo := CRead t ck :: rest; th_pc := p; th_done := d |}.

(* only a consuming read_next reaches the pcs behind a commit (PR_commit, PR_idx): they alone ask ck = true *)
Definition th_okP (c : Cfg) (cs : cstate) (th : thread) : Prop :=
  match th_todo th with
  | [] => th_pc th = PStart
  | CAppend t e :: _ =>
    match th_pc th with
    | PStart | PA_written => True
    | PA_flag | PA_seal_post => appendable c t (e_len e) = None
    | PA_seal_pre w => appendable c t (e_len e) = None /\ ts_writer (rawts cs (t_id t)) = Some w
    | _ => False
    end
  | CRead t ck :: _ =>
    match th_pc th with
    | PStart => True
    | PR_top | PR_t_snap _ _ | PR_t_wsnap _ _ _ | PR_t_init _ _ => hyd (rawts cs (t_id t))
    | PR_commit _ r _ | PR_idx r => ck = true /\ hyd (rawts cs (t_id t)) /\ exists o, r = REntry o
    | _ => False
    end
  | _ => False
  end.

Lemma th_okP_start c cs th : th_pc th = PStart -> Forall (fun cl => simple_callP cl = true) (th_todo th) -> th_okP c cs th.
Proof.
  intros Hp Hs. unfold th_okP. rewrite Hp. destruct (th_todo th) as [|cl rest]; [reflexivity|].
  inversion Hs as [|x y Hcl _]. destruct cl as [t e|t es|t ck|t mb ck]; try discriminate Hcl; auto.
Qed.

Definition winF (c : Cfg) (cs : cstate) (th : thread) : Prop :=
  match th_todo th with
  | CRead t true :: _ =>
    match th_pc th with
    | PR_t_wsnap _ _ a | PR_t_init a _ => J c (nid_of cs) (mid cs (t_id t)) (rawts cs (t_id t)) a
    | _ => True
    end
  | _ => True
  end.

Definition glog := N -> list (nat * out).
Definition log_of (i : nat) (l : list (nat * out)) : list out := map snd (filter (fun x => Nat.eqb (fst x) i) l).

Record INVF (c : Cfg) (progs : list (list call)) (cs : cstate) (L : glog) : Prop := {
  fv_next : 0 < nid_of cs;
  fv_ts : forall t, TInvP c (nid_of cs) (eff cs t);
  fv_bf : sh_bf (cs_sh cs) = [];
  fv_lock : lock_ok cs;
  fv_len : length (cs_threads cs) = length progs;
  fv_th : forall i th, nth_error (cs_threads cs) i = Some th ->
            th_okP c cs th /\ Forall (fun cl => simple_callP cl = true) (th_todo th) /\ hist_ok (nth i progs []) th;
  fv_win : forall i th, nth_error (cs_threads cs) i = Some th -> winF c cs th;
  fv_log : forall t, map snd (L t) ++ map out_of (unread c (eff cs t)) = map out_of (stream (eff cs t));
  fv_mine : forall t i th, nth_error (cs_threads cs) i = Some th -> log_of i (L t) = del_seq t (nth i progs []) th;
  fv_own : forall t i th, nth_error (cs_threads cs) i = Some th ->
             filter (own (nth i progs [])) (stream (eff cs t)) = wr_seq t (nth i progs []) th;
  fv_owned : forall t e, In e (stream (eff cs t)) -> exists i, (i < length progs)%nat /\ own (nth i progs []) e = true
}.

Lemma th_ok_P c cs th : Forall (fun cl => simple_call cl = true) (th_todo th) -> th_okP c cs th -> th_ok c cs th.
Proof.
  unfold th_ok, th_okP. intros Hs H. destruct (th_todo th) as [|[t e|t es|t ck|t mb ck] rest]; auto.
  inversion Hs as [|x y Hck _]. destruct ck; [|discriminate]. split; [reflexivity|].
  destruct (th_pc th); auto; tauto.
Qed.

(* the parameters are implicit in the projections: [gv_ts H t] *)
Section Inv.
Context {WIN : Cfg -> cstate -> thread -> Prop} {c : Cfg} {progs : list (list call)} {cs : cstate} {L : glog}.
Record GINV : Prop := {
  gv_next : 0 < nid_of cs;
  gv_ts : forall t, TInvP c (nid_of cs) (eff cs t);
  gv_bf : sh_bf (cs_sh cs) = [];
  gv_lock : lock_ok cs;
  gv_len : length (cs_threads cs) = length progs;
  gv_th : forall i th, nth_error (cs_threads cs) i = Some th ->
            th_okP c cs th /\ Forall (fun cl => simple_callP cl = true) (th_todo th) /\ hist_ok (nth i progs []) th;
  gv_win : forall i th, nth_error (cs_threads cs) i = Some th -> WIN c cs th;
  gv_log : forall t, map snd (L t) ++ map out_of (unread c (eff cs t)) = map out_of (stream (eff cs t));
  gv_mine : forall t i th, nth_error (cs_threads cs) i = Some th -> log_of i (L t) = del_seq t (nth i progs []) th;
  gv_cons : forall t q o, In (q, o) (L t) -> consumes (nth q progs []) t;
  gv_own : forall t i th, nth_error (cs_threads cs) i = Some th ->
             filter (own (nth i progs [])) (stream (eff cs t)) = wr_seq t (nth i progs []) th;
  gv_owned : forall t e, In e (stream (eff cs t)) -> exists i, (i < length progs)%nat /\ own (nth i progs []) e = true
}.

End Inv.
Arguments GINV : clear implicits.

Lemma GINV_INVF c progs cs L : GINV winF c progs cs L -> INVF c progs cs L.
Proof. intros []. constructor; assumption. Qed.

Definition log_add (L : glog) (t0 : N) (tid : nat) (dd : list entry) : glog :=
  fun t => L t ++ map (fun e => (tid, out_of e)) (if t =? t0 then dd else []).

Lemma log_of_app i a b : log_of i (a ++ b) = log_of i a ++ log_of i b.
Proof. unfold log_of. now rewrite filter_app, map_app. Qed.
Lemma log_of_tag i j (l : list out) : log_of i (map (pair j) l) = if Nat.eqb j i then l else [].
Proof.
  unfold log_of. destruct (Nat.eqb j i) eqn:E; induction l as [|o l IH]; cbn [map filter fst]; try reflexivity; rewrite E; [cbn [map snd]; now rewrite IH|exact IH].
Qed.
Lemma log_of_add L t0 tid dd t i :
  log_of i (log_add L t0 tid dd t) = log_of i (L t) ++ (if (t =? t0) && Nat.eqb tid i then map out_of dd else []).
Proof.
  unfold log_add. rewrite log_of_app, <- (map_map out_of (pair tid)), log_of_tag.
  now destruct (t =? t0), (Nat.eqb tid i).
Qed.

Lemma hyd_seal ts w : hyd ts -> hyd (seal ts w).
Proof. unfold hyd, seal. cbn [reader_of ts_reader]. destruct (chain_push_cases (reader_of ts) w) as (_ & F & _). now rewrite F. Qed.

(* the effective state of a topic, from its raw state and [md] = [mid] *)
Definition effst (raw : tstate) (md : bool) : tstate := if md then with_writer raw None else raw.
Lemma eff_effst cs t : eff cs t = effst (rawts cs t) (mid cs t).
Proof. reflexivity. Qed.

(* a segment of a read_next (or the bookkeeping that ends a call) takes the topic state through [f],
   which leaves the writer block and the sealed chain alone; [dd] is what it hands to the consumer *)
Record rd_fn (c : Cfg) (nid : N) (raw : tstate) (md : bool) (f : tstate -> tstate) (dd : list entry) : Prop := {
  rf_comm : forall ts w, f (with_writer ts w) = with_writer (f ts) w;
  rf_inv : TInvP c nid (f (effst raw md));
  rf_stream : stream (f (effst raw md)) = stream (effst raw md);
  rf_unread : unread c (effst raw md) = dd ++ unread c (f (effst raw md));
  rf_hyd : hyd raw -> hyd (f raw);
  rf_writer : ts_writer (f raw) = ts_writer raw;
  rf_chain : r_chain (reader_of (f raw)) = r_chain (reader_of raw)
}.

Lemma rd_fn_id c nid raw md : TInvP c nid (effst raw md) -> rd_fn c nid raw md (fun x => x) [].
Proof. intros H. constructor; auto. Qed.

Lemma reader_effst raw md : reader_of (effst raw md) = reader_of raw.
Proof. now destruct md. Qed.

Lemma rd_fn_reader c nid raw md r' dd : moved c nid (effst raw md) r' dd -> rd_fn c nid raw md (fun x => with_reader x r') dd.
Proof.
  intros (A & C0 & D & F). pose proof (stream_mk _ r' _ _ F : stream (with_reader _ r') = _) as B.
  unfold chain_of in F. rewrite reader_effst in F. constructor; auto.
Qed.

(* the index write owed after [f] *)
Lemma rd_fn_index c nid raw md f dd pp : rd_fn c nid raw md f dd -> hyd (f raw) ->
  rd_fn c nid raw md (fun x => with_index (f x) pp) dd.
Proof.
  intros [Hcomm Q1 Q2 Q3 Q4 Q5 Q6] Hh. constructor; auto.
  - intros ts w. now rewrite Hcomm.
  - apply TInvP_with_index; [exact Q1|]. unfold effst. destruct md; [rewrite Hcomm|]; exact Hh.
Qed.

Lemma rd_fn_count c nid raw md f : count_only f -> TInvP c nid (effst raw md) ->
  rd_fn c nid raw md f [] /\ reader_of (f raw) = reader_of raw.
Proof.
  intros (g & Hf) Hinv. split; [|now rewrite Hf].
  constructor; intros; rewrite ?Hf; try reflexivity; [|assumption].
  destruct Hinv as [? ? ? ? ? ? ? ? ? ? ? ? ?]. constructor; auto.
Qed.

Inductive tkind := KKeep | KCursor | KFirst | KAdd | KSeal | KNew.

(* What one segment does to the topic it works on, seen as (next block id, raw state, md): a segment
   of a read_next, which may move the cursor ([KCursor]); the reader stays ([KKeep]: the count update
   of a returning call, or nothing); the topic gets its first block; an
   entry goes into the writer block; the writer block is pushed onto the chain; a fresh block, with
   the entry in it, replaces it.  [da] is appended to the stream, [dd] handed to the stepping
   consumer.  This is EngineW.WStep with the rotation cut where the model cuts it. *)
Inductive tchg (c : Cfg) (nid : N) (raw : tstate) (md : bool) : tkind -> N -> tstate -> bool -> list entry -> list entry -> Prop :=
| tc_fn k f dd : rd_fn c nid raw md f dd ->
    (k = KKeep /\ reader_of (f raw) = reader_of raw \/ k = KCursor) ->
    tchg c nid raw md k nid (f raw) md [] dd
| tc_first nb : ts_writer raw = None -> fresh_blk nid nb ->
    tchg c nid raw md KFirst (nid + 1) (with_writer raw (Some nb)) md [] []
| tc_add w e : md = false -> ts_writer raw = Some w -> b_used w + need c e <= b_limit w ->
    tchg c nid raw md KAdd nid (with_writer raw (Some (blk_add w c [e]))) false [e] []
| tc_seal w : md = false -> ts_writer raw = Some w ->
    tchg c nid raw md KSeal nid (seal raw w) true [] []
| tc_new nb e : md = true -> fresh_blk nid nb -> need c e <= b_limit nb ->
    tchg c nid raw md KNew (nid + 1) (with_writer raw (Some (blk_add nb c [e]))) false [e] [].

Lemma tchg_nid {c nid raw md k nid' raw' md' da dd} : tchg c nid raw md k nid' raw' md' da dd -> nid <= nid'.
Proof. intros []; lia. Qed.

Lemma tchg_none c nid raw md : TInvP c nid (effst raw md) -> tchg c nid raw md KKeep nid raw md [] [].
Proof. intros H. apply (tc_fn c nid raw md KKeep (fun x => x) []); [apply rd_fn_id, H|now left]. Qed.

Lemma tchg_inv {c nid raw md k nid' raw' md' da dd} : 0 < c_hdr c ->
  0 < nid -> TInvP c nid (effst raw md) -> tchg c nid raw md k nid' raw' md' da dd ->
  TInvP c nid' (effst raw' md') /\ effect_ok c (effst raw md) (effst raw' md') da dd.
Proof.
  intros Hh Hn Hinv [k0 f dd0 [Hcomm Q1 Q2 Q3 _ _ _] _|nb Hnone Hf|w e -> Hw Hfit| w -> Hw|nb e -> Hf Hfit]; unfold effst in *.
  - (* tc_fn: f commutes with dropping the writer *)
    replace (if md then with_writer (f raw) None else f raw) with (f (if md then with_writer raw None else raw))
      by (destruct md; [now rewrite Hcomm|reflexivity]).
    split; [exact Q1|]. split; [now rewrite app_nil_r|now rewrite app_nil_r].
  - (* tc_first; md = true with no writer block does not occur in a run, but the invariant does not
       say so: the effective state stays then *)
    destruct md.
    + rewrite with_writer_twice. split; [eapply TInvP_mono; [apply N.le_add_r|exact Hinv]|]. now apply effect_none.
    + destruct (first_writer c nid raw nb Hn Hinv Hnone Hf) as (F1 & F2 & F3). split; [exact F1|]. now apply effect_none.
  - (* tc_add *)
    destruct (add_entry c Hh nid raw w e Hinv Hw Hfit) as (A1 & A2 & A3). split; [exact A1|]. split; [exact A2|]. cbn [app]. now rewrite A3.
  - (* tc_seal *)
    destruct (seal_inv c Hh nid raw w Hinv Hw) as (S1 & S2 & S3). split; [exact S1|]. now apply effect_none.
  - (* tc_new: a first block for the effective state, then the entry *)
    destruct (first_writer c nid (with_writer raw None) nb Hn Hinv eq_refl Hf) as (F1 & F2 & F3).
    destruct Hf as (Fi & Fu & Fe & Fl).
    destruct (add_entry c Hh (nid + 1) _ nb e F1 eq_refl ltac:(rewrite Fu; exact Hfit)) as (A1 & A2 & A3).
    rewrite !with_writer_twice in *. split; [exact A1|]. split; [now rewrite A2, F2|]. cbn [app]. now rewrite A3, F3.
Qed.

Lemma tchg_keeps {c nid raw md k nid' raw' md' da dd} : tchg c nid raw md k nid' raw' md' da dd ->
  (hyd raw -> hyd raw') /\ (ts_writer raw' = ts_writer raw \/ ts_writer raw = None \/ k = KAdd \/ k = KNew).
Proof.
  intros [k0 f dd0 [_ _ _ _ Hh Hw _] _|nb Hnone _|w e _ _ _|w _ _|nb e _ _ _]; auto.
  split; [apply hyd_seal|now left].
Qed.

(* the clause of a thread that does not step: hydration stays, and nobody else writes into a writer
   block whose mutexes the thread holds *)
Lemma th_okP_tchg {c nid md k nid' md' da dd} cs cs' th t0 :
  tchg c nid (rawts cs t0) md k nid' (rawts cs' t0) md' da dd ->
  (forall t, t <> t0 -> rawts cs' t = rawts cs t) ->
  (k = KAdd \/ k = KNew -> th_holds t0 th = false) ->
  th_okP c cs th -> th_okP c cs' th.
Proof.
  intros Hch Hoth Hk. destruct (tchg_keeps Hch) as (Hhy & Hwr).
  assert (Hh : forall t, hyd (rawts cs t) -> hyd (rawts cs' t)).
  { intros t. destruct (N.eq_dec t t0) as [->|Hne]; [exact Hhy|now rewrite (Hoth t Hne)]. }
  unfold th_okP, th_holds in *. destruct (th_todo th) as [|[t e|t es|t ck|t mb ck] rest]; auto.
  - (* CAppend: at PA_seal_pre w the writer block is still w *)
    destruct (th_pc th); auto. intros (A & B). split; [exact A|].
    destruct (N.eq_dec (t_id t) t0) as [E|Hne]; [rewrite E in *|now rewrite (Hoth _ Hne)].
    destruct Hwr as [->|[Hn|Hk']]; [exact B|congruence|]. rewrite N.eqb_refl in Hk. discriminate (Hk Hk').
  - (* CRead *) destruct (th_pc th); auto; intros (B0 & B1 & B2); auto.
Qed.

Lemma J_tchg {c nid raw md k nid' raw' md' da dd} a :
  TInvP c nid (effst raw md) -> tchg c nid raw md k nid' raw' md' da dd -> J c nid md raw a -> J c nid' md' raw' a.
Proof.
  intros Hinv [k0 f dd0 [_ _ _ _ _ Hw Hch] _|nb Hnone Hf|w e -> Hw Hfit| w -> Hw|nb e -> Hf Hfit] HJ.
  - exact (J_same c nid nid md raw (f raw) a Hch Hw (N.le_refl _) HJ).
  - apply (J_new_writer c nid md md raw nb a (proj1 Hf)); [intros _; exact Hnone|exact HJ].
  - now apply (J_write c nid false raw w e a).
  - apply (J_seal c nid false raw w a Hw); [|exact HJ]. exact (proj1 (writer_bwf c nid raw w Hinv Hw)).
  - apply (J_new_writer c nid true false raw (blk_add nb c [e]) a (proj1 Hf)); [discriminate|exact HJ].
Qed.
