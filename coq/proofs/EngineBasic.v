(* EngineBasic.v — facts about model/Engine.v that need no well-formedness invariant:
   backend irrelevance (C16), the steps of a batch read as functions, what parsing one range does in
   every parser state ([parse_range_spec]; C02 (c) and the exact reads take it from here), and the
   cap/budget halves of C03. *)
From W Require Import model.Base model.Engine spec.Queue.
From Coq Require Import ZifyBool.

(* the one place where the backends' code paths differ observably (header copy panics on the
   FD path, InvalidData on the mmap path) is behind the argument check: unreachable *)
Lemma batch_backend c s t es : batch c Fd s t es = batch c Mmap s t es.
Proof.
  unfold batch, appendable.
  destruct (ensure_writer c s t) as [s1 w].
  destruct (c_max_entries c <? N.of_nat (length es)); [reflexivity|].
  destruct (c_max_bytes c <? sum_need c es); [reflexivity|].
  destruct (c_max_alloc c <? _); [reflexivity|].
  destruct (name_ok c t) eqn:Hn; cbn [negb]; [|reflexivity].
  destruct es as [|e es']; [reflexivity|].
  destruct (ts_poisoned _); [reflexivity|].
  destruct (batch_plan c s1 t w false (e :: es')) as [[[s2 wfin] okp] rot].
  destruct okp; reflexivity.
Qed.

Lemma step_backend c m s o :
  step {| v_cfg := c; v_mode := m; v_backend := Fd |} s o = step {| v_cfg := c; v_mode := m; v_backend := Mmap |} s o.
Proof. destruct o; cbn; try reflexivity. apply batch_backend. Qed.

(* [br_from] is one expression; these are its steps 2 (plan), 3+4 (parse) and 5 (commit) as
   functions, so that a fact about one step is proved about that step only.  [br_plan] and [br_commit] copy the
   model's text, [ps0] its literal [p0]; the one tie is [br_from_eq], which holds by computation only while the
   texts agree. *)
Definition br_plan (c : Cfg) (maxb : N) (wsnap : option blk) (pos : br_pos) : list plan_item * N :=
  let '(_, chain, idx0, off0, tail_bid, tail_off, trim0, hint0, stateless) := pos in
  let '(racc, _, idx_after, truncated) :=
    plan_sealed c maxb stateless (skipn idx0 chain) idx0 off0 hint0 0 [] in
  if negb truncated && (length chain <=? idx_after)%nat then
    match wsnap with
    | Some w =>
      let '(tstart, trim) :=
        if stateless then
          match off_scan c (b_ents w) 0 (b_used w) tail_off with
          | (Some (co, _, tr), _) => (co, if co + c_hdr c <? tail_off then tr else trim0)
          | (None, _) => (0, trim0)
          end
        else ((if tail_bid =? b_id w then tail_off else 0), trim0) in
      if tstart <? b_used w
      then ({| pi_blk := w; pi_start := tstart; pi_end := b_used w; pi_tail := true; pi_idx := 0 |} :: racc, trim)
      else (racc, trim)
    | None => (racc, trim0)
    end
  else (racc, trim0).

Definition ps0 (trim : N) : pstate :=
  {| ps_outs := []; ps_n := 0; ps_total := 0; ps_parsed := 0; ps_trim := trim;
     ps_fin_idx := 0; ps_fin_off := 0; ps_tail_id := 0; ps_tail_off := 0; ps_saw_tail := false; ps_stop := false |}.

(* [None]: nothing was planned *)
Definition br_parsed (c : Cfg) (maxb : N) (wsnap : option blk) (pos : br_pos) : option pstate :=
  match br_plan c maxb wsnap pos with
  | ([], _) => None
  | (pl, trim) => Some (parse_plan c maxb (rev pl) (ps0 trim))
  end.

Definition br_commit (m : mode) (ckpt stateless : bool) (chain_len : nat) (ts_h : tstate) (p : pstate) : tstate :=
  let ts_c :=
    if (0 <? ps_parsed p) && ckpt && negb stateless then
      let r := reader_of ts_h in
      let '(r', persist_disk) :=
        match m with
        | Strict => (r, true)
        | ALO n => let every := N.max n 1 in
                   let total := N.min u32_max (r_since r + ps_parsed p) in
                   (set_since r (if every <=? total then 0 else total), false)
        end in
      if ps_saw_tail p then
        let r'' := set_tail (set_cur r' chain_len 0) (ps_tail_id p) (ps_tail_off p) in
        let ts1 := with_reader ts_h r'' in
        if persist_disk then persist ts1 true (ps_tail_id p) (ps_tail_off p) else ts1
      else
        let r'' := set_cur r' (ps_fin_idx p) (ps_fin_off p) in
        let ts1 := with_reader ts_h r'' in
        if persist_disk then persist ts1 false (N.of_nat (ps_fin_idx p)) (ps_fin_off p) else ts1
    else ts_h in
  if ckpt && negb stateless then count_sub ts_c (ps_parsed p) else ts_c.

Definition br_wsnap (ts : tstate) : option blk := if ts_poisoned ts then None else ts_writer ts.

Lemma br_from_eq c m s t maxb ck ts r1 chain idx0 off0 tb tof trim0 hint0 stl :
  br_from c m s t maxb ck ts (r1, chain, idx0, off0, tb, tof, trim0, hint0, stl) =
  let ts_h := match r1 with Some r => with_reader ts r | None => ts end in
  match br_parsed c maxb (br_wsnap ts) (r1, chain, idx0, off0, tb, tof, trim0, hint0, stl) with
  | None => (set_ts s (t_id t) ts_h, REntries [])
  | Some p => (set_ts s (t_id t) (br_commit m ck stl (length chain) ts_h p), REntries (rev (ps_outs p)))
  end.
Proof.
  unfold br_from, br_parsed, br_plan, br_wsnap. cbn zeta.
  destruct (plan_sealed _ _ _ _ _ _ _ _ _) as [[[racc planned] idx_after] truncated].
  match goal with |- context [let '(_, _) := ?X in _] => destruct X as [racc2 trim1] end.
  destruct racc2; reflexivity.
Qed.

Lemma br_commit_none m ck stl n ts p : ck && (0 <? ps_parsed p) = false -> br_commit m ck stl n ts p = ts.
Proof.
  intros H. unfold br_commit. destruct ck; [|now rewrite andb_false_r]. cbn [andb] in *. rewrite H. cbn [andb].
  replace (ps_parsed p) with 0 by lia. now destruct stl.
Qed.

Lemma br_commit_stateless m ck n ts p : br_commit m ck true n ts p = ts.
Proof. unfold br_commit. cbn [negb]. now rewrite !andb_false_r. Qed.

(* an empty plan is no special case: parsing it yields nothing, and nothing is committed *)
Lemma br_from_plan c m s t maxb ck ts r1 chain idx0 off0 tb tof trim0 hint0 stl :
  br_from c m s t maxb ck ts (r1, chain, idx0, off0, tb, tof, trim0, hint0, stl) =
  let ts_h := match r1 with Some r => with_reader ts r | None => ts end in
  let '(pl, trim) := br_plan c maxb (br_wsnap ts) (r1, chain, idx0, off0, tb, tof, trim0, hint0, stl) in
  let p := parse_plan c maxb (rev pl) (ps0 trim) in
  (set_ts s (t_id t) (br_commit m ck stl (length chain) ts_h p), REntries (rev (ps_outs p))).
Proof.
  rewrite br_from_eq. unfold br_parsed. destruct (br_plan _ _ _ _) as [[|it pl] trim]; [|reflexivity].
  cbn zeta. now rewrite br_commit_none by apply andb_false_r.
Qed.

Lemma br_from_result c m s t maxb ck ts pos :
  snd (br_from c m s t maxb ck ts pos) =
  REntries (match br_parsed c maxb (br_wsnap ts) pos with Some p => rev (ps_outs p) | None => [] end).
Proof.
  destruct pos as [[[[[[[[r1 chain] idx0] off0] tb] tof] trim0] hint0] stl]. rewrite br_from_eq. cbn zeta.
  now destruct (br_parsed _ _ _ _).
Qed.

Lemma br_from_peek c m s t maxb ts r1 chain idx0 off0 tb tof trim0 hint0 stl :
  fst (br_from c m s t maxb false ts (r1, chain, idx0, off0, tb, tof, trim0, hint0, stl)) =
  set_ts s (t_id t) (match r1 with Some r => with_reader ts r | None => ts end).
Proof. rewrite br_from_eq. cbn zeta. destruct (br_parsed _ _ _ _); [now rewrite br_commit_none|reflexivity]. Qed.

(* [X] is the exact payload total of the parsed entries; the code keeps it saturated *)
Definition pinv (c : Cfg) (maxb : N) (p : pstate) : Prop :=
  N.of_nat (length (ps_outs p)) = ps_n p /\ ps_n p <= c_max_entries c /\
  (exists X, sum_out_len (ps_outs p) <= X /\ ps_total p = N.min usize_max X) /\
  (ps_total p <= maxb \/ ps_n p <= 1).

(* an entry as it is handed out when [t] bytes of the read are still to be skipped *)
Definition trim_out (t : N) (e : entry) : out :=
  {| o_pid := e_pid e; o_skip := N.min t (e_len e); o_len := e_len e - N.min t (e_len e) |}.

(* only the first entry of a read is trimmed *)
Definition outs_of (t : N) (l : list entry) : list out :=
  match l with [] => [] | e :: r => trim_out t e :: map (trim_out 0) r end.

Definition same_pos (p p' : pstate) : Prop :=
  ps_fin_idx p' = ps_fin_idx p /\ ps_fin_off p' = ps_fin_off p /\ ps_tail_id p' = ps_tail_id p /\
  ps_tail_off p' = ps_tail_off p /\ ps_saw_tail p' = ps_saw_tail p.

(* What parsing one range does, whatever the state of the parser: it takes the first [j] of the entries [es] that
   stand from in-block offset [pos] on and records the position behind them; if it does not empty the range,
   the cap or the budget ended the whole read, or the next entry ends behind the range. *)
Record RangeOk (c : Cfg) (maxb : N) (pi : plan_item) (es : list entry) (pos : N) (p p' : pstate) (j : nat) : Prop := {
  ro_len : (j <= length es)%nat;
  ro_outs : ps_outs p' = rev (outs_of (ps_trim p) (firstn j es)) ++ ps_outs p;
  ro_parsed : ps_parsed p' = ps_parsed p + N.of_nat j;
  ro_trim : ps_trim p' = match j with O => ps_trim p | S _ => 0 end;
  ro_inv : pinv c maxb p -> pinv c maxb p';
  ro_pos : match j with
           | O => same_pos p p'
           | S _ => if pi_tail pi
                    then ps_saw_tail p' = true /\ ps_tail_id p' = b_id (pi_blk pi) /\ ps_tail_off p' = pos + sum_need c (firstn j es)
                    else ps_saw_tail p' = ps_saw_tail p /\ ps_fin_idx p' = pi_idx pi /\ ps_fin_off p' = pos + sum_need c (firstn j es)
           end;
  ro_end : (j < length es)%nat ->
           c_max_entries c <= ps_n p' \/ ps_stop p' = true \/
           exists e, nth_error es j = Some e /\ pi_end pi < pos + sum_need c (firstn j es) + need c e;
  (* progress: the first entry of a fresh read is always taken when it lies inside the range *)
  ro_prog : forall e r, es = e :: r -> ps_n p = 0 -> 1 <= c_max_entries c -> pos + need c e <= pi_end pi -> (1 <= j)%nat
}.

(* the parser state is returned as it is: the cap is reached or the next entry ends behind the range *)
Lemma range_stop c maxb pi es pos p :
  (forall e r, es = e :: r -> c_max_entries c <= ps_n p \/ pi_end pi < pos + need c e) ->
  RangeOk c maxb pi es pos p p 0.
Proof.
  intros Hr. constructor; cbn; auto; try lia; [repeat split| |].
  - intros Hl. destruct es as [|e r]; [destruct (Nat.lt_irrefl _ Hl)|].
    destruct (Hr e r eq_refl) as [H|H]; [now left|]. right; right. exists e. split; [reflexivity|lia].
  - intros e r He Hn H1 Hf. destruct (Hr e r He); lia.
Qed.

Lemma parse_range_spec c maxb pi : forall es pos p, exists j, RangeOk c maxb pi es pos p (parse_range c maxb pi es pos p) j.
Proof.
  induction es as [|e r IH]; intros pos p; cbn [parse_range].
  - exists 0%nat. apply range_stop. intros e0 r0 He; discriminate.
  - destruct (c_max_entries c <=? ps_n p) eqn:Ecap.
    { exists 0%nat. apply range_stop. intros; left; lia. }
    destruct (pi_end pi <? pos + c_hdr c) eqn:Eh.
    { exists 0%nat. apply range_stop. intros e0 r0 [= <- _]. right. unfold need. lia. }
    destruct (pi_end pi <? pos + need c e) eqn:En.
    { exists 0%nat. apply range_stop. intros e0 r0 [= <- _]. right. lia. }
    destruct ((maxb <? N.min usize_max (ps_total p + e_len e)) && negb (ps_n p =? 0)) eqn:Eb.
    { exists 0%nat. constructor; cbn; auto; try lia. repeat split. }
    (* the entry is taken *)
    match goal with |- context [parse_range c maxb pi r (pos + need c e) ?q] => set (p1 := q) end.
    destruct (IH (pos + need c e) p1) as (j & [Hjl Ho Hp Htr Hinv Hpos Hend _]). exists (S j).
    constructor; cbn [firstn sum_need length]; rewrite ?N.add_assoc.
    + (* ro_len *) lia.
    + (* ro_outs *) rewrite Ho. cbn [p1 ps_outs ps_trim outs_of rev]. rewrite <- app_assoc. now destruct (firstn j r).
    + (* ro_parsed *) rewrite Hp. cbn [p1 ps_parsed]. lia.
    + (* ro_trim *) now destruct j.
    + (* ro_inv *) intros (Hl & Hc & (X & Hs & Ht) & Hb). apply Hinv. unfold pinv; cbn [p1 ps_outs ps_n ps_total length]. repeat split.
      * rewrite Nat2N.inj_succ, Hl. lia.
      * lia.
      * exists (X + e_len e). unfold sum_out_len in *. cbn [fold_right o_len]. lia.
      * lia.
    + (* ro_pos: the position is the one the rest of the range recorded, or, if it took nothing, the one this entry set *)
      assert (Hp1 : if pi_tail pi
                    then ps_saw_tail p1 = true /\ ps_tail_id p1 = b_id (pi_blk pi) /\ ps_tail_off p1 = pos + need c e
                    else ps_saw_tail p1 = ps_saw_tail p /\ ps_fin_idx p1 = pi_idx pi /\ ps_fin_off p1 = pos + need c e).
      { cbn [p1 ps_saw_tail ps_tail_id ps_tail_off ps_fin_idx ps_fin_off].
        destruct (pi_tail pi); [rewrite orb_true_r|rewrite orb_false_r]; repeat split. }
      destruct j as [|j'].
      * destruct Hpos as (G1 & G2 & G3 & G4 & G5). cbn [firstn sum_need]. rewrite N.add_0_r, G1, G2, G3, G4, G5. exact Hp1.
      * revert Hpos Hp1. destruct (pi_tail pi); intros Hpos Hp1; [exact Hpos|].
        destruct Hpos as (Q1 & Q23). split; [rewrite Q1; apply Hp1|exact Q23].
    + (* ro_end *) intros Hlt. exact (Hend ltac:(lia)).
    + (* ro_prog *) intros; lia.
Qed.

Lemma parse_plan_inv c maxb : forall plan p, pinv c maxb p -> pinv c maxb (parse_plan c maxb plan p).
Proof.
  induction plan as [|pi rest IH]; intros p Hp; cbn [parse_plan]; [exact Hp|].
  destruct ((c_max_entries c <=? ps_n p) || ps_stop p); [exact Hp|].
  apply IH. destruct (parse_range_spec c maxb pi (ents_from c (b_ents (pi_blk pi)) (pi_start pi)) (pi_start pi) p) as (j & H).
  exact (ro_inv _ _ _ _ _ _ _ _ H Hp).
Qed.

Lemma pinv0 c maxb trim : pinv c maxb (ps0 trim).
Proof. unfold pinv; cbn. repeat split; try lia. exists 0. cbn. split; [lia|reflexivity]. Qed.

Lemma sum_out_len_app a b : sum_out_len (a ++ b) = sum_out_len a + sum_out_len b.
Proof. unfold sum_out_len. induction a as [|o a IH]; cbn [app fold_right]; [reflexivity|]. rewrite IH. apply N.add_assoc. Qed.

Lemma sum_out_len_rev os : sum_out_len (rev os) = sum_out_len os.
Proof.
  induction os as [|o r IH]; [reflexivity|]. cbn [rev]. rewrite sum_out_len_app, IH.
  unfold sum_out_len. cbn [fold_right]. lia.
Qed.

Theorem batch_read_cap_budget c m s t maxb ck start s' os :
  batch_read c m s t maxb ck start = (s', REntries os) ->
  N.of_nat (length os) <= c_max_entries c /\
  (N.min usize_max (sum_out_len os) <= maxb \/ (length os <= 1)%nat).
Proof.
  unfold batch_read.
  destruct (br_position c (get_ts s (t_id t)) start) as [[[[[[[[r1 chain] idx0] off0] tb] tof] trim0] hint0] stl].
  rewrite br_from_plan. cbn zeta. destruct (br_plan _ _ _ _) as [pl trim]. intros [= _ <-].
  destruct (parse_plan_inv c maxb (rev pl) _ (pinv0 c maxb trim)) as (Hl & Hc & (X & Hs & Ht) & Hb).
  rewrite rev_length, sum_out_len_rev. lia.
Qed.
