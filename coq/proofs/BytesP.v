(* BytesP.v — byte-list facts shared by the codec proofs: string comparison and prefixes
   (model/Base.v), little-endian integers in both directions and the exact reader
   (model/Bincode.v; Hdr.le_bytes / Hdr.le_num are the same fixpoints under other names).
   Exports the Zify instances that [lia] needs for comparisons over N and bool: the importers rely on it. *)
From W Require Import model.Base model.Bincode.
From Coq Require Export ZArith ZifyBool ZifyN ZifyNat.

Lemma str_eqb_eq a : forall b, str_eqb a b = true <-> a = b.
Proof.
  induction a as [|x a IH]; intros [|y b]; cbn [str_eqb]; [easy..|].
  rewrite andb_true_iff, N.eqb_eq, IH. split; [now intros [-> ->]|intros H; now inversion H].
Qed.

Lemma str_eqb_refl a : str_eqb a a = true.
Proof. now apply str_eqb_eq. Qed.

Lemma strip_prefix_app p s : strip_prefix p (p ++ s) = Some s.
Proof. induction p as [|x p IH]; cbn; [reflexivity|]. now rewrite N.eqb_refl. Qed.

Lemma strip_prefix_sound p : forall s r, strip_prefix p s = Some r -> s = p ++ r.
Proof.
  induction p as [|x p IH]; intros s r H; cbn in *; [now inversion H|].
  destruct s as [|y s]; [discriminate|].
  destruct (x =? y) eqn:E; [|discriminate]. apply N.eqb_eq in E; subst y.
  now rewrite (IH _ _ H).
Qed.

Definition bytes (l : list N) : Prop := Forall (fun b => b < 256) l.

Fixpoint pow256 (k : nat) : N := match k with O => 1 | S k' => 256 * pow256 k' end.

Lemma le_bytes_length (k : nat) : forall n : N, length (le_bytes k n) = k.
Proof. induction k as [|k IH]; intros n; cbn [le_bytes length]; [reflexivity|]. now rewrite IH. Qed.

Lemma le_bytes_bytes (k : nat) : forall n : N, bytes (le_bytes k n).
Proof. induction k as [|k IH]; intros n; cbn [le_bytes]; constructor; [now apply N.mod_lt|apply IH]. Qed.

Lemma le_val_bytes (k : nat) : forall n : N, n < pow256 k -> le_val (le_bytes k n) = n.
Proof.
  induction k as [|k IH]; intros n H; cbn [le_bytes le_val pow256] in *; [lia|].
  rewrite IH by lia. lia.
Qed.

Lemma le_val_bound bs : bytes bs -> le_val bs < pow256 (length bs).
Proof. induction 1 as [|b r Hb Hr IH]; cbn [le_val pow256 length]; lia. Qed.

Lemma le_bytes_val bs : bytes bs -> le_bytes (length bs) (le_val bs) = bs.
Proof.
  induction 1 as [|b r Hb Hr IH]; cbn [le_val le_bytes length]; [reflexivity|].
  replace ((b + 256 * le_val r) mod 256) with b by lia.
  replace ((b + 256 * le_val r) / 256) with (le_val r) by lia.
  now rewrite IH.
Qed.

Lemma take_app a : forall r, take (length a) (a ++ r) = Some (a, r).
Proof. induction a as [|x a IH]; intros r; cbn [length take app]; [reflexivity|]. now rewrite IH. Qed.

Lemma take_spec (k : nat) : forall (bs a r : list N), take k bs = Some (a, r) -> bs = a ++ r /\ length a = k.
Proof.
  induction k as [|k IH]; intros bs a r H; cbn [take] in H.
  - inversion H; subst. auto.
  - destruct bs as [|b bs]; [discriminate|]. destruct (take k bs) as [[a' r']|] eqn:E; [|discriminate].
    inversion H; subst. destruct (IH _ _ _ E) as [-> <-]. auto.
Qed.
