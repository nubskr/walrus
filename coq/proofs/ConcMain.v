(* ConcMain.v — every schedule.  The invariant GINV holds in the initial state whatever the window
   clause (GINV_init), and along a run (G_run, by ConcExplore.crun_from_ind) until a flag of the monitor
   goes up, for either version of the code; the flag has to go up at every chain push that does not
   meet what the clause asks of a seal.  For the code before fix 4c905dc (fx = false): the clause
   win_ok_at, whose lift is win_ok, and the flag of the seal-in-read window; with one consumer per
   topic GINV then gives INV, and at the end the C05 acceptor's verdict. *)
From W Require Import model.Base model.Engine model.Conc spec.ConcSpec proofs.EngineWF proofs.EngineInv proofs.EngineW
  proofs.EngineMain proofs.ConcInv proofs.ConcInvF proofs.ConcStep proofs.ConcBridge proofs.ConcExplore.

Lemma GINV_init (WIN : Cfg -> cstate -> thread -> Prop) c progs :
  (forall cs th, win_pc (th_pc th) = false -> WIN c cs th) ->
  Forall (Forall (fun cl => simple_callP cl = true)) progs -> GINV WIN c progs (cinit progs) (fun _ => []).
Proof.
  intros Hplain Hs.
  assert (Hnth : forall i th, nth_error (cs_threads (cinit progs)) i = Some th ->
            th = {| th_todo := nth i progs []; th_pc := PStart; th_done := [] |} /\ (i < length progs)%nat).
  { intros i th H. unfold cinit in H. cbn [cs_threads] in H. rewrite nth_error_map in H.
    destruct (nth_error progs i) as [p|] eqn:E; [|discriminate]. cbn in H. inversion H; subst.
    split; [f_equal; symmetry; now apply nth_error_nth|eapply nth_error_lt; eauto]. }
  assert (Hlock : lock_ok (cinit progs)).
  { intros t. cbn. intros i th Hi. destruct (Hnth i th Hi) as (-> & _). apply start_flags. }
  assert (Hmid : forall t, mid (cinit progs) t = false) by (intros t; now apply mid_false_free).
  assert (Heff : forall t, eff (cinit progs) t = tstate0) by (intros t; unfold eff; rewrite Hmid; reflexivity).
  constructor.
  - unfold nid_of. cbn. lia.
  - intros t. rewrite Heff. apply TInv_P, TInv0. unfold nid_of. cbn. lia.
  - reflexivity.
  - exact Hlock.
  - unfold cinit. cbn. apply map_length.
  - intros i th Hi. destruct (Hnth i th Hi) as (-> & Hlt).
    assert (Hsi : Forall (fun cl => simple_callP cl = true) (nth i progs [])).
    { eapply Forall_forall in Hs; [exact Hs|]. apply nth_In. exact Hlt. }
    split; [apply th_okP_start; [reflexivity|exact Hsi]|]. split; [exact Hsi|]. exists []. split; [reflexivity|constructor].
  - intros i th Hi. destruct (Hnth i th Hi) as (-> & _). apply Hplain. reflexivity.
  - intros t. rewrite Heff. reflexivity.
  - intros t i th Hi. destruct (Hnth i th Hi) as (-> & _). unfold del_seq, del_pending, log_of. cbn.
    destruct (done_of _ _); cbn; now destruct (nth i progs []) as [|[| |? [|]|] ?].
  - intros t q o [].
  - intros t i th Hi. destruct (Hnth i th Hi) as (-> & _). rewrite Heff. unfold wr_seq, wr_pending. cbn.
    destruct (done_of _ _); cbn; now destruct (nth i progs []) as [|[| | |] ?].
  - intros t e Hin. rewrite Heff in Hin. destruct Hin.
Qed.

(* this and [simple_progsP] of ConcMainF.v stand behind ConcBridge.v, GINV_init and G_run, which write them out (Forall (Forall ..)) *)
Definition simple_progs (progs : list (list call)) : Prop :=
  Forall (Forall (fun cl => simple_call cl = true)) progs.

(* with one consumer per topic the ghost log of a topic is its consumer's ledger *)
Lemma GINV_INV c progs cs L : simple_progs progs -> single_consumer progs -> GINV win_ok c progs cs L -> INV c progs cs.
Proof.
  intros Hs SC G. constructor; try apply G.
  - intros i th Hi. destruct (gv_th G i th Hi) as (A & _ & Hh).
    assert (Hp : Forall (fun cl => simple_call cl = true) (nth i progs [])).
    { eapply Forall_forall in Hs; [exact Hs|]. apply nth_In. rewrite <- (gv_len G). eapply nth_error_lt; eauto. }
    pose proof Hh as (d & H1 & _). rewrite H1 in Hp. apply Forall_app in Hp.
    split; [apply th_ok_P; tauto|tauto].
  - intros t i th Hi Hcons. rewrite <- (gv_log G t), <- (gv_mine G t i th Hi). f_equal. unfold log_of. f_equal.
    pose proof (gv_cons G t) as Hq. induction (L t) as [|[q o] l IH]; [reflexivity|]. cbn [filter fst].
    rewrite (SC t q i (Hq q o (or_introl eq_refl)) Hcons), Nat.eqb_refl. f_equal. apply IH. intros q' o' Hin. apply (Hq q' o'). now right.
Qed.

(* Along a run the invariant holds until the monitor raises [Q]: [Q] stays up, and a chain push that
   leaves it down meets what the clause asks of a seal. *)
Lemma G_run W SEAL fx c progs m be (Q : kflags -> bool) :
  win_frames W SEAL fx c progs -> cfg_ok c -> NoDup (offered_pids progs) ->
  Forall (Forall (fun cl => simple_callP cl = true)) progs ->
  (forall cs tid l k, Q k = true -> Q (kstep cs tid l k) = true) ->
  (forall cs tid t e rest w d k, nth_error (cs_threads cs) tid = Some (athread t e rest (PA_seal_pre w) d) ->
     Q (kstep cs tid S_w_seal_post k) = false -> SEAL cs (t_id t)) ->
  forall sched, let ro := run_schedule (env_of c m be) fx progs sched in
  Q (ro_k ro) = true \/ exists L, GINV (lift W) c progs (ro_cs ro) L.
Proof.
  intros WF Hc Hnd Hs Hup Hseal sched.
  apply (crun_from_ind (env_of c m be) fx (fun cs k => Q k = true \/ exists L, GINV (lift W) c progs cs L)).
  - intros cs k tid cs' l [Hf|(L & G)] Es; [left; now apply Hup|].
    destruct (Q (kstep cs tid l k)) eqn:E; [now left|right].
    apply (G_cstep W SEAL fx c progs WF Hc Hnd cs L tid G m be cs' l Es).
    intros t e rest w d Hth. unfold cstep in Es. rewrite Hth in Es. cbn in Es. inversion Es; subst cs' l.
    exact (Hseal cs tid t e rest w d k Hth E).
  - right. eexists. apply (GINV_init (lift W) c progs (lift_plain WF) Hs).
Qed.

Lemma seal_in_read_stays cs tid l k : k_seal_in_read k = true -> k_seal_in_read (kstep cs tid l k) = true.
Proof. intros H. unfold kstep. destruct (cur_topic cs tid); [|exact H]. cbn. now rewrite H. Qed.

(* the monitor sees a chain push inside a read window *)
Lemma seal_seen cs tid t e rest w d k : nth_error (cs_threads cs) tid = Some (athread t e rest (PA_seal_pre w) d) ->
  k_seal_in_read (kstep cs tid S_w_seal_post k) = false -> no_read_window cs (t_id t).
Proof.
  intros Hth Hk. unfold kstep, cur_topic in Hk. rewrite Hth in Hk. cbn [athread th_todo call_topic k_seal_in_read andb] in Hk.
  apply orb_false_iff in Hk. apply Hk.
Qed.

Theorem inv_outside_known c m be progs sched :
  cfg_ok c -> simple_progs progs -> single_consumer progs -> NoDup (offered_pids progs) ->
  let ro := run_schedule (env_of c m be) false progs sched in
  k_seal_in_read (ro_k ro) = false -> INV c progs (ro_cs ro).
Proof.
  intros Hc Hs SC Hnd ro Hk.
  destruct (G_run win_ok_at no_read_window false c progs m be k_seal_in_read (win_ok_frames c progs SC) Hc Hnd
              (simple_callP_progs _ Hs) seal_in_read_stays seal_seen sched) as [Hf|(L & G)]; [unfold ro in Hk; congruence|].
  rewrite <- win_ok_lift in G. apply (GINV_INV c progs _ L Hs SC G).
Qed.

Theorem single_consumer_outside_known c m be progs sched :
  cfg_ok c -> simple_progs progs -> single_consumer progs -> NoDup (offered_pids progs) ->
  let ro := run_schedule (env_of c m be) false progs sched in
  k_seal_in_read (ro_k ro) = false -> threads_done (ro_cs ro) = true ->
  c05_run_ok progs (cresults (ro_cs ro)) false = true.
Proof.
  intros Hc Hs SC Hnd ro Hk Hdone.
  apply (inv_accepts c progs (ro_cs ro) Hs SC Hnd); [|exact Hdone].
  apply (inv_outside_known c m be progs sched Hc Hs SC Hnd Hk).
Qed.
