(* EngineNorm.v — readers that a restart leaves un-hydrated.  After [reopen] a topic's reader
   carries the startup cursor and [r_hydrated = false]; the first read of the topic folds the
   persisted position into it.  [nrm x ts] is the topic state with that hydration done eagerly
   ([x] = the batch-read flavour, which also restores the tail progress).  Reads on a raw state
   are reads on the normalised state; the write primitives commute with normalisation (appends
   and batches as a whole: EngineNormW.v).  Hence everything proved for hydrated states
   (EngineInv/EngineBR/EngineW/EngineMain) transfers. *)
From W Require Import model.Base model.Engine proofs.EngineBasic proofs.EngineInv proofs.EngineW
  proofs.EngineMain proofs.EnginePos.

(* what both stateful reads do with the tail position [pt] that [hydrate] hands back ([read_next]'s [r2],
   [br_position]'s [r']): the cursor goes to the block of that id in the recovered chain; if there is none,
   [br_position] ([x]) leaves the reader as it is, [read_next] sends the cursor of a non-empty chain to its start. *)
Definition fold_tail (x : bool) (r1 : reader) (pt : option (N * N)) : reader :=
  match pt with
  | Some (id, off) =>
    match find_id (r_chain r1) id 0 with
    | Some j => set_cur r1 j (match used_at (r_chain r1) j with Some u => N.min off u | None => 0 end)
    | None => if x then r1 else match r_chain r1 with [] => r1 | _ => set_cur r1 0 0 end
    end
  | None => r1
  end.

(* [x] is [hydrate]'s flag: false for read_next, true for batch_read (which also restores the tail progress) *)
Definition hyd (x : bool) (r : reader) (idx : option ppos) : reader :=
  let '(r1, pt) := hydrate r idx x in fold_tail x r1 pt.

Definition nrm (x : bool) (ts : tstate) : tstate :=
  if r_hydrated (reader_of ts) then ts else
  match ts_index ts with
  | None => ts
  | Some _ => with_reader ts (hyd x (reader_of ts) (ts_index ts))
  end.

Definition Nst (x : bool) (s : st) : st :=
  {| s_topics := map (fun q : N * tstate => (fst q, nrm x (snd q))) (s_topics s);
     s_alloc := s_alloc s; s_disk := s_disk s; s_files := s_files s |}.

Lemma hyd_shape x r idx : exists i o tb tof,
  hyd x r idx = {| r_chain := r_chain r; r_idx := i; r_off := o; r_tail_bid := tb; r_tail_off := tof;
                   r_since := r_since r; r_hydrated := true |}.
Proof.
  unfold hyd, hydrate. destruct r as [ch i o tb tof sn hy]. cbn [r_hydrated r_chain r_since].
  destruct hy; [repeat eexists|]. destruct idx as [p|]; [|repeat eexists].
  destruct (p_tail p); [|repeat eexists]. destruct x; cbn [fold_tail set_hydrated set_cur set_tail r_chain];
    (destruct (find_id _ _ _); [repeat eexists|]); [repeat eexists|]. destruct ch; repeat eexists.
Qed.

Lemma hyd_hydrated x r idx : r_hydrated (hyd x r idx) = true.
Proof. destruct (hyd_shape x r idx) as (i & o & tb & tof & ->). reflexivity. Qed.

Lemma hyd_chain x r idx : r_chain (hyd x r idx) = r_chain r.
Proof. destruct (hyd_shape x r idx) as (i & o & tb & tof & ->). reflexivity. Qed.

Lemma hyd_of_hydrated x r idx : r_hydrated r = true -> hyd x r idx = r.
Proof. intros H. unfold hyd, hydrate. now rewrite H. Qed.

Lemma nrm_tstate0 x : nrm x tstate0 = tstate0.
Proof. reflexivity. Qed.

Lemma nrm_reader_hydrated x ts : r_hydrated (reader_of ts) = true -> nrm x ts = ts.
Proof. intros H. unfold nrm. now rewrite H. Qed.

Lemma nrm_cases x ts : nrm x ts = ts \/ nrm x ts = with_reader ts (hyd x (reader_of ts) (ts_index ts)).
Proof. unfold nrm. destruct (r_hydrated _); [now left|]. destruct (ts_index ts); [now right|now left]. Qed.

Lemma nrm_index x ts : ts_index (nrm x ts) = ts_index ts.
Proof. now destruct (nrm_cases x ts) as [-> | ->]. Qed.
Lemma nrm_writer x ts : ts_writer (nrm x ts) = ts_writer ts.
Proof. now destruct (nrm_cases x ts) as [-> | ->]. Qed.
Lemma nrm_poisoned x ts : ts_poisoned (nrm x ts) = ts_poisoned ts.
Proof. now destruct (nrm_cases x ts) as [-> | ->]. Qed.
Lemma nrm_unmodelled x ts : ts_unmodelled (nrm x ts) = ts_unmodelled ts.
Proof. now destruct (nrm_cases x ts) as [-> | ->]. Qed.
Lemma nrm_count x ts : ts_count (nrm x ts) = ts_count ts.
Proof. now destruct (nrm_cases x ts) as [-> | ->]. Qed.
Lemma nrm_chain x ts : chain_of (nrm x ts) = chain_of ts.
Proof. destruct (nrm_cases x ts) as [-> | ->]; [reflexivity|apply hyd_chain]. Qed.
Lemma nrm_stream x ts : stream (nrm x ts) = stream ts.
Proof. unfold stream, w_ents. now rewrite nrm_chain, nrm_writer. Qed.
Lemma nrm_w_list x ts : w_list (nrm x ts) = w_list ts.
Proof. unfold w_list. now rewrite nrm_writer. Qed.
Lemma nrm_memne x ts : memne (nrm x ts) = memne ts.
Proof. unfold memne. now rewrite nrm_chain, nrm_w_list. Qed.

Lemma nrm_unhydrated_index x ts : r_hydrated (reader_of (nrm x ts)) = false -> ts_index (nrm x ts) = None.
Proof.
  unfold nrm. destruct (r_hydrated (reader_of ts)) eqn:E; [congruence|].
  destruct (ts_index ts) eqn:Ei; [|intros _; exact Ei].
  cbn [reader_of with_reader ts_reader]. rewrite hyd_hydrated. discriminate.
Qed.

Lemma nrm_idem x y ts : nrm y (nrm x ts) = nrm x ts.
Proof.
  unfold nrm at 1. destruct (r_hydrated (reader_of (nrm x ts))) eqn:E; [reflexivity|].
  now rewrite (nrm_unhydrated_index x ts E).
Qed.

Lemma hyd_nrm x ts : hyd x (reader_of (nrm x ts)) (ts_index (nrm x ts)) = hyd x (reader_of ts) (ts_index ts).
Proof.
  rewrite nrm_index. destruct (nrm_cases x ts) as [-> | ->]; [reflexivity|]. apply hyd_of_hydrated, hyd_hydrated.
Qed.

(* whatever is computed from the hydrated reader and, apart from the stored reader, the topic state
   is the same on the raw state and on the normalisation of the same flavour *)
Lemma nrm_blind {X} (F : tstate -> reader -> X) x ts : (forall T r0 r, F (with_reader T r0) r = F T r) ->
  F (nrm x ts) (hyd x (reader_of (nrm x ts)) (ts_index (nrm x ts))) = F ts (hyd x (reader_of ts) (ts_index ts)).
Proof. intros H. rewrite hyd_nrm. destruct (nrm_cases x ts) as [-> | ->]; [reflexivity|apply H]. Qed.

Lemma get_Nst x s t : get_ts (Nst x s) t = nrm x (get_ts s t).
Proof.
  unfold get_ts, Nst. cbn [s_topics].
  induction (s_topics s) as [|[k v] l IH]; cbn [map find fst snd]; [reflexivity|]. destruct (k =? t); [reflexivity|exact IH].
Qed.

Lemma Nst_set_ts x s t ts : Nst x (set_ts s t ts) = set_ts (Nst x s) t (nrm x ts).
Proof.
  unfold Nst, set_ts. cbn [s_topics s_alloc s_disk s_files]. f_equal.
  induction (s_topics s) as [|[k v] l IH]; cbn [set_assoc map fst snd]; [reflexivity|].
  destruct (k =? t); cbn [map fst snd]; [reflexivity|]. now rewrite IH.
Qed.

Lemma set_ts_set_ts s t a b : set_ts (set_ts s t a) t b = set_ts s t b.
Proof. apply set_ts_twice. Qed.

Lemma set_ts_inj s t a b : set_ts s t a = set_ts s t b -> a = b.
Proof. intros H. rewrite <- (get_set_same s t a), <- (get_set_same s t b). now rewrite H. Qed.

(* the body of [read_next] after its hydration step, as a function of the hydrated reader [r2]
   ([read_next_from]): reads of a raw and of a normalised state are then the same [rn_from].  The text is that of
   model/Engine.v from [rn_walk] on, with [set_ts s (t_id t)] taken off every result; [read_next_from] is
   [reflexivity] branch by branch and fails as soon as the two texts differ *)
Definition rn_from (c : Cfg) (m : mode) (ts : tstate) (r2 : reader) (ckpt : bool) : tstate * result :=
  let '(i, o, hit) := rn_walk (skipn (r_idx r2) (r_chain r2)) (r_idx r2) (r_off r2) in
  let r3 := set_cur r2 i o in
  match hit with
  | Some b =>
    match block_read c b o with
    | None => (with_reader ts r3, RNone)
    | Some (e, consumed) =>
      if ckpt then
        let r4 := set_cur r3 i (o + consumed) in
        let '(r5, p) := should_persist m r4 false in
        let ts' := with_reader ts r5 in
        let ts'' := if p then persist ts' false (N.of_nat i) (o + consumed) else ts' in
        (count_sub ts'' 1, REntry (out_of e))
      else (with_reader ts r3, REntry (out_of e))
    end
  | None =>
    match ts_writer ts with
    | None => (with_reader ts r3, RNone)
    | Some w =>
      if ts_poisoned ts then (with_reader ts r3, RErr EOther) else
      let start := if r_tail_bid r3 =? b_id w then r_tail_off r3 else 0 in
      let '(r4, ts1) :=
        if ckpt && (start =? 0) && (0 <? b_used w) then
          let '(r', p) := should_persist m r3 true in
          (r', if p then persist ts true (b_id w) start else ts)
        else (r3, ts) in
      if start <? b_used w then
        match block_read c w start with
        | None => (with_reader ts1 r4, RNone)
        | Some (e, consumed) =>
          if ckpt then
            let r5 := set_tail r4 (b_id w) (start + consumed) in
            let '(r6, p) := should_persist m r5 false in
            let ts2 := with_reader ts1 r6 in
            let ts3 := if p then persist ts2 true (b_id w) (start + consumed) else ts2 in
            (count_sub ts3 1, REntry (out_of e))
          else (with_reader ts1 r4, REntry (out_of e))
        end
      else (with_reader ts1 r4, RNone)
    end
  end.

Lemma fold_tail_rn r1 pt :
  match pt with
  | Some (id, off) =>
    match r_chain r1 with
    | [] => r1
    | _ => match find_id (r_chain r1) id 0 with
           | Some j => set_cur r1 j (match used_at (r_chain r1) j with Some u => N.min off u | None => 0 end)
           | None => set_cur r1 0 0
           end
    end
  | None => r1
  end = fold_tail false r1 pt.
Proof.
  unfold fold_tail. destruct pt as [[id off]|]; [|reflexivity].
  destruct (r_chain r1) as [|b l]; [reflexivity|]. destruct (find_id _ _ _); reflexivity.
Qed.

Lemma read_next_from c m s t ck :
  read_next c m s t ck =
  (set_ts s (t_id t) (fst (rn_from c m (get_ts s (t_id t)) (hyd false (reader_of (get_ts s (t_id t))) (ts_index (get_ts s (t_id t)))) ck)),
   snd (rn_from c m (get_ts s (t_id t)) (hyd false (reader_of (get_ts s (t_id t))) (ts_index (get_ts s (t_id t)))) ck)).
Proof.
  unfold read_next, hyd. set (ts := get_ts s (t_id t)).
  destruct (hydrate (reader_of ts) (ts_index ts) false) as [r1 pt].
  rewrite fold_tail_rn. set (r2 := fold_tail false r1 pt). unfold rn_from.
  destruct (rn_walk _ _ _) as [[i o] hit].
  destruct hit as [b|].
  - destruct (block_read c b o) as [[e consumed]|]; [|reflexivity].
    destruct ck; [|reflexivity]. destruct (should_persist m _ false) as [r5 p]. reflexivity.
  - destruct (ts_writer ts) as [w|]; [|reflexivity].
    destruct (ts_poisoned ts); [reflexivity|].
    (* the provisional persist is the same pair on both sides *)
    match goal with |- context [let '(_, _) := ?X in if _ <? b_used w then _ else _] => destruct X as [r4 ts1] end.
    match goal with |- context [if ?b <? b_used w then _ else _] => destruct (b <? b_used w) end; [|reflexivity].
    match goal with |- context [block_read c w ?st] => destruct (block_read c w st) as [[e consumed]|] end; [|reflexivity].
    destruct ck; [|reflexivity]. destruct (should_persist m _ false) as [r6 p6]. reflexivity.
Qed.

(* the reader stored in the topic state is not looked at once hydration is done *)
Lemma rn_from_reader c m ts r0 r2 ck : rn_from c m (with_reader ts r0) r2 ck = rn_from c m ts r2 ck.
Proof.
  destruct ts as [rd wr po cn ix um]. unfold rn_from, with_reader.
  cbn [ts_reader ts_writer ts_poisoned ts_count ts_index ts_unmodelled].
  destruct (rn_walk _ _ _) as [[i o] hit].
  destruct hit as [b|]; [reflexivity|].
  destruct wr as [w|]; [|reflexivity]. destruct po; [reflexivity|].
  (* the two sides differ only in the reader of the state a provisional persist starts from, and
     that reader is overwritten afterwards: decide whether it happens, the rest is conversion *)
  match goal with |- context [if ?b then (let '(_, _) := _ in _) else _] => destruct b end; [|reflexivity].
  destruct (should_persist m _ true) as [r' p]. destruct p; reflexivity.
Qed.

Lemma br_position_hyd c ts :
  br_position c ts None =
  let r' := hyd true (reader_of ts) (ts_index ts) in
  (Some r', r_chain r', r_idx r', r_off r', r_tail_bid r', r_tail_off r', 0, 0, false).
Proof. unfold br_position, hyd. destruct (hydrate _ _ true) as [r pt]. reflexivity. Qed.

Lemma br_from_state c m t maxb ck ts pos : exists A r, forall s, br_from c m s t maxb ck ts pos = (set_ts s (t_id t) A, r).
Proof.
  destruct pos as [[[[[[[[r1 chain] idx0] off0] tail_bid] tail_off] trim0] hint0] stateless].
  destruct (br_parsed c maxb (br_wsnap ts) (r1, chain, idx0, off0, tail_bid, tail_off, trim0, hint0, stateless)) eqn:E;
    eexists; eexists; intros s; rewrite br_from_eq; cbn zeta; rewrite E; reflexivity.
Qed.

(* a stateful read stores the same topic state, with the same result, whether it runs on the raw
   state or on the normalisation of its own flavour *)
Lemma read_Nst c m be s o t ck : rtopic o = Some (t, ck) -> exists A r,
  step (env_of c m be) s o = (set_ts s (t_id t) A, r) /\
  step (env_of c m be) (Nst (is_batch o) s) o = (set_ts (Nst (is_batch o) s) (t_id t) A, r).
Proof.
  destruct o as [| |t0 ck0|t0 maxb ck0 [st0|]| |]; intros [= -> ->]; cbn [step env_of v_cfg v_mode is_batch].
  - eexists; eexists. rewrite !read_next_from, get_Nst.
    rewrite (nrm_blind (fun T r => rn_from c m T r ck) false _ (fun T r0 r => rn_from_reader c m T r0 r ck)). split; reflexivity.
  - unfold batch_read. rewrite get_Nst, !br_position_hyd. cbn zeta.
    rewrite (nrm_blind (fun T r => br_from c m (Nst true s) t maxb ck T
                                    (Some r, r_chain r, r_idx r, r_off r, r_tail_bid r, r_tail_off r, 0, 0, false)) true)
      by (intros [] r0 r; reflexivity).
    destruct (br_from_state c m t maxb ck (get_ts s (t_id t)) (br_position c (get_ts s (t_id t)) None)) as (A & r & H).
    rewrite br_position_hyd in H. exists A, r. split; apply H.
Qed.

(* an offset-addressed batch read looks at the chain and the writer only *)
Lemma batch_read_stateless_Nst x c m s t maxb ck st0 :
  batch_read c m (Nst x s) t maxb ck (Some st0) =
  (Nst x (fst (batch_read c m s t maxb ck (Some st0))), snd (batch_read c m s t maxb ck (Some st0))).
Proof.
  unfold batch_read. rewrite get_Nst. set (ts := get_ts s (t_id t)).
  assert (Hp : br_position c (nrm x ts) (Some st0) = br_position c ts (Some st0))
    by (unfold br_position; now rewrite !chain_of_raw, nrm_chain).
  rewrite Hp. destruct (br_position_stateless c ts st0) as (i0 & o0 & tb & tof & tr & h & ->).
  rewrite !br_from_eq. cbn zeta. unfold br_wsnap. rewrite nrm_poisoned, nrm_writer.
  destruct (br_parsed _ _ _ _); cbn [fst snd]; rewrite ?br_commit_stateless, Nst_set_ts; reflexivity.
Qed.

Lemma find_id_bound ch a : forall i j, find_id ch a i = Some j -> (i <= j < i + length ch)%nat.
Proof.
  induction ch as [|b ch IH]; intros i j H; cbn [find_id length] in *; [discriminate|].
  destruct (b_id b =? a); [inversion H; lia|]. apply IH in H. lia.
Qed.
Lemma find_id_app_some ch q a : forall i j, find_id ch a i = Some j -> find_id (ch ++ q) a i = Some j.
Proof.
  induction ch as [|b ch IH]; intros i j H; cbn [find_id app] in *; [discriminate|].
  destruct (b_id b =? a); [exact H|]. now apply IH.
Qed.
Lemma find_id_nth ch a : forall i j, find_id ch a i = Some j -> exists b, nth_error ch (j - i) = Some b /\ b_id b = a.
Proof.
  induction ch as [|b ch IH]; intros i j H; cbn [find_id] in *; [discriminate|].
  destruct (b_id b =? a) eqn:E.
  - inversion H; subst. rewrite Nat.sub_diag. exists b. split; [reflexivity|lia].
  - pose proof (find_id_bound _ _ _ _ H). destruct (IH _ _ H) as (b' & Hn & Hb). exists b'. split; [|exact Hb].
    replace (j - i)%nat with (S (j - S i)) by lia. exact Hn.
Qed.
Lemma used_at_app_lt ch q j : (j < length ch)%nat -> used_at (ch ++ q) j = used_at ch j.
Proof. intros H. unfold used_at. now rewrite nth_error_app1. Qed.

(* the position names a block of the chain: a tail position by id, a sealed one by index *)
Definition resolves (ch : list blk) (p : ppos) : Prop :=
  if p_tail p then exists j, find_id ch (p_a p) 0 = Some j else p_a p < N.of_nat (length ch).

(* the premise under which sealing block [bid] commutes with normalisation ([nrm_seal]): the position of an
   un-hydrated reader resolves in its chain, there is no tail progress in memory, and [bid] is positive and not
   the id a tail position names.  [p_a p < nid] ([nid] = the next id the allocator hands out) is not needed for
   one seal; it makes the premise survive allocations, whose blocks have ids from [nid] on. *)
Definition CS (ts : tstate) (bid nid : N) : Prop :=
  r_hydrated (reader_of ts) = false -> forall p, ts_index ts = Some p ->
    r_tail_bid (reader_of ts) = 0 /\ 0 < bid /\ resolves (chain_of ts) p /\
    (p_tail p = true -> p_a p < nid /\ bid <> p_a p).

(* [CS] for the block the next write to the topic starts in: its writer block or, if it has none,
   the block that will be allocated first *)
Definition CSw (ts : tstate) (nid : N) : Prop :=
  forall bid, (forall w, ts_writer ts = Some w -> bid = b_id w) -> (ts_writer ts = None -> bid = nid) -> CS ts bid nid.

Lemma clamp_lt a len : a < N.of_nat len -> clamp_idx a len = N.to_nat a.
Proof. intros H. unfold clamp_idx. replace (N.of_nat len <? a) with false by lia. reflexivity. Qed.

(* hydration of an un-hydrated reader, in closed form: the flag, the tail progress (batch flavour, tail position)
   and the cursor, which is where the position resolves ([EnginePos.res]) *)
Lemma hyd_res x r p : r_hydrated r = false -> resolves (r_chain r) p ->
  hyd x r (Some p) =
  {| r_chain := r_chain r; r_idx := fst (res (r_chain r) p); r_off := snd (res (r_chain r) p);
     r_tail_bid := if x && p_tail p then p_a p else r_tail_bid r;
     r_tail_off := if x && p_tail p then p_off p else r_tail_off r;
     r_since := r_since r; r_hydrated := true |}.
Proof.
  intros Hh Hr. unfold hyd, hydrate, res. unfold resolves in Hr. rewrite Hh. destruct (p_tail p); [|now rewrite andb_false_r].
  destruct Hr as (j & Ej). destruct x; cbn [andb fold_tail set_hydrated set_cur set_tail r_chain]; now rewrite Ej.
Qed.

Lemma res_app ch q p : resolves ch p -> resolves (ch ++ q) p /\ res (ch ++ q) p = res ch p.
Proof.
  unfold resolves, res. rewrite app_length. destruct (p_tail p).
  - intros (j & Hj). pose proof (find_id_bound _ _ _ _ Hj). rewrite Hj, (find_id_app_some _ _ _ _ _ Hj), used_at_app_lt by lia. eauto.
  - intros H. rewrite !clamp_lt, used_at_app_lt by lia. split; [lia|reflexivity].
Qed.

(* [chain_push] moves the cursor only of a reader whose tail progress is in the block pushed *)
Lemma hyd_chain_push x r b p :
  r_hydrated r = false -> r_tail_bid r = 0 -> 0 < b_id b -> resolves (r_chain r) p -> (p_tail p = true -> b_id b <> p_a p) ->
  hyd x (chain_push r b) (Some p) = chain_push (hyd x r (Some p)) b.
Proof.
  intros Hh Ht Hb Hr Hne. rewrite (hyd_res x r p Hh Hr). unfold chain_push.
  cbn [r_tail_bid r_tail_off r_chain r_idx r_off r_since r_hydrated].
  destruct (b_used b =? 0); [now apply hyd_res|]. rewrite Ht. replace (0 =? b_id b) with false by lia.
  replace ((if x && p_tail p then p_a p else 0) =? b_id b) with false by (destruct x, (p_tail p); cbn [andb]; lia).
  destruct (res_app (r_chain r) [b] p Hr) as (Hr' & E). rewrite hyd_res; [|exact Hh|exact Hr'].
  cbn [r_tail_bid r_tail_off r_chain r_since]. now rewrite E.
Qed.

Lemma nrm_seal x ts b nid : CS ts (b_id b) nid -> nrm x (seal ts b) = seal (nrm x ts) b.
Proof.
  intros Hcs. unfold nrm. change (reader_of (seal ts b)) with (chain_push (reader_of ts) b).
  change (ts_index (seal ts b)) with (ts_index ts). rewrite (proj1 (proj2 (chain_push_cases (reader_of ts) b))).
  destruct (r_hydrated (reader_of ts)) eqn:Eh; [reflexivity|].
  destruct (ts_index ts) as [p|] eqn:Ei; [|reflexivity].
  destruct (Hcs Eh p Ei) as (Ht & Hb & Hr & Hne).
  rewrite (hyd_chain_push x (reader_of ts) b p Eh Ht Hb Hr (fun E => proj2 (Hne E))). destruct ts; reflexivity.
Qed.

(* an update that leaves reader and index alone, and does not look at the reader, commutes *)
Lemma nrm_comm (U : tstate -> tstate) x ts :
  ts_reader (U ts) = ts_reader ts -> ts_index (U ts) = ts_index ts ->
  (forall r, U (with_reader ts r) = with_reader (U ts) r) -> nrm x (U ts) = U (nrm x ts).
Proof.
  intros Hr Hi Hc. unfold nrm, reader_of. rewrite Hr, Hi.
  destruct (r_hydrated _); [reflexivity|]. destruct (ts_index ts); [symmetry; apply Hc|reflexivity].
Qed.

Lemma nrm_with_writer x ts w : nrm x (with_writer ts w) = with_writer (nrm x ts) w.
Proof. apply (nrm_comm (fun T => with_writer T w)); reflexivity. Qed.
Lemma nrm_count_add x ts d : nrm x (count_add ts d) = count_add (nrm x ts) d.
Proof. apply (nrm_comm (fun T => count_add T d)); [| |intros r]; unfold count_add; destruct (d =? 0); reflexivity. Qed.

Lemma alloc_first_Nst x c s : alloc_first c (Nst x s) = (Nst x (fst (alloc_first c s)), snd (alloc_first c s)).
Proof. unfold alloc_first, Nst. cbn [s_alloc s_files s_topics s_disk]. destruct (c_file c <=? _); reflexivity. Qed.
Lemma alloc_sized_Nst x c s want :
  alloc_sized c (Nst x s) want = match alloc_sized c s want with Some (s1, b) => Some (Nst x s1, b) | None => None end.
Proof.
  unfold alloc_sized, Nst. cbn [s_alloc s_files s_topics s_disk].
  destruct ((want =? 0) || (c_max_alloc c <? want)); [reflexivity|]. destruct (c_file c <? _); reflexivity.
Qed.
Lemma st_disk_write_Nst x s b t es : st_disk_write (Nst x s) b t es = Nst x (st_disk_write s b t es).
Proof. reflexivity. Qed.

Lemma ensure_writer_Nst x c s t :
  ensure_writer c (Nst x s) t = (Nst x (fst (ensure_writer c s t)), snd (ensure_writer c s t)).
Proof.
  unfold ensure_writer. rewrite get_Nst, nrm_writer. destruct (ts_writer (get_ts s (t_id t))); [reflexivity|].
  rewrite alloc_first_Nst. destruct (alloc_first c s) as [s1 b]. cbn [fst snd].
  now rewrite get_Nst, <- nrm_with_writer, <- Nst_set_ts.
Qed.
