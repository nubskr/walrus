(* BincodeP.v — model/Bincode.v.  Up to three facts per decoder.  [rt], lemmas X_rt (spelled out for
   dec_cluster and dec_cmd, X_enc, as props/C20.v states them): decode (encode x ++ rest) = (canonical
   form of x, rest), where maps may be listed in any order.  [dec_sound bytes], lemmas X_sound (integers,
   strings, commands): what decodes from bytes is in the range the encoder accepts.  [dec_sound any],
   lemmas X_sorted (the decoders with maps): whatever decodes has its maps in canonical, sorted form. *)
From W Require Import model.Base model.Utf8 model.Map model.Bincode proofs.BytesP proofs.Utf8P proofs.MapP.
From Coq Require Import Permutation.

(* what a successful decode guarantees: [P] of the value and, for sequencing, the property [I] of the
   input again of the rest *)
Definition dec_sound {A} (I : list N -> Prop) (P : A -> Prop) (d : list N -> option (A * list N)) : Prop :=
  forall bs v r, I bs -> d bs = Some (v, r) -> P v /\ I r.

Definition any {A} (_ : A) : Prop := True.

Lemma sound_any {A} d : @dec_sound A any any d.
Proof. repeat split. Qed.

Definition rt {A} (P : A -> Prop) (e : A -> list N) (d : list N -> option (A * list N)) (c : A -> A) : Prop :=
  forall x r, P x -> d (e x ++ r) = Some (c x, r).

Lemma le_bytes_ok (k : nat) : forall n : N, Forall (fun b => b < 256) (le_bytes k n).
Proof. exact (le_bytes_bytes k). Qed.

(* dec_u64 and dec_u32 are [dec_le 8] and [dec_le 4] *)
Definition dec_le (k : nat) (bs : list N) : option (N * list N) :=
  match take k bs with Some (a, r) => Some (le_val a, r) | None => None end.

Lemma dec_le_rt k : rt (fun n => n < pow256 k) (le_bytes k) (dec_le k) (fun n => n).
Proof.
  intros n r H. unfold dec_le. rewrite <- (le_bytes_length k n) at 1. now rewrite take_app, le_val_bytes.
Qed.

Lemma dec_le_sound k : dec_sound bytes (fun n => n < pow256 k) (dec_le k).
Proof.
  intros bs n r Hb H. unfold dec_le in H. destruct (take k bs) as [[a r']|] eqn:E; [|discriminate].
  inversion H; subst. destruct (take_spec _ _ _ _ E) as [-> L]. apply Forall_app in Hb.
  split; [|apply Hb]. rewrite <- L. now apply le_val_bound.
Qed.

Lemma dec_u64_rt : rt (fun n => n < two64) enc_u64 dec_u64 (fun n => n).
Proof. exact (dec_le_rt 8). Qed.

Lemma dec_u32_rt : rt (fun n => n < 4294967296) enc_u32 dec_u32 (fun n => n).
Proof. exact (dec_le_rt 4). Qed.

Lemma dec_u64_sound : dec_sound bytes (fun n => n < two64) dec_u64.
Proof. exact (dec_le_sound 8). Qed.

Lemma dec_u32_sound : dec_sound bytes (fun n => n < 4294967296) dec_u32.
Proof. exact (dec_le_sound 4). Qed.

(* sequencing: the shape every struct decoder of model/Bincode.v is written in *)
Lemma sound_bind {A B I} {P : A -> Prop} {Q : B -> Prop} {d} {f : A -> list N -> option (B * list N)} :
  dec_sound I P d -> (forall v, P v -> dec_sound I Q (f v)) ->
  dec_sound I Q (fun bs => match d bs with None => None | Some (v, r) => f v r end).
Proof.
  intros Hd Hf bs y r Hb H. destruct (d bs) as [[v r0]|] eqn:E; [|discriminate].
  destruct (Hd _ _ _ Hb E) as [Pv Hb0]. exact (Hf v Pv r0 y r Hb0 H).
Qed.

Lemma sound_ret {B I} (Q : B -> Prop) y : Q y -> dec_sound I Q (fun bs => Some (y, bs)).
Proof. intros Hy bs v r Hb H. inversion H; subst. auto. Qed.

Lemma dec_str_rt : rt str_ok enc_str dec_str (fun s => s).
Proof.
  intros s r [Hs Hl]. unfold dec_str, enc_str. cbn zeta. rewrite <- app_assoc, (dec_u64_rt _ _ Hl).
  replace (N.of_nat (length (utf8_encode s ++ r)) <? N.of_nat (length (utf8_encode s))) with false
    by (rewrite app_length; lia).
  now rewrite Nat2N.id, take_app, utf8_decode_encode by exact Hs.
Qed.

Lemma enc_str_len s : (1 <= length (enc_str s))%nat.
Proof. unfold enc_str. cbn zeta. rewrite app_length. unfold enc_u64. rewrite le_bytes_length. lia. Qed.

(* the decoded length is that of the bytes validated, so it needs no bound on the input *)
Lemma dec_str_sound : dec_sound bytes str_ok dec_str.
Proof.
  apply (sound_bind dec_u64_sound). intros n Hn r0 s r Hr0 H.
  destruct (N.of_nat (length r0) <? n); [discriminate|].
  destruct (take (N.to_nat n) r0) as [[a r']|] eqn:Et; [|discriminate].
  destruct (utf8_decode a) as [s'|] eqn:Eu; [|discriminate]. inversion H; subst.
  destruct (take_spec _ _ _ _ Et) as [-> La]. apply Forall_app in Hr0.
  apply utf8_encode_decode in Eu. destruct Eu as [Ee Hs].
  split; [|apply Hr0]. split; [exact Hs|]. rewrite Ee, La. lia.
Qed.

Lemma dec_entries_enc {K V : Type} (PK : K -> Prop) (PV : V -> Prop) ek ev dk dv cmp (cv : V -> V) :
  rt PK ek dk (fun k => k) -> rt PV ev dv cv ->
  forall l : list (K * V), Forall (fun kv => PK (fst kv) /\ PV (snd kv)) l -> forall rest acc,
  dec_entries dk dv cmp (length l) (flat_map (fun kv => ek (fst kv) ++ ev (snd kv)) l ++ rest) acc
  = Some (fold_left (fun m kv => ins cmp (fst kv) (snd kv) m) (map (fun kv => (fst kv, cv (snd kv))) l) acc, rest).
Proof.
  intros Hk Hv. induction 1 as [|[k v] l [Pk Pv] _ IH]; intros rest acc;
    cbn [length flat_map dec_entries map fold_left app]; [reflexivity|].
  cbn [fst snd] in *. rewrite <- !app_assoc. rewrite (Hk k _ Pk), (Hv v _ Pv). apply IH.
Qed.

(* the count guard passes because every key takes at least one byte *)
Lemma dec_map_rt {K V : Type} {PK : K -> Prop} {PV : V -> Prop} {ek ev dk dv cmp} {cv : V -> V} :
  rt PK ek dk (fun k => k) -> rt PV ev dv cv -> (forall k, (1 <= length (ek k))%nat) ->
  rt (fun l : list (K * V) => Forall (fun kv => PK (fst kv) /\ PV (snd kv)) l /\ N.of_nat (length l) < two64)
     (enc_map ek ev) (dec_map dk dv cmp) (fun l => of_list cmp (map (fun kv => (fst kv, cv (snd kv))) l)).
Proof.
  intros Hk Hv H1 l rest [Hf Hl]. unfold dec_map, enc_map. rewrite <- app_assoc, (dec_u64_rt _ _ Hl).
  assert (L : (length l <= length (flat_map (fun kv => ek (fst kv) ++ ev (snd kv)) l))%nat).
  { clear Hf Hl. induction l as [|kv l IH]; cbn [flat_map length]; [lia|].
    rewrite !app_length. specialize (H1 (fst kv)). lia. }
  replace (N.of_nat (length (flat_map (fun kv => ek (fst kv) ++ ev (snd kv)) l ++ rest)) <? N.of_nat (length l))
    with false by (rewrite app_length; lia).
  rewrite Nat2N.id. unfold of_list. now apply (dec_entries_enc PK PV).
Qed.

Lemma enc_u64_len n : (1 <= length (enc_u64 n))%nat.
Proof. unfold enc_u64. rewrite le_bytes_length. lia. Qed.

Lemma map_id_pair {K V} (l : list (K * V)) : map (fun kv => (fst kv, snd kv)) l = l.
Proof. induction l as [|[k v] l IH]; cbn; [reflexivity|]. now rewrite IH. Qed.

Lemma dec_nmap_rt : rt nmap_ok enc_nmap dec_nmap (of_list N.compare).
Proof.
  intros l rest H. unfold dec_nmap, enc_nmap.
  rewrite (dec_map_rt dec_u64_rt dec_u64_rt enc_u64_len l rest H).
  now rewrite map_id_pair.
Qed.

Lemma dec_topic_rt : rt topic_wf enc_topic dec_topic canon_topic.
Proof.
  intros t rest (H1 & H2 & H3 & H4 & H5). unfold dec_topic, enc_topic. rewrite <- !app_assoc.
  rewrite (dec_u64_rt _ _ H1), (dec_u64_rt _ _ H2), (dec_u64_rt _ _ H3).
  now rewrite (dec_nmap_rt _ _ H4), (dec_nmap_rt _ _ H5).
Qed.

Lemma dec_cluster_enc c rest : cluster_wf c -> dec_cluster (enc_cluster c ++ rest) = Some (canon_cluster c, rest).
Proof.
  intros (H1 & H2 & H3 & H4). unfold dec_cluster, enc_cluster. rewrite <- app_assoc.
  rewrite (dec_map_rt dec_str_rt dec_topic_rt enc_str_len (c_topics c) _ (conj H1 H2)).
  rewrite (dec_map_rt dec_u64_rt dec_str_rt enc_u64_len (c_nodes c) rest (conj H3 H4)).
  now rewrite map_id_pair.
Qed.

Lemma canon_topic_listing l t : topic_sorted t -> topic_listing l t -> canon_topic l = t.
Proof.
  intros [S1 S2] (E1 & E2 & E3 & P1 & P2). unfold canon_topic. destruct t as [c ld la se le]. cbn in *.
  rewrite E1, E2, E3. rewrite (of_list_perm N_cmp_ok _ _ S1 P1), (of_list_perm N_cmp_ok _ _ S2 P2). reflexivity.
Qed.

Lemma canon_cluster_listing l c : cluster_sorted c -> cluster_listing l c -> canon_cluster l = c.
Proof.
  intros (S1 & S2 & S3) [[mid [P1 F]] P2]. unfold canon_cluster. destruct c as [ts ns]. cbn [c_topics c_nodes] in *.
  rewrite (of_list_perm N_cmp_ok _ _ S2 P2). f_equal.
  apply (of_list_perm str_cmp_ok _ _ S1).
  eapply perm_trans; [apply Permutation_map; exact P1|].
  assert (E : map (fun nt => (fst nt, canon_topic (snd nt))) mid = ts).
  { clear P1 S1. induction F as [|a b mid' ts' [Ea Ta] F IH]; [reflexivity|].
    cbn [map]. inversion S3 as [|? ? Sb S3']; subst. rewrite (IH S3'). f_equal.
    destruct a as [na ta], b as [nb tb]. cbn [fst snd] in *. subst nb. f_equal. now apply canon_topic_listing. }
  rewrite E. apply Permutation_refl.
Qed.

Lemma cluster_listing_refl c : cluster_listing c c.
Proof.
  split; [|apply Permutation_refl]. exists (c_topics c). split; [apply Permutation_refl|].
  induction (c_topics c) as [|x l IH]; constructor; [|exact IH]. repeat split; apply Permutation_refl.
Qed.

Lemma codec_roundtrip s l rest :
  cluster_sorted s -> cluster_wf l -> cluster_listing l s ->
  dec_cluster (enc_cluster l ++ rest) = Some (s, rest).
Proof. intros Hs Hw Hl. rewrite dec_cluster_enc by exact Hw. now rewrite (canon_cluster_listing l s Hs Hl). Qed.

Definition cmd_wf (c : cmd) : Prop :=
  match c with
  | CreateTopic name l => str_ok name /\ l < two64
  | RolloverTopic name l n => str_ok name /\ l < two64 /\ n < two64
  | UpsertNode id addr => id < two64 /\ str_ok addr
  end.

Lemma dec_cmd_enc c rest : cmd_wf c -> dec_cmd (enc_cmd c ++ rest) = Some (c, rest).
Proof.
  destruct c as [name l|name l n|id addr]; cbn [cmd_wf enc_cmd]; intros H; unfold dec_cmd; rewrite <- !app_assoc;
    rewrite dec_u32_rt by reflexivity; cbn [N.eqb Pos.eqb].
  - destruct H as [H1 H2]. now rewrite (dec_str_rt _ _ H1), (dec_u64_rt _ _ H2).
  - destruct H as (H1 & H2 & H3). now rewrite (dec_str_rt _ _ H1), (dec_u64_rt _ _ H2), (dec_u64_rt _ _ H3).
  - destruct H as [H1 H2]. now rewrite (dec_u64_rt _ _ H1), (dec_str_rt _ _ H2).
Qed.

Lemma dec_cmd_sound : dec_sound bytes cmd_wf dec_cmd.
Proof.
  apply (sound_bind dec_u32_sound). intros tag _.
  destruct (tag =? 0); [|destruct (tag =? 1); [|destruct (tag =? 2); [|discriminate]]].
  - apply (sound_bind dec_str_sound). intros name Hn.
    apply (sound_bind dec_u64_sound). intros l Hl. now apply sound_ret.
  - apply (sound_bind dec_str_sound). intros name Hn.
    apply (sound_bind dec_u64_sound). intros l Hl.
    apply (sound_bind dec_u64_sound). intros n Hn'. now apply sound_ret.
  - apply (sound_bind dec_u64_sound). intros id Hi.
    apply (sound_bind dec_str_sound). intros addr Ha. now apply sound_ret.
Qed.

Lemma dec_entries_sorted {K V : Type} {dk dv cmp} (ok : @cmp_ok K cmp) (P : V -> Prop) :
  dec_sound any P dv -> forall n acc,
  let Q m := sortedb cmp m = true /\ Forall (fun kv => P (snd kv)) m in
  Q acc -> dec_sound any Q (fun bs => dec_entries dk dv cmp n bs acc).
Proof.
  intros HP. induction n as [|n IH]; intros acc Q [Hs Hf]; cbn [dec_entries].
  - now apply sound_ret.
  - apply (sound_bind (sound_any dk)). intros k _. apply (sound_bind HP). intros v Hv.
    apply IH. split; [now apply sorted_ins|now apply Forall_ins].
Qed.

Lemma dec_map_sorted {K V : Type} {dk dv cmp} (ok : @cmp_ok K cmp) (P : V -> Prop) :
  dec_sound any P dv ->
  dec_sound any (fun m => sortedb cmp m = true /\ Forall (fun kv => P (snd kv)) m) (dec_map dk dv cmp).
Proof.
  intros HP. apply (sound_bind (sound_any dec_u64)). intros n _ r0 m r _.
  destruct (N.of_nat (length r0) <? n); [discriminate|].
  apply (dec_entries_sorted ok P HP); [|exact I]. split; [reflexivity|constructor].
Qed.

Lemma dec_topic_sorted : dec_sound any topic_sorted dec_topic.
Proof.
  do 3 (apply (sound_bind (sound_any dec_u64)); intros ? _).
  apply (sound_bind (dec_map_sorted N_cmp_ok any (sound_any _))). intros se [Hs _].
  apply (sound_bind (dec_map_sorted N_cmp_ok any (sound_any _))). intros le [Hl _].
  apply sound_ret. now split.
Qed.

Lemma dec_cluster_sorted : dec_sound any cluster_sorted dec_cluster.
Proof.
  apply (sound_bind (dec_map_sorted str_cmp_ok topic_sorted dec_topic_sorted)). intros ts [Ht Hf].
  apply (sound_bind (dec_map_sorted N_cmp_ok any (sound_any _))). intros ns [Hn _].
  apply sound_ret. repeat split; assumption.
Qed.

(* why the count guard of dec_map answers as the loop would: with fewer input bytes than elements the
   element loop cannot finish, for element decoders that consume at least one byte per key.  The two
   progress premises are discharged for no decoder of model/Bincode.v. *)
Lemma dec_entries_short {K V : Type} (dk : list N -> option (K * list N)) dv (cmp : K -> K -> comparison) :
  (forall bs k r, dk bs = Some (k, r) -> (length r < length bs)%nat) ->
  (forall bs (v : V) r, dv bs = Some (v, r) -> (length r <= length bs)%nat) ->
  forall n bs acc, (length bs < n)%nat -> dec_entries dk dv cmp n bs acc = None.
Proof.
  intros Hk Hv. induction n as [|n IH]; intros bs acc H; [lia|]. cbn [dec_entries].
  destruct (dk bs) as [[k r1]|] eqn:E1; [|reflexivity]. destruct (dv r1) as [[v r2]|] eqn:E2; [|reflexivity].
  apply IH. specialize (Hk _ _ _ E1). specialize (Hv _ _ _ E2). lia.
Qed.
