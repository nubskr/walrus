(* EngineNormW.v — appends and batches commute with the eager hydration of EngineNorm.v. *)
From W Require Import model.Base model.Engine proofs.EngineInv proofs.EngineWF proofs.EngineW proofs.EngineMain proofs.EngineNorm.

(* along a write the un-hydrated reader's data stay and its chain grows at the end; blocks allocated
   later have ids that the persisted position cannot name *)
Lemma CS_grow ts ts' bid nid bid' nid' :
  CS ts bid nid -> wkeep ts ts' -> nid <= nid' -> 0 < bid' -> (nid <= bid' \/ bid' = bid) -> CS ts' bid' nid'.
Proof.
  intros Hcs ((K1 & K2 & K3 & _) & q & Hq) Hn Hb Hbb Hh p Hp. rewrite K1 in Hh. rewrite K3 in Hp.
  destruct (Hcs Hh p Hp) as (A & B & R & C). rewrite K2, Hq. split; [exact A|]. split; [exact Hb|].
  split; [exact (proj1 (res_app _ q p R))|]. intros E. destruct (C E) as (C2 & C3). split; [lia|].
  destruct Hbb as [Hbb|Hbb]; [lia|congruence].
Qed.

(* the commutation condition for sealing the writer block, once there is one *)
Lemma ensure_writer_CS c s t :
  0 < a_next (s_alloc s) -> CSw (get_ts s (t_id t)) (a_next (s_alloc s)) ->
  CS (get_ts (fst (ensure_writer c s t)) (t_id t)) (b_id (snd (ensure_writer c s t)))
     (a_next (s_alloc (fst (ensure_writer c s t)))).
Proof.
  intros Hn Hcs. unfold ensure_writer. destruct (ts_writer (get_ts s (t_id t))) as [w|] eqn:Ew.
  - cbn [fst snd]. apply Hcs; congruence.
  - unfold alloc_first. destruct (c_file c <=? a_off (s_alloc s)); cbn [fst snd]; rewrite get_set_same;
      (eapply CS_grow; [apply (Hcs (a_next (s_alloc s))); congruence|apply wkeep_same; [apply keep_with_writer|reflexivity]| | |left];
       cbn [set_ts s_alloc a_next b_id]; lia).
Qed.

Lemma chain_mark s t : chain_of (get_ts (mark_unmodelled s t) t) = chain_of (get_ts s t).
Proof. unfold mark_unmodelled. rewrite get_set_same. reflexivity. Qed.

Lemma batch_plan_Nst x c t : forall es s cur rot,
  0 < a_next (s_alloc s) -> CS (get_ts s (t_id t)) (b_id cur) (a_next (s_alloc s)) ->
  batch_plan c (Nst x s) t cur rot es =
  let '(s', cur', ok, rot') := batch_plan c s t cur rot es in (Nst x s', cur', ok, rot').
Proof.
  induction es as [|e r IH]; intros s cur rot Hn Hcs; cbn [batch_plan]; [reflexivity|].
  destruct (need c e <=? b_limit cur - b_used cur).
  - rewrite st_disk_write_Nst. exact (IH (st_disk_write s cur t [e]) (blk_add cur c [e]) rot Hn Hcs).
  - rewrite get_Nst, <- (nrm_seal x (get_ts s (t_id t)) cur _ Hcs), <- Nst_set_ts, alloc_sized_Nst.
    set (s0 := set_ts s (t_id t) (seal (get_ts s (t_id t)) cur)).
    destruct (alloc_sized c s0 (N.max (need c e) (c_block c))) as [[s'' nb]|] eqn:Ea; [|reflexivity].
    destruct (alloc_sized_inv _ _ _ _ _ Ea) as (_ & Htop & Hnx & Hid & _).
    rewrite st_disk_write_Nst. apply IH; [cbn [st_disk_write s_alloc]; rewrite Hnx; lia|].
    rewrite get_ts_disk_write, (get_ts_topics _ _ _ Htop). unfold s0. rewrite get_set_same.
    cbn [blk_add b_id st_disk_write s_alloc]. rewrite Hnx, Hid. cbn [s0 set_ts s_alloc].
    eapply CS_grow; [exact Hcs|split; [apply keep_seal|apply chain_of_seal_app]|lia|lia|left; lia].
Qed.

Lemma put_Nst x c s t over es :
  0 < a_next (s_alloc s) -> CSw (get_ts s (t_id t)) (a_next (s_alloc s)) ->
  put c (Nst x s) t over es = (Nst x (fst (put c s t over es)), snd (put c s t over es)).
Proof.
  intros Hn Hcs. unfold put. rewrite ensure_writer_Nst.
  pose proof (proj1 (proj2 (ensure_wframe c s t))) as Kn. pose proof (ensure_writer_CS c s t Hn Hcs) as Hcs1.
  destruct (ensure_writer c s t) as [s1 w]. cbn [fst snd] in *.
  destruct over; [reflexivity|].
  destruct (appendable c t (max_len es)); [reflexivity|].
  destruct es as [|e0 es0]; [reflexivity|].
  rewrite get_Nst, nrm_poisoned. set (ts1 := get_ts s1 (t_id t)) in *.
  destruct (ts_poisoned ts1); [reflexivity|].
  rewrite (batch_plan_Nst x c t (e0 :: es0) s1 w false ltac:(lia) Hcs1).
  destruct (batch_plan c s1 t w false (e0 :: es0)) as [[[s2 wfin] okp] rot].
  destruct okp; [|reflexivity].
  unfold commit. cbn [fst snd]. now rewrite get_Nst, <- nrm_with_writer, <- nrm_count_add, <- Nst_set_ts.
Qed.

Lemma write_Nst x c m be s o t : cfg_ok c -> wtopic o = Some t ->
  0 < a_next (s_alloc s) -> CSw (get_ts s (t_id t)) (a_next (s_alloc s)) ->
  step (env_of c m be) (Nst x s) o = (Nst x (fst (step (env_of c m be) s o)), snd (step (env_of c m be) s o)).
Proof.
  intros Hc Ho. destruct (write_put c m be o t Hc Ho) as (over & es & E). unfold env_of. rewrite !E. apply put_Nst.
Qed.
