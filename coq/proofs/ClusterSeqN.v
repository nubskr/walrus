(* ClusterSeqN.v — C22, the sequential system of ClusterSys.v with ANY number of nodes
   (operations never overlap, every proposed command is applied by every node before the next
   event, no restart): the data invariant [Dn] over the engine queues, `offsets` counters and read
   cursors of all nodes as functions ([qo], [co], [cu]), the per-pc clause [Stn], and what one append,
   one read, one applied command and [apply_everywhere] do to them.  The theorem ([seq_model_ok_any]:
   every schedule's client-visible history is accepted) is in ClusterSeqN2.v.

   Invariant (between two events): every node has applied the whole log and holds the same
   metadata; for its topic state t, the acceptor's queue is the concatenation, segment by
   segment, of the engine queue held by that segment's leader; only a segment's leader holds
   entries of it; every sealed count equals the leader's `offsets` counter; a queue is never
   longer than its counter; and every node's read cursor (seg, del) has only drained segments
   behind it and del + |queue| <= counter for its own segment (other nodes' readers may have
   consumed from it too).  Leases, write locks and mutexes are unconstrained: a refused lease
   check answers an error before anything is written. *)
From W Require Import model.Base model.Map model.Bincode model.Meta model.Cluster
  model.ClusterSys proofs.ListP proofs.MapP proofs.ClusterP proofs.ClusterSeq.
Open Scope N_scope.

Definition qo (s : cst) (n seg : N) : list cpayload :=
  match get_node s n with Some x => queue_of x seg | None => [] end.
Definition co (s : cst) (n seg : N) : N :=
  match get_node s n with Some x => count_of x seg | None => 0 end.
Definition cu (s : cst) (h : N) : N * N :=
  match get_node s h with Some x => cur_of x | None => (0, 0) end.

Definition qfun := N -> N -> list cpayload.
Definition cfun := N -> N -> N.
Definition ufun := N -> N * N.

(* a short name; under [dn_lead] it is also the leader get_loop computes for the open segment ([sl_cur]) *)
Definition sl (t : tstate) (s : N) : N := seg_leader t s.

Record CVn (q : qfun) (c : cfun) (t : tstate) (seg del : N) : Prop := {
  cn_le : seg <= t_cur t;
  cn_lo : forall s, 1 <= s -> s < seg -> q (sl t s) s = [];
  cn_at : 1 <= seg -> del + nlen (q (sl t seg) seg) <= c (sl t seg) seg;
  cn_0 : seg = 0 -> del = 0
}.

(* Over functions, not over a state: a node update is then [upd2] / [upd1] of a function, and a state
   is reached through [Dn_ext].  [dn_cur], [dn_ldef], [dn_lead] repeat ti_pos, ti_leaders, ti_open of
   MetaP.tinv, so that no other invariant of the metadata is needed. *)
Record Dn (q : qfun) (c : cfun) (u : ufun) (t : tstate) (Q : list cpayload) : Prop := {
  dn_cur : 1 <= t_cur t;
  dn_ldef : forall s, 1 <= s -> s <= t_cur t -> lookup N.compare s (t_leaders t) <> None;
  dn_lead : lookup N.compare (t_cur t) (t_leaders t) = Some (t_leader t);
  dn_sealed : forall s, 1 <= s -> s < t_cur t -> sealed_of t s = c (sl t s) s;
  dn_out : forall n s, s = 0 \/ t_cur t < s -> q n s = [] /\ c n s = 0;
  dn_other : forall n s, 1 <= s -> s <= t_cur t -> n <> sl t s -> q n s = [];
  dn_len : forall s, 1 <= s -> s <= t_cur t -> nlen (q (sl t s) s) <= c (sl t s) s;
  dn_q : Q = flat_map (fun s => q (sl t s) s) (segs (t_cur t));
  dn_curs : forall h, CVn q c t (fst (u h)) (snd (u h))
}.

Definition DS (s : cst) (t : tstate) (Q : list cpayload) : Prop := Dn (qo s) (co s) (cu s) t Q.

Lemma sl_cur q c u t Q : Dn q c u t Q -> sl t (t_cur t) = t_leader t.
Proof. intros H. unfold sl, seg_leader. now rewrite (dn_lead _ _ _ _ _ H). Qed.

Lemma Dn_ext q c u q' c' u' t Q :
  (forall n s, q' n s = q n s) -> (forall n s, c' n s = c n s) -> (forall h, u' h = u h) ->
  Dn q c u t Q -> Dn q' c' u' t Q.
Proof.
  intros Eq Ec Eu [H1 H2 H3 H4 H5 H6 H7 H8 H9]. split; auto.
  - intros s A B. rewrite Ec. auto.
  - intros n s A. rewrite Eq, Ec. auto.
  - intros n s A B C. rewrite Eq. auto.
  - intros s A B. rewrite Eq, Ec. auto.
  - rewrite H8. apply flat_map_ext_in. intros s _. now rewrite Eq.
  - intros h. rewrite Eu. destruct (H9 h) as [C1 C2 C3 C4]. split; auto.
    + intros s A B. rewrite Eq. auto.
    + intros A. rewrite Eq, Ec. auto.
Qed.

Definition upd2 {V} (f : N -> N -> V) (n s : N) (v : V) : N -> N -> V :=
  fun n' s' => if (n' =? n) && (s' =? s) then v else f n' s'.
Definition upd1 {V} (f : N -> V) (n : N) (v : V) : N -> V := fun n' => if n' =? n then v else f n'.

Lemma upd2_same {V} (f : N -> N -> V) n s v : upd2 f n s v n s = v.
Proof. unfold upd2. now rewrite !N.eqb_refl. Qed.
Lemma upd2_other {V} (f : N -> N -> V) n s v n' s' : n' <> n \/ s' <> s -> upd2 f n s v n' s' = f n' s'.
Proof.
  intros H. unfold upd2. destruct (N.eqb_spec n' n); destruct (N.eqb_spec s' s); cbn; auto. subst. destruct H; contradiction.
Qed.

(* the engine append at the leader of the current segment, with its record_append *)
Lemma Dn_append q c u t Q p :
  Dn q c u t Q ->
  Dn (upd2 q (t_leader t) (t_cur t) (q (t_leader t) (t_cur t) ++ [p]))
     (upd2 c (t_leader t) (t_cur t) (c (t_leader t) (t_cur t) + 1)) u t (Q ++ [p]).
Proof.
  intros HD. pose proof (sl_cur _ _ _ _ _ HD) as Hsl. destruct HD as [H1 H2 H3 H4 H5 H6 H7 H8 H9].
  set (l := t_leader t) in *. set (k := t_cur t) in *.
  split; auto.
  - intros s A B. rewrite upd2_other by (right; lia). auto.
  - intros n s A. rewrite !upd2_other by (right; lia). auto.
  - intros n s A B C. destruct (N.eq_dec s k) as [->|Hne].
    + rewrite upd2_other by (left; congruence). auto.
    + rewrite upd2_other by (right; exact Hne). auto.
  - intros s A B. destruct (N.eq_dec s k) as [->|Hne].
    + rewrite Hsl, !upd2_same, nlen_app. specialize (H7 k A B). rewrite Hsl in H7. unfold nlen at 2. cbn [length]. lia.
    + rewrite !upd2_other by (right; exact Hne). auto.
  - rewrite H8. unfold k. rewrite (segs_split (t_cur t) (t_cur t)) by lia.
    replace (N.to_nat (t_cur t - t_cur t)) with 0%nat by lia. cbn [nrange].
    rewrite !flat_map_app. cbn [flat_map]. rewrite !app_nil_r. fold k. rewrite Hsl, upd2_same, app_assoc. f_equal. f_equal.
    apply flat_map_ext_in. intros s Hs. apply in_segs in Hs. rewrite upd2_other by (right; lia). reflexivity.
  - intros h. destruct (H9 h) as [C1 C2 C3 C4]. split; auto.
    + intros s A B. rewrite upd2_other by (right; lia). auto.
    + intros A. destruct (N.eq_dec (fst (u h)) k) as [E|Hne].
      * rewrite E, Hsl, !upd2_same, nlen_app. specialize (C3 A). rewrite E, Hsl in C3. unfold nlen at 2. cbn [length]. lia.
      * rewrite !upd2_other by (right; exact Hne). auto.
Qed.

Lemma Dn_cursor q c u t Q h seg del :
  Dn q c u t Q -> CVn q c t seg del -> Dn q c (upd1 u h (seg, del)) t Q.
Proof.
  intros [H1 H2 H3 H4 H5 H6 H7 H8 H9] Hcv. split; auto.
  intros h'. unfold upd1. destruct (h' =? h); [exact Hcv|apply H9].
Qed.

(* the consuming read of the head of segment [seg] (cursor segment of h) at its leader, and h's
   cursor advance *)
Lemma Dn_deq q c u t Q h a rest :
  Dn q c u t Q -> q (sl t (fst (u h))) (fst (u h)) = a :: rest ->
  exists Q', Q = a :: Q' /\
    Dn (upd2 q (sl t (fst (u h))) (fst (u h)) rest) c (upd1 u h (fst (u h), snd (u h) + 1)) t Q'.
Proof.
  intros [H1 H2 H3 H4 H5 H6 H7 H8 H9] Hq.
  destruct (H9 h) as [C1 C2 C3 C4]. destruct (u h) as [cs cd] eqn:Eu. cbn [fst snd] in *.
  (* segment 0 holds nothing *)
  assert (Hcs : 1 <= cs).
  { destruct (N.eq_dec cs 0) as [->|]; [|lia]. destruct (H5 (sl t 0) 0 (or_introl eq_refl)) as [E0 _]. rewrite E0 in Hq. discriminate. }
  set (q' := upd2 q (sl t cs) cs rest).
  exists (flat_map (fun s => q' (sl t s) s) (segs (t_cur t))). split.
  - rewrite H8. rewrite (segs_split (t_cur t) cs) by lia. rewrite !flat_map_app. cbn [flat_map].
    rewrite !(flat_map_nil _ (segs (cs - 1))).
    + cbn [app]. rewrite Hq. unfold q' at 1. rewrite upd2_same. cbn [app]. do 2 f_equal.
      apply flat_map_ext_in. intros s Hs. apply in_nrange in Hs. unfold q'. rewrite upd2_other by (right; lia). reflexivity.
    + intros s Hs. apply in_segs in Hs. unfold q'. rewrite upd2_other by (right; lia). apply C2; lia.
    + intros s Hs. apply in_segs in Hs. apply C2; lia.
  - assert (Hle : forall n s, nlen (q' n s) <= nlen (q n s)).
    { intros n s. unfold q', upd2. destruct ((n =? sl t cs) && (s =? cs)) eqn:E; [|lia].
      apply andb_prop in E. destruct E as [E1 E2]. apply N.eqb_eq in E1, E2. subst. rewrite Hq, nlen_cons. lia. }
    assert (Hnil : forall n s, q n s = [] -> q' n s = []).
    { intros n s E. apply nlen_0. specialize (Hle n s). rewrite E in Hle. rewrite nlen_nil in Hle. lia. }
    split; [exact H1|exact H2|exact H3|exact H4| | | |reflexivity|].
    + intros n s A. destruct (H5 n s A) as [B1 B2]. split; [now apply Hnil|exact B2].
    + intros n s A B C. apply Hnil. auto.
    + intros s A B. specialize (H7 s A B). specialize (Hle (sl t s) s). lia.
    + intros h'. unfold upd1. destruct (N.eqb_spec h' h) as [->|Hne].
      * cbn [fst snd]. split; [exact C1| | |lia].
        -- intros s A B. apply Hnil. auto.
        -- intros A. unfold q'. rewrite upd2_same. specialize (C3 A). rewrite Hq, nlen_cons in C3. lia.
      * destruct (H9 h') as [E1 E2 E3 E4]. split; [exact E1| | |exact E4].
        -- intros s A B. apply Hnil. auto.
        -- intros A. specialize (E3 A). specialize (Hle (sl t (fst (u h'))) (fst (u h'))). lia.
Qed.

Lemma CVn_next q c u t Q seg del : Dn q c u t Q -> CVn q c t seg del ->
  q (sl t seg) seg = [] -> seg < t_cur t -> CVn q c t (seg + 1) 0.
Proof.
  intros [H1 H2 H3 H4 H5 H6 H7 H8 H9] [C1 C2 C3 C4] E Hlt. split.
  - lia.
  - intros s A B. destruct (N.eq_dec s seg) as [->|]; [exact E|]. apply C2; lia.
  - intros _. rewrite N.add_0_l. apply H7; lia.
  - lia.
Qed.

Lemma skip_sealed_ok q c u t Q : Dn q c u t Q -> forall fuel seg del, 1 <= seg -> CVn q c t seg del ->
  CVn q c t (fst (skip_sealed fuel t seg del)) (snd (skip_sealed fuel t seg del)).
Proof.
  intros HD. induction fuel as [|f IH]; intros seg del Hs Hcv; cbn [skip_sealed].
  - auto.
  - destruct (N.ltb_spec seg (t_cur t)) as [Hlt|Hge]; [|auto].
    fold (sealed_of t seg). destruct (N.leb_spec (sealed_of t seg) del) as [Hle|Hgt]; [|auto].
    apply IH; [lia|]. apply (CVn_next q c u t Q seg del HD Hcv); [|exact Hlt].
    (* the cursor has reached the sealed count, which bounds what the segment still holds *)
    apply nlen_0. rewrite (dn_sealed _ _ _ _ _ HD seg Hs Hlt) in Hle. pose proof (cn_at _ _ _ _ _ Hcv Hs). lia.
Qed.

Lemma CVn_first q c u t Q seg del : Dn q c u t Q -> CVn q c t seg del ->
  CVn q c t (if seg =? 0 then 1 else seg) del /\ 1 <= (if seg =? 0 then 1 else seg).
Proof.
  intros [H1 H2 H3 H4 H5 H6 H7 H8 H9] [C1 C2 C3 C4]. destruct (N.eqb_spec seg 0) as [->|Hne].
  - split; [|lia]. rewrite (C4 eq_refl). split.
    + exact H1.
    + intros s A B. lia.
    + intros _. rewrite N.add_0_l. apply H7; lia.
    + lia.
  - split; [|lia]. split; auto.
Qed.

(* the proposed count is the counter of the open segment's leader, which is what [dn_sealed] asks of the segment
   this seals; the segments up to it keep their leaders ([Hsl']); the one it opens holds nothing ([dn_out]), so [Q] stays *)
Lemma Dn_rolled q c u t t' Q nl :
  Dn q c u t Q -> rollover_fx t nl (c (t_leader t) (t_cur t)) = Some t' -> Dn q c u t' Q.
Proof.
  intros HD. pose proof (sl_cur _ _ _ _ _ HD) as Hsl. destruct HD as [H1 H2 H3 H4 H5 H6 H7 H8 H9]. unfold rollover_fx.
  destruct (two64 <=? t_last t + c (t_leader t) (t_cur t)); [discriminate|].
  destruct (two64 <=? t_cur t + 1); [discriminate|]. intros E. inversion E; subst t'; clear E.
  set (t' := mkTopic _ _ _ _ _).
  assert (Hsl' : forall s, 1 <= s -> s <= t_cur t -> sl t' s = sl t s).
  { intros s A B. unfold sl, seg_leader, t'. cbn [t_leaders t_leader].
    rewrite (lookup_ins_other N_cmp_ok) by lia.
    destruct (N.eq_dec s (t_cur t)) as [->|Hne].
    - now rewrite (lookup_ins_same N_cmp_ok), H3.
    - rewrite (lookup_ins_other N_cmp_ok) by exact Hne.
      destruct (lookup N.compare s (t_leaders t)) eqn:El; [reflexivity|]. exfalso. now apply (H2 s A B). }
  split; cbn [t_cur t_leader t_leaders t_sealed t'].
  - lia.
  - intros s A B. destruct (N.eq_dec s (t_cur t + 1)) as [->|Hne].
    + rewrite (lookup_ins_same N_cmp_ok). discriminate.
    + rewrite (lookup_ins_other N_cmp_ok) by exact Hne.
      destruct (N.eq_dec s (t_cur t)) as [->|Hne2].
      * rewrite (lookup_ins_same N_cmp_ok). discriminate.
      * rewrite (lookup_ins_other N_cmp_ok) by exact Hne2. apply H2; lia.
  - now rewrite (lookup_ins_same N_cmp_ok).
  - intros s A B. rewrite (Hsl' s) by lia. unfold sealed_of. cbn [t_sealed t']. destruct (N.eq_dec s (t_cur t)) as [->|Hne].
    + rewrite (lookup_ins_same N_cmp_ok). now rewrite Hsl.
    + rewrite (lookup_ins_other N_cmp_ok) by exact Hne. apply H4; lia.
  - intros n s A. apply H5. lia.
  - intros n s A B C. destruct (N.eq_dec s (t_cur t + 1)) as [->|Hne].
    + apply H5. lia.
    + rewrite (Hsl' s) in C by lia. apply H6; auto. lia.
  - intros s A B. destruct (N.eq_dec s (t_cur t + 1)) as [->|Hne].
    + destruct (H5 (sl t' (t_cur t + 1)) (t_cur t + 1)) as [E1 E2]; [lia|]. rewrite E1, nlen_nil. lia.
    + rewrite (Hsl' s) by lia. apply H7; lia.
  - rewrite segs_succ, flat_map_app. cbn [flat_map].
    destruct (H5 (sl t' (t_cur t + 1)) (t_cur t + 1)) as [E1 _]; [lia|]. rewrite E1, !app_nil_r, H8.
    apply flat_map_ext_in. intros s Hs. apply in_segs in Hs. now rewrite Hsl' by lia.
  - intros h. destruct (H9 h) as [C1 C2 C3 C4]. split; [unfold t'; cbn [t_cur]; lia| | |exact C4].
    + intros s A B. rewrite Hsl' by lia. apply C2; auto.
    + intros A. rewrite Hsl' by lia. auto.
Qed.

Lemma qo_set s e x' n seg : qo (set_node s e x') n seg = if n =? e then queue_of x' seg else qo s n seg.
Proof. unfold qo. rewrite get_set. now destruct (n =? e). Qed.
Lemma co_set s e x' n seg : co (set_node s e x') n seg = if n =? e then count_of x' seg else co s n seg.
Proof. unfold co. rewrite get_set. now destruct (n =? e). Qed.
Lemma cu_set s e x' h : cu (set_node s e x') h = if h =? e then cur_of x' else cu s h.
Proof. unfold cu. rewrite get_set. now destruct (h =? e). Qed.

Lemma cu_node s h x : get_node s h = Some x -> cu s h = cur_of x.
Proof. intros H. unfold cu. now rewrite H. Qed.
Lemma qo_node s n x seg : get_node s n = Some x -> qo s n seg = queue_of x seg.
Proof. intros H. unfold qo. now rewrite H. Qed.
Lemma co_node s n x seg : get_node s n = Some x -> co s n seg = count_of x seg.
Proof. intros H. unfold co. now rewrite H. Qed.

(* an update of node e seen through qo / co / cu: one queue, one counter or the cursor is
   replaced, everything else is kept *)
Lemma qo_keep s e x : get_node s e = Some x -> forall x', nd_q x' = nd_q x -> forall n seg, qo (set_node s e x') n seg = qo s n seg.
Proof.
  intros Hg x' E n seg. rewrite qo_set. destruct (N.eqb_spec n e) as [->|]; [|reflexivity]. unfold qo, queue_of. now rewrite Hg, E.
Qed.
Lemma co_keep s e x : get_node s e = Some x -> forall x', nd_offsets x' = nd_offsets x -> forall n seg, co (set_node s e x') n seg = co s n seg.
Proof.
  intros Hg x' E n seg. rewrite co_set. destruct (N.eqb_spec n e) as [->|]; [|reflexivity]. unfold co, count_of. now rewrite Hg, E.
Qed.
Lemma cu_keep s e x : get_node s e = Some x -> forall x', nd_cursor x' = nd_cursor x -> forall h, cu (set_node s e x') h = cu s h.
Proof.
  intros Hg x' E h. rewrite cu_set. destruct (N.eqb_spec h e) as [->|]; [|reflexivity]. unfold cu, cur_of. now rewrite Hg, E.
Qed.

Lemma qo_put s e x : get_node s e = Some x -> forall x' seg v, nd_q x' = ins N.compare seg v (nd_q x) ->
  forall n sg, qo (set_node s e x') n sg = upd2 (qo s) e seg v n sg.
Proof.
  intros Hg x' seg v E n sg. rewrite qo_set. unfold upd2. destruct (N.eqb_spec n e) as [->|]; cbn [andb]; [|reflexivity].
  unfold queue_of. rewrite E, lookup_ins_or. unfold qo, queue_of. now rewrite Hg.
Qed.
Lemma co_put s e x : get_node s e = Some x -> forall x' seg v, nd_offsets x' = ins N.compare seg v (nd_offsets x) ->
  forall n sg, co (set_node s e x') n sg = upd2 (co s) e seg v n sg.
Proof.
  intros Hg x' seg v E n sg. rewrite co_set. unfold upd2. destruct (N.eqb_spec n e) as [->|]; cbn [andb]; [|reflexivity].
  unfold count_of. rewrite E, lookup_ins_or. unfold co, count_of. now rewrite Hg.
Qed.
Lemma cu_put s h x' : forall h', cu (set_node s h x') h' = upd1 (cu s) h (cur_of x') h'.
Proof. intros h'. rewrite cu_set. unfold upd1. now destruct (h' =? h). Qed.

(* between two events of the sequential system: every node has applied the whole log and holds the metadata [M],
   whose topic is [t]; only configured nodes exist *)
Record Synced (cfg : ccfg) (s : cst) (M : mstate) (t : tstate) : Prop := {
  b_sync : forall n x, get_node s n = Some x -> nd_applied x = length (s_log s) /\ nd_meta x = M;
  b_topic : topic_of M = Some t;
  b_dom : forall n, get_node s n <> None -> In n (node_ids cfg)
}.

Lemma Synced_eq cfg s s' M t : s_nodes s' = s_nodes s -> s_log s' = s_log s -> Synced cfg s M t -> Synced cfg s' M t.
Proof.
  intros En El [H1 H2 H3]. split; auto.
  - intros n x Hx. unfold get_node in Hx. rewrite En in Hx. rewrite El. now apply (H1 n).
  - intros n Hn. apply H3. unfold get_node in *. now rewrite <- En.
Qed.

Lemma Synced_shape cfg s M t pc s1 : Synced cfg s M t -> shape s pc s1 -> s_log s1 = s_log s -> Synced cfg s1 M t.
Proof.
  intros HB Hsh El. destruct Hsh as [->|e x x' Hg -> [Hm Ha] _|c k -> ->]; auto.
  - destruct HB as [H1 H2 H3]. split; auto.
    + intros n y Hy. cbn [set_node s_log]. destruct (N.eq_dec n e) as [->|Hne].
      * rewrite get_set_same in Hy. inversion Hy. subst y. rewrite Hm, Ha. now apply (H1 e).
      * rewrite get_set_other in Hy by exact Hne. now apply (H1 n).
    + intros n Hn. destruct (N.eq_dec n e) as [->|Hne]; [apply H3; congruence|].
      rewrite get_set_other in Hn by exact Hne. now apply H3.
  - exfalso. cbn [s_log] in El. apply (f_equal (@length cmd)) in El. rewrite app_length in El. cbn in El. lia.
Qed.

(* what apply_pending does to the node it runs on *)
Fixpoint catch (log : list cmd) (fuel : nat) (x : node) : node :=
  match fuel with
  | O => x
  | S f => match nth_error log (nd_applied x) with
           | Some c => catch log f (with_meta x (fst (apply_cmd_fx (nd_meta x) c)) (S (nd_applied x)))
           | None => x
           end
  end.

Definition same_tasks (s s' : cst) : Prop := s_log s' = s_log s /\ same_recs s s'.

Lemma ap_catch fuel : forall s n, let s' := apply_pending fuel s n in
  same_tasks s s' /\
  forall m, get_node s' m = if m =? n then option_map (catch (s_log s) fuel) (get_node s n) else get_node s m.
Proof.
  induction fuel as [|f IH]; intros s n; cbn zeta; cbn [apply_pending].
  - split; [repeat split|]. intros m. destruct (N.eqb_spec m n) as [->|]; [now destruct (get_node s n)|reflexivity].
  - unfold Cluster.step_apply. destruct (get_node s n) as [x|] eqn:Hg.
    2:{ split; [repeat split|]. intros m. destruct (N.eqb_spec m n) as [->|]; [now rewrite Hg|reflexivity]. }
    cbn [option_map catch]. destruct (nth_error (s_log s) (nd_applied x)) as [c|].
    2:{ split; [repeat split|]. intros m. destruct (N.eqb_spec m n) as [->|]; [exact Hg|reflexivity]. }
    destruct (IH (set_node s n (with_meta x (fst (apply_cmd_fx (nd_meta x) c)) (S (nd_applied x)))) n) as [A B].
    split; [exact A|]. intros m. rewrite B. cbn [set_node s_log]. rewrite get_set_same.
    destruct (N.eqb_spec m n) as [->|Hne]; [reflexivity|now apply get_set_other].
Qed.

Lemma catch_done log x fuel : nth_error log (nd_applied x) = None -> catch log fuel x = x.
Proof. intros H. destruct fuel; cbn [catch]; [reflexivity|now rewrite H]. Qed.

Lemma catch_full log : forall fuel x, (length log <= fuel + nd_applied x)%nat ->
  nth_error log (nd_applied (catch log fuel x)) = None.
Proof.
  induction fuel as [|f IH]; intros x H; cbn [catch]; [apply nth_error_None; exact H|].
  destruct (nth_error log (nd_applied x)) eqn:E; [apply IH; cbn [with_meta nd_applied]; lia|exact E].
Qed.

Lemma fold_catch l : forall s,
  let s' := fold_left (fun s n => apply_pending (length (s_log s)) s n) l s in
  same_tasks s s' /\
  forall m, get_node s' m =
    if existsb (N.eqb m) l then option_map (catch (s_log s) (length (s_log s))) (get_node s m) else get_node s m.
Proof.
  induction l as [|n l IH]; intros s; cbn zeta; cbn [fold_left existsb]; [repeat split|].
  destruct (ap_catch (length (s_log s)) s n) as [(A1 & A2 & A3 & A4) A5].
  destruct (IH (apply_pending (length (s_log s)) s n)) as [(B1 & B2 & B3 & B4) B5]. cbn zeta in *.
  split; [repeat split; congruence|]. intros m. rewrite B5, A5, A1.
  destruct (N.eqb_spec m n) as [->|]; cbn [orb]; [|reflexivity].
  destruct (existsb (N.eqb n) l); [|reflexivity]. destruct (get_node s n) as [x|]; [|reflexivity]. cbn [option_map].
  rewrite (catch_done _ (catch _ _ x)); [reflexivity|apply catch_full; lia].
Qed.

Lemma ae_tasks cfg s : same_tasks s (apply_everywhere cfg s).
Proof. apply (fold_catch (node_ids cfg) s). Qed.

Lemma ae_same cfg s M t : Synced cfg s M t -> apply_everywhere cfg s = s.
Proof. intros HB. apply ae_id. intros n x Hx. apply (b_sync _ _ _ _ HB n x Hx). Qed.

(* after a proposal: every node applies the new command *)
Lemma ae_one cfg s M t c s1 :
  Synced cfg s M t -> s_nodes s1 = s_nodes s -> s_log s1 = s_log s ++ [c] ->
  forall n, get_node (apply_everywhere cfg s1) n =
    option_map (fun x => with_meta x (fst (apply_cmd_fx M c)) (S (length (s_log s)))) (get_node s n).
Proof.
  intros [Hs Ht Hd] En El n. rewrite (proj2 (fold_catch (node_ids cfg) s1)). replace (get_node s1 n) with (get_node s n) by (unfold get_node; now rewrite En).
  destruct (get_node s n) as [x|] eqn:Hx; [|now destruct (existsb _ _)].
  replace (existsb (N.eqb n) (node_ids cfg)) with true
    by (symmetry; apply existsb_eqb_in, Hd; congruence).
  destruct (Hs _ _ Hx) as [Ha Hm]. cbn [option_map]. f_equal.
  rewrite El, app_length, Nat.add_comm. cbn [length Nat.add catch].
  rewrite Ha, nth_error_app2, Nat.sub_diag, Hm by lia. cbn [nth_error].
  apply catch_done. apply nth_error_None. cbn [with_meta nd_applied]. rewrite app_length. cbn [length]. lia.
Qed.

(* what the task at a pc is doing: the PUT of payload p, a GET, a round of a background loop *)
Inductive knd := KP (p : cpayload) | KG | KB.
Definition isp (kd : knd) : Prop := match kd with KP _ => True | _ => False end.
(* the acceptor's queue once the task's pending answer is given *)
Definition Qn (kd : knd) (Q : list cpayload) : list cpayload := match kd with KP p => Q ++ [p] | _ => Q end.
(* p is the payload the model hands to exec_pc for this task *)
Definition kpn (kd : knd) (p : cpayload) : Prop := match kd with KP p' => p' = p | _ => True end.
(* a proposal comes from a PUT's maybe_rollover or from the monitor *)
Definition ppk_okn (kd : knd) (k : ppk) : Prop := match k with PKPut => isp kd | PKMon _ => kd = KB end.

(* the data invariant with the task's pending bookkeeping completed: at PRecord the counter
   incremented, from PRecord on the payload in the acceptor's queue ([Qn]), at PGHw with a value in
   hand the cursor advanced and the value off the queue *)
Definition Stn (kd : knd) (pc : cpc) (q : qfun) (c : cfun) (u : ufun) (t : tstate) (Q : list cpayload) : Prop :=
  match pc with
  | PUlRead e ex k | PUlWrite e ex k =>
    Dn q c u t Q /\ match k with KAppend seg att => isp kd /\ seg = t_cur t /\ e = t_leader t | KTick => kd = KB end
  | PPutRpc dst seg => Dn q c u t Q /\ isp kd /\ seg = t_cur t /\ dst = t_leader t
  | PEnsure e seg att | PWlRead e seg att | PWlWrite e seg att | PKeyLock e seg att | PSpawn e seg att =>
    Dn q c u t Q /\ isp kd /\ seg = t_cur t /\ e = t_leader t
  | PRecord e seg => Dn q (upd2 c e seg (c e seg + 1)) u t (Qn kd Q) /\ e = t_leader t /\ seg = t_cur t /\ isp kd
  | PCount e seg => Dn q c u t (Qn kd Q) /\ e = t_leader t /\ seg = t_cur t /\ isp kd
  | PMetaRpc cm k | PPropose cm k =>
    Dn q c u t (Qn kd Q) /\ (exists nl, cm = RolloverTopic tname nl (c (t_leader t) (t_cur t))) /\ ppk_okn kd k
  | PWaitApplied idx k => Dn q c u t (Qn kd Q) /\ ppk_okn kd k
  | PGLock h => Dn q c u t Q /\ kd = KG
  | PGRpc h e cur | PGRead h e cur =>
    Dn q c u t Q /\ kd = KG /\ cur = t_cur t /\ e = sl t (fst (u h))
  | PGHw h e cur r =>
    kd = KG /\ cur = t_cur t /\
    match r with
    | Some a => exists Q', Q = a :: Q' /\ Dn q c (upd1 u h (fst (u h), snd (u h) + 1)) t Q'
    | None => Dn q c u t Q /\ q (sl t (fst (u h))) (fst (u h)) = []
    end
  | PLTick n | PMTick n => Dn q c u t Q /\ kd = KB
  | PMCount n seg => Dn q c u t Q /\ kd = KB /\ n = t_leader t /\ seg = t_cur t
  end.

(* the answer r takes the acceptor's queue from Q to Q' as c22_seq_scan demands *)
Definition finn (kd : knd) (r : cres) (q : qfun) (c : cfun) (u : ufun) (t : tstate) (Q Q' : list cpayload) : Prop :=
  Dn q c u t Q' /\
  match kd, r with
  | KP p, CROk => Q' = Q ++ [p]
  | KP _, CRErr _ => Q' = Q
  | KG, CRVal a => Q = a :: Q'
  | KG, CREmpty => Q = [] /\ Q' = []
  | KG, CRErr _ => Q' = Q
  | _, _ => False
  end.

(* what exec_pc's outcome has to be: no client-visible sub-event, and the clause of the pc it goes to, or for an
   answer [finn] *)
Definition outn (kd : knd) (out : outcome) (q : qfun) (c : cfun) (u : ufun) (t : tstate) (Q : list cpayload) : Prop :=
  match out with
  | OYield pc' _ subs | OBlocked subs pc' => quiet subs = true /\ Stn kd pc' q c u t Q
  | OFinish r subs => quiet subs = true /\ exists Q', finn kd r q c u t Q Q'
  end.

(* a PUT answered: refused before anything was written, or acknowledged with its bookkeeping complete *)
Lemma outn_perr kd n q c u t Q : isp kd -> Dn q c u t Q -> outn kd (OFinish (CRErr n) []) q c u t Q.
Proof. intros Hk HD. refine (conj eq_refl (ex_intro _ Q (conj HD _))). now destruct kd. Qed.
Lemma outn_pok kd q c u t Q : isp kd -> Dn q c u t (Qn kd Q) -> outn kd (OFinish CROk []) q c u t Q.
Proof. intros Hk HD. refine (conj eq_refl (ex_intro _ (Qn kd Q) (conj HD _))). now destruct kd. Qed.

Lemma outn_nodes s s' kd out t Q :
  s_nodes s' = s_nodes s -> outn kd out (qo s) (co s) (cu s) t Q -> outn kd out (qo s') (co s') (cu s') t Q.
Proof. destruct s, s'. cbn. intros ->. exact (fun H => H). Qed.

(* the outcomes of the model's continuation helpers, from the state of the pc that calls them *)
Lemma outn_after_ul kd e ex k q c u t Q : Stn kd (PUlRead e ex k) q c u t Q -> outn kd (after_ul e k) q c u t Q.
Proof. destruct k; exact (conj eq_refl). Qed.

Lemma outn_enter_propose kd e cm k q c u t Q :
  Stn kd (PPropose cm k) q c u t Q -> outn kd (enter_propose e cm k []) q c u t Q.
Proof. unfold enter_propose. destruct (e =? raft_leader); exact (conj eq_refl). Qed.

Lemma outn_after_propose kd idx k q c u t Q :
  Stn kd (PWaitApplied idx k) q c u t Q -> outn kd (after_propose k) q c u t Q.
Proof.
  intros [HD Hk]. destruct k; cbn [ppk_okn] in Hk.
  - exact (outn_pok _ _ _ _ _ _ Hk HD).
  - subst kd. exact (conj eq_refl (conj HD eq_refl)).
Qed.

(* a cursor write on node h, read back into the state *)
Lemma DS_cursor s h x seg del b t Q :
  get_node s h = Some x -> Dn (qo s) (co s) (upd1 (cu s) h (seg, del)) t Q ->
  DS (set_node s h (with_cursor x (Some (seg, del)) b)) t Q.
Proof. intros Hg. apply Dn_ext; [now apply (qo_keep s h x Hg)|now apply (co_keep s h x Hg)|apply cu_put]. Qed.

Lemma DS_set_cursor s h x seg del b t Q :
  get_node s h = Some x -> DS s t Q -> CVn (qo s) (co s) t seg del ->
  DS (set_node s h (with_cursor x (Some (seg, del)) b)) t Q.
Proof. intros Hg HD Hcv. apply (DS_cursor s h x seg del b t Q Hg). now apply Dn_cursor. Qed.

Lemma DS_keep s e x (Hg : get_node s e = Some x) x' t Q :
  nd_q x' = nd_q x -> nd_offsets x' = nd_offsets x -> nd_cursor x' = nd_cursor x ->
  DS s t Q -> DS (set_node s e x') t Q.
Proof. intros Eq Eo Ec. apply Dn_ext; [exact (qo_keep s e x Hg x' Eq)|exact (co_keep s e x Hg x' Eo)|exact (cu_keep s e x Hg x' Ec)]. Qed.

(* the common tail of PGLock / PGHw: run the cursor loop from (seg, del) on node h *)
Lemma loop_step s h x seg del t Q :
  get_node s h = Some x -> topic_of (nd_meta x) = Some t ->
  DS s t Q -> CVn (qo s) (co s) t seg del ->
  let r := (let '(x', o) := get_loop x h seg del in (set_node s h x', o)) in
  outn KG (snd r) (qo (fst r)) (co (fst r)) (cu (fst r)) t Q.
Proof.
  intros Hg Ht HD Hcv. unfold get_loop. rewrite Ht.
  destruct (CVn_first _ _ _ t Q seg del HD Hcv) as [Hcv1 Hs1].
  set (seg1 := if seg =? 0 then 1 else seg) in *.
  pose proof (skip_sealed_ok _ _ _ t Q HD (S (N.to_nat (t_cur t - seg1))) seg1 del Hs1 Hcv1) as Hcv2.
  destruct (skip_sealed (S (N.to_nat (t_cur t - seg1))) t seg1 del) as [seg2 del2]. cbn [fst snd] in *.
  replace (if seg2 =? t_cur t then t_leader t else seg_leader t seg2) with (sl t seg2)
    by (destruct (N.eqb_spec seg2 (t_cur t)) as [->|]; [eapply sl_cur; eauto|reflexivity]).
  (* whatever the outcome, the cursor written back is (seg2, del2) *)
  assert (K : forall b, let s1 := set_node s h (with_cursor x (Some (seg2, del2)) b) in DS s1 t Q /\ cu s1 h = (seg2, del2)).
  { intros b. split; [now apply DS_set_cursor|]. rewrite cu_put. unfold upd1. now rewrite N.eqb_refl. }
  destruct (N.eqb_spec (sl t seg2) h) as [E|Hne]; [|destruct (has_addr (nd_meta x) (sl t seg2))];
    [destruct (K true) as [HD1 Hc]..|destruct (K false) as [HD1 Hc]];
    cbn [fst snd outn Stn quiet forallb]; rewrite ?Hc; cbn [fst].
  - exact (conj eq_refl (conj HD1 (conj eq_refl (conj eq_refl (eq_sym E))))).
  - exact (conj eq_refl (conj HD1 (conj eq_refl (conj eq_refl eq_refl)))).
  - exact (conj eq_refl (ex_intro _ Q (conj HD1 eq_refl))).
Qed.
