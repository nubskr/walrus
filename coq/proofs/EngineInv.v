(* EngineInv.v — the per-topic invariant [TInv] of model/Engine.v and the abstraction to the queue spec:
   [stream] (everything appended) and [unread] (what the cursor has not passed); closed forms of [hydrate]
   and [should_persist]; the vocabulary of the read side ([mk_ts], [Read], [rtopic], [answer]). *)
From W Require Import model.Base model.Engine proofs.EngineWF.

Definition chain_ents (ch : list blk) : list entry := flat_map b_ents ch.
Definition w_ents (ts : tstate) : list entry := match ts_writer ts with Some w => b_ents w | None => [] end.
Definition w_list (ts : tstate) : list blk := match ts_writer ts with Some w => [w] | None => [] end.
Definition chain_of (ts : tstate) : list blk := r_chain (reader_of ts).

(* the offset-addressed batch read takes the chain from the stored reader itself (model br_position) *)
Lemma chain_of_raw ts : match ts_reader ts with Some r => r_chain r | None => [] end = chain_of ts.
Proof. unfold chain_of, reader_of. now destruct (ts_reader ts). Qed.

Definition stream (ts : tstate) : list entry := chain_ents (chain_of ts) ++ w_ents ts.

Definition tail_start (ts : tstate) (w : blk) : N :=
  if r_tail_bid (reader_of ts) =? b_id w then r_tail_off (reader_of ts) else 0.

(* what the consumer has not been handed yet *)
Definition unread (c : Cfg) (ts : tstate) : list entry :=
  let r := reader_of ts in
  match skipn (r_idx r) (r_chain r) with
  | b :: rest => ents_from c (b_ents b) (r_off r) ++ chain_ents rest ++ w_ents ts
  | [] => match ts_writer ts with
          | Some w => ents_from c (b_ents w) (tail_start ts w)
          | None => []
          end
  end.

Definition bwf (c : Cfg) (b : blk) : Prop :=
  b_used b = sum_need c (b_ents b) /\ b_used b <= b_limit b /\ b_limit b <= u64_max.

Definition cnt (ts : tstate) : N := match ts_count ts with Some n => n | None => 0 end.

(* [nid] is the allocator's next block id ([a_next (s_alloc s)] in EngineW.GInv): every id handed out lies below it.
   The cursor is (r_idx, r_off) while inside the chain; behind the chain r_off is 0 and the place in the writer
   block is [tail_start].  [ti_sealed_tail]: [chain_push] turns a tail position in the block it seals into the
   cursor, so while the cursor is inside the chain the tail fields do not name the writer block, and all of that
   block is unread.  [ti_hyd]: within one process only a hydrated reader writes the index.  [reopen] leaves an
   un-hydrated reader beside the index it kept, so [TInv] fails right after a restart for a topic with a persisted
   position: what is proved over it is about restart-free runs, and the restart theorems reach it through the
   normalisation of EngineNorm.v. *)
Record TInv (c : Cfg) (nid : N) (ts : tstate) : Prop := {
  ti_poison : ts_poisoned ts = false;
  ti_unm : ts_unmodelled ts = false;
  ti_chain : Forall (bwf c) (chain_of ts);
  ti_writer : Forall (bwf c) (w_list ts);
  ti_nodup : NoDup (map b_id (chain_of ts ++ w_list ts));
  ti_ids : Forall (fun b => 0 < b_id b < nid) (chain_of ts ++ w_list ts);
  ti_tail_lt : r_tail_bid (reader_of ts) < nid;
  ti_idx : (r_idx (reader_of ts) <= length (chain_of ts))%nat;
  ti_end : r_idx (reader_of ts) = length (chain_of ts) -> r_off (reader_of ts) = 0;
  ti_cur : forall b, nth_error (chain_of ts) (r_idx (reader_of ts)) = Some b ->
           okoff c (b_ents b) (r_off (reader_of ts));
  ti_sealed_tail : (r_idx (reader_of ts) < length (chain_of ts))%nat ->
                   forall w, ts_writer ts = Some w -> r_tail_bid (reader_of ts) <> b_id w;
  ti_tail : forall w, ts_writer ts = Some w -> okoff c (b_ents w) (tail_start ts w);
  ti_hyd : r_hydrated (reader_of ts) = false -> ts_index ts = None;
  ti_cnt : cnt ts = N.of_nat (length (unread c ts))
}.

Lemma TInv0 c n : 0 < n -> TInv c n tstate0.
Proof.
  intros Hn.
  constructor; unfold chain_of, w_list, reader_of, unread, cnt, tail_start; cbn;
    try reflexivity; try (constructor; fail); try lia; try (intros; discriminate).
Qed.

Lemma get_set_same s t ts : get_ts (set_ts s t ts) t = ts.
Proof. unfold get_ts, set_ts. cbn [s_topics]. now rewrite find_set_assoc_same. Qed.

Lemma get_set_other s t t' ts : t' <> t -> get_ts (set_ts s t ts) t' = get_ts s t'.
Proof. intros Hne. unfold get_ts, set_ts. cbn [s_topics]. now rewrite find_set_assoc_other. Qed.

(* the shape of every state a read stores *)
Definition mk_ts (ts : tstate) (r' : reader) (cnt' : option N) (idx' : option ppos) : tstate :=
  {| ts_reader := Some r'; ts_writer := ts_writer ts; ts_poisoned := ts_poisoned ts; ts_count := cnt';
     ts_index := idx'; ts_unmodelled := ts_unmodelled ts |}.

(* hydration in a process whose index was only written by already hydrated readers.  A record
   equals its own update by the value the field already has, so [hydrate] (and [should_persist]
   below) has one closed form in every case. *)
Lemma hydrate_eq r idx b : (r_hydrated r = false -> idx = None) -> hydrate r idx b = (set_hydrated r, None).
Proof.
  intros H. unfold hydrate. destruct (r_hydrated r) eqn:E; [|now rewrite (H eq_refl)].
  destruct r; cbn in E; subst; reflexivity.
Qed.

Lemma should_persist_fields m r f :
  let '(r', p) := should_persist m r f in
  r_chain r' = r_chain r /\ r_idx r' = r_idx r /\ r_off r' = r_off r /\ r_tail_bid r' = r_tail_bid r /\
  r_tail_off r' = r_tail_off r /\ r_hydrated r' = r_hydrated r.
Proof.
  unfold should_persist. destruct m as [|n]; [repeat split|].
  destruct f; [repeat split|]. destruct (N.max n 1 <=? _); repeat split.
Qed.

Lemma unread_mk c ts r' cnt' idx' :
  unread c (mk_ts ts r' cnt' idx') =
  match skipn (r_idx r') (r_chain r') with
  | b :: rest => ents_from c (b_ents b) (r_off r') ++ chain_ents rest ++ w_ents ts
  | [] => match ts_writer ts with
          | Some w => ents_from c (b_ents w) (if r_tail_bid r' =? b_id w then r_tail_off r' else 0)
          | None => []
          end
  end.
Proof. reflexivity. Qed.

Lemma stream_mk ts r' cnt' idx' : r_chain r' = chain_of ts -> stream (mk_ts ts r' cnt' idx') = stream ts.
Proof. intros H. unfold stream, chain_of, mk_ts, w_ents in *. cbn. now rewrite H. Qed.

Lemma chain_of_mk ts r' cnt' idx' : chain_of (mk_ts ts r' cnt' idx') = r_chain r'.
Proof. reflexivity. Qed.
Lemma reader_of_mk ts r' cnt' idx' : reader_of (mk_ts ts r' cnt' idx') = r'.
Proof. reflexivity. Qed.
Lemma tail_start_mk ts r' cnt' idx' w :
  tail_start (mk_ts ts r' cnt' idx') w = if r_tail_bid r' =? b_id w then r_tail_off r' else 0.
Proof. reflexivity. Qed.

Lemma sp_since m r f r' p : should_persist m r f = (r', p) -> r' = set_since r (r_since r').
Proof.
  destruct r. unfold should_persist. destruct m as [|n]; [|destruct f; [|destruct (_ <=? _)]]; intros [= <- <-]; reflexivity.
Qed.

Lemma sp_unforced m r r' p : should_persist m r false = (r', p) ->
  if p then match m with Strict => r_since r' = r_since r | ALO _ => r_since r' = 0 end
  else exists n, m = ALO n /\ r_since r' = N.min (r_since r + 1) u32_max /\ r_since r' < N.max n 1.
Proof.
  unfold should_persist. destruct m as [|n]; [intros [= <- <-]; reflexivity|]. cbv zeta.
  destruct (N.max n 1 <=? N.min (r_since r + 1) u32_max) eqn:E; intros [= <- <-]; [reflexivity|].
  exists n. cbn [set_since r_since]. split; [reflexivity|]. split; [reflexivity|lia].
Qed.

Lemma sp_forced m r r' p : should_persist m r true = (r', p) ->
  p = true /\ match m with Strict => r_since r' = r_since r | ALO _ => r_since r' = 0 end.
Proof. destruct m; intros [= <- <-]; split; reflexivity. Qed.

(* [ts'] is the topic [ts] after a read that consumed [d]: the same blocks, a hydrated reader, and [d]
   gone from the front of what is unread *)
Record Read (c : Cfg) (nid : N) (ts : tstate) (d : list entry) (ts' : tstate) : Prop := {
  rd_inv : TInv c nid ts';
  rd_stream : stream ts' = stream ts;
  rd_writer : ts_writer ts' = ts_writer ts;
  rd_chain : chain_of ts' = chain_of ts;
  rd_hyd : r_hydrated (reader_of ts') = true;
  rd_unread : unread c ts = d ++ unread c ts'
}.

Lemma Read_refl c nid ts : TInv c nid ts -> r_hydrated (reader_of ts) = true -> Read c nid ts [] ts.
Proof. intros H Hh. now constructor. Qed.

Lemma Read_trans c nid a d1 b d2 e : Read c nid a d1 b -> Read c nid b d2 e -> Read c nid a (d1 ++ d2) e.
Proof.
  intros A B. pose proof (rd_unread _ _ _ _ _ A) as Ua. pose proof (rd_unread _ _ _ _ _ B) as Ub.
  destruct A, B. constructor; try congruence. now rewrite Ua, Ub, app_assoc.
Qed.

(* the two stateful reads: the topic read, and whether the read consumes *)
Definition rtopic (o : op) : option (topic * bool) :=
  match o with ORead t ck | OBatchRead t _ ck None => Some (t, ck) | _ => None end.

Definition wtopic (o : op) : option topic := match o with OAppend t _ | OBatch t _ => Some t | _ => None end.

(* also true of the offset-addressed batch read, which [rtopic] leaves out *)
Definition is_batch (o : op) : bool := match o with OBatchRead _ _ _ _ => true | _ => false end.

(* the answer of a read that hands out the entries [l] *)
Definition answer (o : op) (l : list entry) : result :=
  match o with
  | ORead _ _ => match l with [] => RNone | e :: _ => REntry (out_of e) end
  | _ => REntries (map out_of l)
  end.

Lemma chain_ents_app a b : chain_ents (a ++ b) = chain_ents a ++ chain_ents b.
Proof. unfold chain_ents. apply flat_map_app. Qed.

Definition untouched (ts ts' : tstate) : Prop :=
  ts_index ts' = ts_index ts /\ r_since (reader_of ts') = r_since (reader_of ts).
