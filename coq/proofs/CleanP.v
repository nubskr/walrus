(* CleanP.v — proofs about the clean-marker model (model/Clean.v).  [k_pmove]: what a persister step
   does when it does anything ([k_pstep_move]).
   [k_inv s f]: the tracker's memory is the demanded state f, no dropped instance is still writing, and
   file, store and memory are tied together.  It is kept by every operation, a shutdown included when
   it flushes (KFlush) or happens in a quiet state ([k_step_ok]), so from any such state a history
   answers what C17 demands ([k_run_ok], [k_outs_ok] from the initial state).
   [k_tick_separated_settled]: the syntactic class [k_tick_separated] of model/Clean.v is a settled one. *)
From W Require Import model.Base model.Map model.Clean spec.CleanSpec proofs.MapP.

(* the order of the tracker's maps is the order of model/Map.v *)
Lemma k_cmp_str_cmp a b : k_cmp a b = str_cmp a b.
Proof. reflexivity. Qed.

Lemma k_cmp_refl a : k_cmp a a = Eq.
Proof. apply str_cmp_refl. Qed.

Lemma k_cmp_eq a b : k_cmp a b = Eq -> a = b.
Proof. rewrite k_cmp_str_cmp. apply (cmp_eq str_cmp_ok). Qed.

Lemma k_cmp_eq_l a b c : k_cmp a b = Eq -> k_cmp c a = k_cmp c b.
Proof. intros H. apply k_cmp_eq in H. now subst. Qed.

Lemma k_find_upd k v m : forall k',
  k_find k' (k_upd k v m) = match k_cmp k' k with Eq => Some v | _ => k_find k' m end.
Proof.
  induction m as [|[k0 v0] r IH]; intros k'; cbn [k_upd k_find].
  - destruct (k_cmp k' k); reflexivity.
  - destruct (k_cmp k k0) eqn:E; cbn [k_find].
    + rewrite <- (k_cmp_eq_l _ _ k' E). destruct (k_cmp k' k); reflexivity.
    + destruct (k_cmp k' k); reflexivity.
    + rewrite IH. destruct (k_cmp k' k0) eqn:E0; try reflexivity.
      apply k_cmp_eq in E0. subst k0.
      destruct (k_cmp k' k) eqn:E1; try reflexivity.
      apply k_cmp_eq in E1. subst. rewrite k_cmp_refl in E. discriminate.
Qed.

Lemma k_clean_of_upd k v m t :
  k_clean_of (k_upd k v m) t = match k_cmp t k with Eq => cr_clean v | _ => k_clean_of m t end.
Proof. unfold k_clean_of. rewrite k_find_upd. destruct (k_cmp t k); reflexivity. Qed.

Lemma k_mem_add t q : forall t',
  k_mem t' (k_add t q) = match k_cmp t' t with Eq => true | _ => k_mem t' q end.
Proof.
  induction q as [|k0 r IH]; intros t'; cbn [k_add k_mem].
  - destruct (k_cmp t' t); reflexivity.
  - destruct (k_cmp t k0) eqn:E; cbn [k_mem].
    + rewrite (k_cmp_eq_l _ _ t' E). destruct (k_cmp t' k0); reflexivity.
    + destruct (k_cmp t' t); reflexivity.
    + rewrite IH. destruct (k_cmp t' k0) eqn:E0; try reflexivity.
      destruct (k_cmp t' t); reflexivity.
Qed.

Lemma k_find_apply ups : forall store t,
  k_find t (k_apply ups store) =
  match k_find t ups with Some r => Some r | None => k_find t store end.
Proof.
  induction ups as [|[k v] r IH]; intros store t; cbn [k_apply fold_right k_find fst snd]; [reflexivity|].
  rewrite k_find_upd. fold (k_apply r store). rewrite IH.
  destruct (k_cmp t k); reflexivity.
Qed.

Lemma k_find_updates p mem : forall t,
  k_find t (k_updates p mem) = if k_mem t p then k_find t mem else None.
Proof.
  induction p as [|k r IH]; intros t; cbn [k_updates k_mem k_find]; [reflexivity|].
  destruct (k_find k mem) eqn:F; cbn [k_find]; rewrite IH.
  - destruct (k_cmp t k) eqn:E; try reflexivity. apply k_cmp_eq in E. subst. now rewrite F.
  - destruct (k_cmp t k) eqn:E; try reflexivity. apply k_cmp_eq in E. subst. rewrite F.
    destruct (k_mem k r); reflexivity.
Qed.

(* update_state in one equation: the stored record carries the desired flag, and the topic is
   queued exactly when the flag changes *)
Lemma k_mark_spec t d i : exists r, cr_clean r = d /\
  k_mark t d i =
  {| ki_mem := k_upd t r (ki_mem i);
     ki_queue := if Bool.eqb (k_clean_of (ki_mem i) t) d then ki_queue i else k_add t (ki_queue i);
     ki_phase := ki_phase i; ki_store := ki_store i |}.
Proof.
  unfold k_mark, k_clean_of.
  set (r := match k_find t (ki_mem i) with Some r => r | None => crec_default end).
  replace (match k_find t (ki_mem i) with Some r => cr_clean r | None => true end) with (cr_clean r)
    by (unfold r; destruct (k_find t (ki_mem i)); reflexivity).
  destruct (Bool.eqb (cr_clean r) d) eqn:E.
  - exists r. split; [now apply Bool.eqb_prop|reflexivity].
  - exists {| cr_gen := gen_next (cr_gen r); cr_clean := d |}. split; reflexivity.
Qed.

Lemma k_mark_clean_of t d i t' :
  k_clean_of (ki_mem (k_mark t d i)) t' =
  match k_cmp t' t with Eq => d | _ => k_clean_of (ki_mem i) t' end.
Proof. destruct (k_mark_spec t d i) as [r [<- ->]]. apply k_clean_of_upd. Qed.

Inductive k_pmove : kst -> kst -> Prop :=
| pm_recv disk mem t q store orph :
    k_pmove (Build_kst disk (Build_kinst mem (t :: q) KIdle store) orph)
            (Build_kst disk (Build_kinst mem [] (KGot (t :: q)) store) orph)
| pm_snap disk mem q p store orph :
    k_pmove (Build_kst disk (Build_kinst mem q (KGot p) store) orph)
            (let store' := k_apply (k_updates p mem) store in
             Build_kst disk (Build_kinst mem q (match k_updates p mem with [] => KIdle | _ => KFlying store' end) store') orph)
| pm_land disk mem q img store orph :
    k_pmove (Build_kst disk (Build_kinst mem q (KFlying img) store) orph)
            (Build_kst img (Build_kinst mem q KIdle store) orph)
| pm_oland disk live orph k img :
    nth_error orph k = Some img -> k_pmove (Build_kst disk live orph) (Build_kst img live (drop_nth k orph)).

Lemma k_pstep_move v s e : k_is_pev e = true ->
  fst (k_step v s e) = s \/ k_pmove s (fst (k_step v s e)).
Proof.
  intros P. destruct s as [disk [mem q ph store] orph], e; try discriminate P; cbn [k_step fst].
  - (* KRecv *) unfold k_recv. cbn. destruct ph; auto. destruct q; auto. right. constructor.
  - (* KSnap *) unfold k_snap. cbn. destruct ph as [|p|]; auto. right.
    pose proof (pm_snap disk mem q p store orph) as M. destruct (k_updates p mem); exact M.
  - (* KLand *) unfold k_land. cbn. destruct ph; auto. right. constructor.
  - (* KOLand *) unfold k_oland. cbn. destruct (nth_error orph k) eqn:N; auto. right. now constructor.
Qed.

Lemma k_pstep_mem v s e : k_is_pev e = true -> ki_mem (ks_live (fst (k_step v s e))) = ki_mem (ks_live s).
Proof. intros P. destruct (k_pstep_move v s e P) as [->|[]]; reflexivity. Qed.

Lemma kspec_outs_cons f o h :
  kspec_outs f (o :: h) =
  match o with KIsClean t => f t :: kspec_outs f h | _ => kspec_outs (kspec_step f o) h end.
Proof. destruct o; reflexivity. Qed.

Ltac kcbn := cbn [with_live ks_live ks_disk ks_orphans ki_mem ki_queue ki_phase ki_store] in *.
Definition k_pending (ph : kphase) (t : str) : bool :=
  match ph with KGot p => k_mem t p | _ => false end.

Record k_inv (s : kst) (f : kspec) : Prop := {
  inv_mem : forall t, k_clean_of (ki_mem (ks_live s)) t = f t;
  (* so KOLand never does anything: orphans arise only from a KPinned shutdown during a write *)
  inv_orph : ks_orphans s = [];
  inv_disk : match ki_phase (ks_live s) with
             | KFlying img => img = ki_store (ks_live s)
             | _ => ks_disk s = ki_store (ks_live s)
             end;
  inv_sync : forall t, k_mem t (ki_queue (ks_live s)) = false -> k_pending (ki_phase (ks_live s)) t = false ->
             k_clean_of (ki_store (ks_live s)) t = k_clean_of (ki_mem (ks_live s)) t;
  (* persist_topics skips a topic without a state, and the flush returns at once when there is none:
     both are right only because the store then has no record of the topic either *)
  inv_keys : forall t, k_find t (ki_mem (ks_live s)) = None -> k_find t (ki_store (ks_live s)) = None
}.

Lemma k_inv_open disk orph f :
  orph = [] -> (forall t, k_clean_of disk t = f t) ->
  k_inv {| ks_disk := disk; ks_live := k_open disk; ks_orphans := orph |} f.
Proof. intros -> C. constructor; cbn; auto. Qed.

Lemma k_inv_init : k_inv k_init kspec0.
Proof. now apply k_inv_open. Qed.

Lemma k_inv_mark s f t d : k_inv s f -> k_inv (with_live s (k_mark t d (ks_live s))) (kspec_set f t d).
Proof.
  intros [IM IO ID IS IK]. destruct (k_mark_spec t d (ks_live s)) as [r [<- ->]].
  constructor; kcbn; auto.
  - intros t'. rewrite k_clean_of_upd. unfold kspec_set. destruct (k_cmp t' t); auto.
  - intros t' Q P. rewrite k_clean_of_upd.
    destruct (Bool.eqb (k_clean_of (ki_mem (ks_live s)) t) (cr_clean r)) eqn:E.
    + rewrite (IS t' Q P). destruct (k_cmp t' t) eqn:C; try reflexivity.
      apply k_cmp_eq in C. subst t'. now apply Bool.eqb_prop.
    + rewrite k_mem_add in Q. destruct (k_cmp t' t); try discriminate; now apply IS.
  - intros t' F. rewrite k_find_upd in F. destruct (k_cmp t' t); try discriminate; now apply IK.
Qed.

Lemma k_clean_of_snap p mem store t :
  (forall t, k_find t mem = None -> k_find t store = None) ->
  k_clean_of (k_apply (k_updates p mem) store) t =
  if k_mem t p then k_clean_of mem t else k_clean_of store t.
Proof.
  intros IK. unfold k_clean_of. rewrite k_find_apply, k_find_updates.
  destruct (k_mem t p); [|reflexivity].
  destruct (k_find t mem) eqn:F; [reflexivity|]. now rewrite (IK t F).
Qed.

Lemma k_inv_pmove s s' f : k_inv s f -> k_pmove s s' -> k_inv s' f.
Proof.
  intros [IM IO ID IS IK] M. destruct M as [| | |disk live orph k img N]; kcbn.
  - (* pm_recv *) constructor; kcbn; auto.
  - (* pm_snap: the topics received get the memory's flag, the others keep the store's *)
    cbn [k_pending] in IS. constructor; kcbn; auto.
    + destruct (k_updates p mem); [exact ID|reflexivity].
    + intros t Q _. rewrite k_clean_of_snap by exact IK.
      destruct (k_mem t p) eqn:M; [reflexivity|now apply IS].
    + intros t F. rewrite k_find_apply, k_find_updates, F. destruct (k_mem t p); now apply IK.
  - (* pm_land *) constructor; kcbn; auto.
  - (* pm_oland *) subst orph. destruct k; discriminate N.
Qed.

Lemma k_inv_pstep v s f e : k_is_pev e = true -> k_inv s f -> k_inv (fst (k_step v s e)) f.
Proof. intros P I. destruct (k_pstep_move v s e P) as [->|M]; [exact I|exact (k_inv_pmove _ _ f I M)]. Qed.

Lemma k_land_not_flying s : match ki_phase (ks_live (k_land s)) with KFlying _ => False | _ => True end.
Proof. unfold k_land. destruct (ki_phase (ks_live s)) eqn:PH; cbn [ks_live ki_phase]; rewrite ?PH; exact I. Qed.

Lemma k_inv_reopen v sp s f :
  k_inv s f -> (v = KFlush \/ k_quiet s = true) -> k_inv (k_reopen v sp s) f.
Proof.
  intros I H. destruct v.
  - (* quiet: the file is the store, and nothing is queued or received, so the store agrees with the memory *)
    destruct H as [H|Q]; [discriminate|].
    destruct I as [IM IO ID IS IK]. unfold k_quiet in Q.
    destruct (ki_queue (ks_live s)) eqn:EQ; try discriminate.
    destruct (ki_phase (ks_live s)) eqn:EP; try discriminate.
    apply k_inv_open.
    + rewrite IO, EP. now destruct sp.
    + intros t. rewrite ID, <- IM. apply IS; reflexivity.
  - (* after the write in flight has landed the file is the store; the new file is the memory laid over it,
       and by inv_keys the store answers like the memory where the memory has no record *)
    clear H. destruct (k_inv_pstep KFlush s f KLand eq_refl I) as [IM IO ID IS IK]. pose proof (k_land_not_flying s) as NF.
    cbn [k_step fst] in *. unfold k_reopen. cbv zeta. set (s1 := k_land s) in *. apply k_inv_open.
    + rewrite IO. now destruct sp.
    + intros t. rewrite <- IM.
      unfold k_clean_of. destruct (ki_mem (ks_live s1)) as [|kv m] eqn:EM.
      * destruct (ki_phase (ks_live s1)); [| |contradiction]; rewrite ID, (IK t); reflexivity.
      * unfold k_flush_img. rewrite k_find_apply.
        destruct (k_find t (kv :: m)) eqn:F; [reflexivity|]. now rewrite (IK t F).
Qed.

Lemma k_step_ok v s f o :
  k_inv s f -> (v = KFlush \/ (if k_no_restart o then true else k_quiet s) = true) ->
  k_inv (fst (k_step v s o)) (kspec_step f o) /\
  snd (k_step v s o) = match o with KIsClean t => Some (f t) | _ => None end.
Proof.
  intros I H. destruct o; cbn [k_step fst snd kspec_step k_no_restart] in *; (split; [|try reflexivity]).
  1-3: (* KAppend, KMarkClean, KMarkDirty *) now apply k_inv_mark.
  - (* KIsClean *) exact I.
  - f_equal. apply I.
  - (* KReopen *) now apply k_inv_reopen.
  - (* KRestart *) now apply k_inv_reopen.
  - (* KRecv *) now apply (k_inv_pstep v s f KRecv).
  - (* KSnap *) now apply (k_inv_pstep v s f KSnap).
  - (* KLand *) now apply (k_inv_pstep v s f KLand).
  - (* KTick *) apply (k_inv_pstep v _ f KLand eq_refl), (k_inv_pstep v (with_live s (k_recv (ks_live s))) f KSnap eq_refl),
      (k_inv_pstep v s f KRecv eq_refl), I.
  - (* KOLand *) now apply (k_inv_pstep v s f (KOLand k)).
Qed.

Lemma k_run_cons v s o h :
  k_run v s (o :: h) =
  (fst (k_run v (fst (k_step v s o)) h),
   match snd (k_step v s o) with
   | Some b => b :: snd (k_run v (fst (k_step v s o)) h)
   | None => snd (k_run v (fst (k_step v s o)) h)
   end).
Proof. cbn [k_run]. destruct (k_step v s o) as [s1 r]. cbn [fst snd]. now destruct (k_run v s1 h). Qed.

Lemma k_run_ok v : forall h s f,
  k_inv s f -> (v = KFlush \/ k_settled v s h = true) ->
  snd (k_run v s h) = kspec_outs f h.
Proof.
  induction h as [|o h IH]; intros s f I H; [reflexivity|].
  assert (H' : (v = KFlush \/ (if k_no_restart o then true else k_quiet s) = true) /\
               (v = KFlush \/ k_settled v (fst (k_step v s o)) h = true)).
  { destruct H as [H|H]; [auto|]. cbn [k_settled] in H. apply andb_prop in H. destruct H. auto. }
  destruct H' as [H1 H2]. destruct (k_step_ok v s f o I H1) as [I' O].
  rewrite k_run_cons, kspec_outs_cons, O, (IH _ _ I' H2). cbn [snd]. now destruct o.
Qed.

Lemma k_outs_ok v h : v = KFlush \/ k_settled v k_init h = true -> k_outs v h = kspec_outs kspec0 h.
Proof. intros H. apply k_run_ok; [apply k_inv_init|exact H]. Qed.

Lemma k_settled_no_restart v : forall h s, forallb k_no_restart h = true -> k_settled v s h = true.
Proof.
  induction h as [|o h IH]; intros s NR; [reflexivity|].
  cbn [forallb] in NR. apply andb_prop in NR as [NR1 NR2].
  cbn [k_settled]. rewrite NR1. now apply IH.
Qed.

Lemma k_mark_phase t d i : ki_phase (k_mark t d i) = ki_phase i.
Proof. unfold k_mark. destruct (Bool.eqb _ d); reflexivity. Qed.

(* [pc] is k_tick_separated's own accumulator (a change since the last tick); only then may something
   be queued *)
Lemma k_tick_separated_settled : forall h disk mem q store pc,
  (pc = false -> q = []) -> k_tick_separated pc h = true ->
  k_settled KPinned (Build_kst disk (Build_kinst mem q KIdle store) []) h = true.
Proof.
  induction h as [|o h IH]; intros disk mem q store pc Q T; [reflexivity|].
  cbn [k_settled]. destruct o; cbn [k_tick_separated] in T; cbn [k_no_restart k_step fst andb]; try discriminate T.
  1-3: (* KAppend, KMarkClean, KMarkDirty *) unfold k_mark; kcbn; destruct (Bool.eqb _ _); now apply (IH _ _ _ _ true).
  - (* KIsClean *) now apply (IH _ _ _ _ pc).
  - (* KReopen *) apply andb_prop in T as [T1 T2]. apply Bool.negb_true_iff in T1. rewrite (Q T1). now apply (IH _ _ _ _ false).
  - (* KRestart *) apply andb_prop in T as [T1 T2]. apply Bool.negb_true_iff in T1. rewrite (Q T1). now apply (IH _ _ _ _ false).
  - (* KTick *) unfold k_tick, k_recv. kcbn. destruct q as [|q0 q]; [now apply (IH _ _ _ _ false)|].
    unfold k_snap. kcbn. destruct (k_updates (q0 :: q) mem); now apply (IH _ _ _ _ false).
Qed.
