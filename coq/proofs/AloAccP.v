(* AloAccP.v — spec-level soundness of the AtLeastOnce acceptor: a trace that is explained by
   ledgers whose consumer position only ever moves back at restarts is accepted by c06alo_ok. *)
From W Require Import model.Base model.Engine spec.Queue proofs.EngineWF proofs.EngineMain.

(* a restart may move consumer positions back, never forward, and keeps what was appended *)
Definition RB (g g' : lg) : Prop :=
  forall t, l_app (lget g' t) = l_app (lget g t) /\ (l_del (lget g' t) <= l_del (lget g t))%nat.

Definition WFg (g : lg) : Prop := forall t, (l_del (lget g t) <= length (l_app (lget g t)))%nat.

(* the trace is explained step by step: every non-restart step satisfies the exactly-once step
   condition c01_step_ok w.r.t. the current ledger (which then advances by ledger_step); at a restart
   the ledger is replaced by a rolled-back one *)
Fixpoint LedgerRun (g : lg) (tr : list (op * result)) : Prop :=
  match tr with
  | [] => True
  | (o, r) :: rest =>
    match o with
    | OReopen => exists g', RB g g' /\ WFg g' /\ LedgerRun g' rest
    | _ => c01_step_ok g o r = true /\ WFg (ledger_step g o r) /\ LedgerRun (ledger_step g o r) rest
    end
  end.

(* between the explaining ledgers [g] and the acceptor's state: per topic the acceptor has the same appended
   entries; the true position [l_del] is among the positions it still holds possible, or, while the topic is
   [fresh] (no consuming read since the last restart: the acceptor accepts any position up to the largest it
   holds), not above that largest one; a restart makes fresh exactly the topics the acceptor has an entry for *)
Definition AI (g : lg) (ag : alg) (fresh : list N) : Prop :=
  forall t, al_app (aget ag t) = l_app (lget g t) /\
            (if existsb (N.eqb t) fresh then (l_del (lget g t) <= max_pos (al_pos (aget ag t)))%nat
             else In (l_del (lget g t)) (al_pos (aget ag t))) /\
            (existsb (N.eqb t) fresh = true -> In t (map fst ag)).

Lemma aget_aset_same g t l : aget (aset g t l) t = l.
Proof. unfold aget, aset. now rewrite find_set_assoc_same. Qed.
Lemma aget_aset_other g t t' l : t' <> t -> aget (aset g t l) t' = aget g t'.
Proof. intros Hne. unfold aget, aset. now rewrite find_set_assoc_other. Qed.

Lemma existsb_filter t t' f :
  existsb (N.eqb t') (filter (fun x => negb (x =? t)) f) = negb (t' =? t) && existsb (N.eqb t') f.
Proof.
  induction f as [|a f IH]; cbn; [now rewrite andb_false_r|].
  destruct (a =? t) eqn:E; cbn; rewrite IH; [|lia].
  destruct (t' =? a) eqn:E'; [|reflexivity]. now replace (t' =? t) with true by lia.
Qed.

(* the ledgers move at topic [t], which gets the acceptor ledger [al]; for the other topics freshness stays *)
Lemma AI_upd g g' ag fresh fresh' t es n al :
  AI g ag fresh -> lg_moved g g' t es n ->
  (forall t', t' <> t -> existsb (N.eqb t') fresh' = existsb (N.eqb t') fresh) ->
  al_app al = al_app (aget ag t) ++ es ->
  (if existsb (N.eqb t) fresh' then (l_del (lget g t) + n <= max_pos (al_pos al))%nat
   else In (l_del (lget g t) + n)%nat (al_pos al)) ->
  AI g' (aset ag t al) fresh'.
Proof.
  intros H Hm Hf Ha Hp t'. destruct (Hm t') as (M1 & M2). destruct (H t') as (A & B & C). rewrite M1, M2.
  destruct (N.eq_dec t' t) as [->|Hne].
  - rewrite N.eqb_refl, aget_aset_same, Ha, A. split; [reflexivity|]. split; [exact Hp|]. intros _. apply in_fst_set_assoc. now left.
  - replace (t' =? t) with false by lia. rewrite aget_aset_other, (Hf t' Hne) by exact Hne.
    split; [exact A|]. split; [exact B|]. intros E. apply in_fst_set_assoc. right. auto.
Qed.

Lemma AI_app g ag fresh t es :
  AI g ag fresh ->
  AI (lset g t {| l_app := l_app (lget g t) ++ es; l_del := l_del (lget g t) |})
     (aset ag t {| al_app := al_app (aget ag t) ++ es; al_pos := al_pos (aget ag t) |}) fresh.
Proof.
  intros H. destruct (H t) as (_ & B & _).
  apply (AI_upd g _ ag fresh fresh t es 0 _ H); cbn [al_app al_pos]; rewrite ?Nat.add_0_r; auto.
  apply lg_moved_lset; cbn; [reflexivity|lia].
Qed.

Lemma rd_ok g g' ag fresh t m os :
  AI g ag fresh ->
  matches_at os (l_app (lget g (t_id t))) (l_del (lget g (t_id t))) = true -> lg_moved g g' (t_id t) [] (length os) ->
  exists ag' f', c06alo_step ag fresh (OBatchRead t m true None) (REntries os) = Some (ag', f') /\ AI g' ag' f'.
Proof.
  intros H M G. cbn [c06alo_step outs_of_result]. set (i := t_id t) in *. destruct (H i) as (A & B & C).
  set (cands := if existsb (N.eqb i) fresh then upto (max_pos (al_pos (aget ag i))) else al_pos (aget ag i)).
  assert (Hf : In (l_del (lget g i)) (filter (matches_at os (al_app (aget ag i))) cands)).
  { apply filter_In. split; [|now rewrite A]. subst cands.
    destruct (existsb (N.eqb i) fresh); [|exact B]. unfold upto. apply in_seq. lia. }
  destruct (filter (matches_at os (al_app (aget ag i))) cands) as [|a ok] eqn:F; [contradiction|].
  do 2 eexists. split; [reflexivity|].
  apply (AI_upd g g' ag fresh _ i [] (length os) _ H G); cbn [al_app al_pos]; rewrite ?existsb_filter, ?N.eqb_refl, ?app_nil_r; auto.
  - intros t' Hne. rewrite existsb_filter. now replace (t' =? i) with false by lia.
  - now apply (in_map (fun d => (d + length os)%nat)) in Hf.
Qed.

(* what the exactly-once step condition says of a consuming read, either API: the result is a
   list of outs matching at the consumer's position, which then advances by their number; the acceptor treats it as
   the batch read that returned them (whose byte budget, 0 here, it does not look at) *)
Lemma c01_read_matches g o t r :
  (o = ORead t true \/ exists m, o = OBatchRead t m true None) -> c01_step_ok g o r = true ->
  exists os, (forall ag fresh, c06alo_step ag fresh o r = c06alo_step ag fresh (OBatchRead t 0 true None) (REntries os)) /\
    matches_at os (l_app (lget g (t_id t))) (l_del (lget g (t_id t))) = true /\
    lg_moved g (ledger_step g o r) (t_id t) [] (length os).
Proof.
  intros [->|(m & ->)]; cbn [c01_step_ok]; unfold remaining; destruct r; try discriminate; intros H.
  - exists []. split; [reflexivity|]. split; [|apply lg_moved_0].
    cbn [matches_at]. now destruct (skipn _ _).
  - exists [o]. split; [reflexivity|]. split.
    + cbn [matches_at length]. destruct (skipn _ _) as [|e rest]; [discriminate|]. cbn. now rewrite H.
    + apply lg_moved_lset; cbn; [now rewrite app_nil_r|lia].
  - exists os. split; [reflexivity|]. split; [exact H|apply lg_moved_lset; cbn; [now rewrite app_nil_r|reflexivity]].
Qed.

Lemma AI_reopen g g' ag fresh :
  WFg g' -> RB g g' -> AI g ag fresh -> AI g' ag (map fst ag).
Proof.
  intros W R H t. destruct (R t) as (R1 & R2). destruct (H t) as (A & B & C).
  split; [now rewrite R1|]. split; [|apply existsb_eqb_in].
  destruct (existsb (N.eqb t) (map fst ag)) eqn:E.
  - destruct (existsb (N.eqb t) fresh); [lia|].
    (* a position in the candidate set is at most their maximum *)
    enough (forall l, In (l_del (lget g t)) l -> (l_del (lget g t) <= max_pos l)%nat) as Hm by (specialize (Hm _ B); lia).
    unfold max_pos. induction l as [|a l IH]; cbn; [intros []|]. intros [->|Hin]; [|specialize (IH Hin)]; lia.
  - (* a topic the acceptor has never seen: its ledger is empty, position 0 *)
    assert (Hn : aget ag t = {| al_app := []; al_pos := [0%nat] |}).
    { unfold aget. destruct (find _ ag) as [p|] eqn:Ef; [|reflexivity]. apply find_some in Ef.
      assert (In t (map fst ag)) as Hin by (replace t with (fst p) by lia; apply in_map, Ef).
      apply existsb_eqb_in in Hin. congruence. }
    rewrite Hn in *. cbn [al_app al_pos] in *.
    specialize (W t). rewrite R1, <- A in W. cbn [length] in W. left. lia.
Qed.

Lemma alo_step g ag fresh o r : o <> OReopen -> AI g ag fresh -> c01_step_ok g o r = true ->
  exists ag' f', c06alo_step ag fresh o r = Some (ag', f') /\ AI (ledger_step g o r) ag' f'.
Proof.
  intros Ho H Hc.
  assert (Hq : c06alo_step ag fresh o r = Some (ag, fresh) -> ledger_step g o r = g ->
               exists ag' f', c06alo_step ag fresh o r = Some (ag', f') /\ AI (ledger_step g o r) ag' f')
    by (intros -> ->; eauto).
  destruct o as [t e|t es|t ck|t m ck st|t|]; try contradiction.
  - (* OAppend: accepted, both ledgers get the entry *)
    destruct r; try (apply Hq; reflexivity). do 2 eexists. split; [reflexivity|now apply AI_app].
  - (* OBatch *)
    destruct r; try (apply Hq; reflexivity). do 2 eexists. split; [reflexivity|now apply AI_app].
  - (* ORead: a peek moves nothing *)
    destruct ck; [|destruct r; apply Hq; reflexivity].
    destruct (c01_read_matches g _ t r (or_introl eq_refl) Hc) as (os & -> & M & G). exact (rd_ok _ _ _ _ _ _ _ H M G).
  - (* OBatchRead: only the consuming stateful one moves anything *)
    destruct ck, st as [s|]; try (destruct r; apply Hq; reflexivity).
    destruct (c01_read_matches g _ t r (or_intror (ex_intro _ m eq_refl)) Hc) as (os & -> & M & G). exact (rd_ok _ _ _ _ _ _ _ H M G).
  - (* OCount *)
    destruct r; apply Hq; reflexivity.
Qed.

Theorem alo_accepts : forall tr g ag fresh,
  WFg g -> AI g ag fresh -> LedgerRun g tr -> c06alo_ok_from ag fresh tr = true.
Proof.
  induction tr as [|[o r] rest IH]; intros g ag fresh W H L; [reflexivity|].
  cbn [c06alo_ok_from]. cbn [LedgerRun] in L.
  assert (Hstep : o <> OReopen -> c01_step_ok g o r = true /\ WFg (ledger_step g o r) /\ LedgerRun (ledger_step g o r) rest ->
                  match c06alo_step ag fresh o r with Some (g', f') => c06alo_ok_from g' f' rest | None => false end = true).
  { intros Ho (Hc & W' & L'). destruct (alo_step g ag fresh o r Ho H Hc) as (ag' & f' & -> & H'). eapply IH; eassumption. }
  destruct o; try (apply Hstep; [discriminate|exact L]).
  destruct L as (g' & R & W' & L). cbn [c06alo_step].
  eapply IH; [exact W'| |exact L]. eapply AI_reopen; eassumption.
Qed.

Corollary alo_accepts_init tr : LedgerRun [] tr -> c06alo_ok tr = true.
Proof.
  intros L. unfold c06alo_ok. apply (alo_accepts tr [] [] []); [| |exact L]; intros t; cbn.
  - lia.
  - split; [reflexivity|]. split; [now left|discriminate].
Qed.
