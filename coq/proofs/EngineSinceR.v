(* EngineSinceR.v — histories WITH restarts, any mode.  The ledger is the one the invariant keeps, rolled back at
   every restart ([gm_ledger]).  [GQ_history]: one induction over histories outside block-id drift for the invariant
   GQ at any position clause whose topic lemma (what GQ_op asks for) and restart lemma are given.  At the lagging
   clause it gives GM along every history and a ledger run ([GM_history]), hence acceptance by the AtLeastOnce
   acceptor c06alo_ok (props/C06.v, through AloAccP.alo_accepts_init): no loss, no reordering, only re-delivery; a
   crash in a state of GM is a restart, which rolls the ledger back and never forward ([GM_crash]).  At the numbered
   clause QN of EngineSince.v (AtLeastOnce{persist_every = n}, consuming reads by read_next) it gives [GMN]; a
   restart outside drift re-establishes it with the counter at 0 and the ledger rolled back by exactly r_since
   entries, which bounds the re-delivery (props/C09.v). *)
From W Require Import model.Base model.Engine spec.Queue proofs.EngineWF proofs.EngineInv proofs.EngineW proofs.EngineMain proofs.AloAccP proofs.EngineDisk
  proofs.EngineNorm proofs.EngineRestart proofs.EngineC06 proofs.EngineSince proofs.EngineGen proofs.EngineGenR.

(* the ledger the GM machinery maintains: ledger_step at every operation, rolled back to the recovered
   position ([rbl], proofs/EngineGenR.v) at every restart *)
Fixpoint gm_ledger (v : env) (s : st) (g : lg) (ops : list op) : lg :=
  match ops with
  | [] => g
  | o :: r => gm_ledger v (fst (step v s o))
                (match o with OReopen => map (rbl (v_cfg v) s) g | _ => ledger_step g o (snd (step v s o)) end) r
  end.

Lemma gm_ledger_noreopen c v : forall ops s g, Forall (op_ok c) ops -> gm_ledger v s g ops = ledger_run g (trace v s ops).
Proof.
  induction ops as [|o r IH]; intros s g Hok; [reflexivity|]. inversion Hok as [|x l Ho Hr]; subst.
  cbn [gm_ledger trace]. rewrite (IH _ _ Hr). destruct (step v s o) as [s' res]. cbn [fst snd ledger_run].
  destruct o; [reflexivity..|destruct Ho].
Qed.

Lemma trace_cons v s o r : trace v s (o :: r) = (o, snd (step v s o)) :: trace v (fst (step v s o)) r.
Proof. cbn [trace]. now destruct (step v s o). Qed.

(* the one induction over histories with restarts, for any position clause: what is asked for is what GQ_op asks for (the
   clause of an operation's topic, in the hydrated world; here of the operations of the history) and the restart lemma *)
Theorem GQ_history (Q : Cfg -> N -> tstate -> Prop) c m be : cfg_ok c ->
  (forall nid nid' T, nid <= nid' -> Q c nid T -> Q c nid' T) ->
  (forall s g B Bb, GQ Q c s g B Bb -> id_drift c s = false ->
     GQ Q c (reopen c s) (map (rbl c s) g) B Bb /\ RB g (map (rbl c s) g)) ->
  forall ops,
  (forall o, In o ops -> op_ok c o -> forall S, GInv c S -> Q c (a_next (s_alloc S)) (get_ts S (otopic o)) ->
     let S' := fst (step (env_of c m be) S o) in Q c (a_next (s_alloc S')) (get_ts S' (otopic o))) ->
  forall s g B Bb, GQ Q c s g B Bb ->
  outside_known (env_of c m be) s ops = true ->
  B + N.of_nat (length (offered_all ops)) <= u64_max -> Bb + sum_len (offered_all ops) <= u64_max ->
  GQ Q c (exec (env_of c m be) s ops) (gm_ledger (env_of c m be) s g ops)
     (B + N.of_nat (length (offered_all ops))) (Bb + sum_len (offered_all ops)) /\
  LedgerRun g (trace (env_of c m be) s ops).
Proof.
  intros Hc Hqm Hre. induction ops as [|o r IH]; intros Hq s g B Bb HG Hout HB HBb.
  { cbn [exec gm_ledger offered_all length sum_len fold_right trace LedgerRun]. rewrite !N.add_0_r. auto. }
  specialize (IH (fun o' Hin => Hq o' (or_intror Hin))).
  cbn [outside_known] in Hout. apply andb_true_iff in Hout. destruct Hout as (Ho & Hout).
  rewrite trace_cons. cbn [offered_all exec gm_ledger] in *. rewrite app_length, Nat2N.inj_add, sum_len_app, !N.add_assoc in *.
  destruct (op_reopen_or_ok c o) as [->|Hok].
  - apply negb_true_iff in Ho. cbn [step env_of v_cfg fst snd offered length sum_len fold_right LedgerRun] in *. rewrite !N.add_0_r in *.
    destruct (Hre s g B Bb HG Ho) as (HG' & Hrb).
    destruct (IH _ _ _ _ HG' Hout HB HBb) as (H1 & H3).
    split; [exact H1|]. exists (map (rbl c s) g). exact (conj Hrb (conj (GQ_WFg _ _ _ _ _ _ HG') H3)).
  - assert (E : forall a b : lg, match o with OReopen => a | _ => b end = b) by (destruct o; try contradiction; reflexivity).
    rewrite E.
    destruct (GQ_op Q c m be s g B Bb o Hc HG Hok ltac:(lia) ltac:(lia) Hqm (Hq o (or_introl eq_refl) Hok)) as (Hacc & _ & HG').
    destruct (IH _ _ _ _ HG' Hout ltac:(lia) ltac:(lia)) as (H1 & H3).
    split; [exact H1|].
    pose proof (GQ_WFg _ _ _ _ _ _ HG') as HW. destruct o; try contradiction; cbn [LedgerRun]; auto.
Qed.

Corollary GM_history c m be : cfg_ok c -> forall ops s g B Bb, GM c s g B Bb ->
  outside_known (env_of c m be) s ops = true ->
  B + N.of_nat (length (offered_all ops)) <= u64_max -> Bb + sum_len (offered_all ops) <= u64_max ->
  GM c (exec (env_of c m be) s ops) (gm_ledger (env_of c m be) s g ops)
     (B + N.of_nat (length (offered_all ops))) (Bb + sum_len (offered_all ops)) /\
  LedgerRun g (trace (env_of c m be) s ops).
Proof.
  intros Hc ops s g B Bb HG Hout HB HBb.
  exact (GQ_history QL c m be Hc (fun _ _ _ _ H => H) (fun s0 g0 B0 Bb0 => GM_reopen c s0 g0 B0 Bb0 Hc) ops
           (fun o _ Hok S Hg => LG_topic c m be S o Hc Hg Hok) s g B Bb HG Hout HB HBb).
Qed.

(* a crash (= a restart) in a state of the invariant, outside drift: every topic holds its acknowledged stream and the fresh
   process resumes at the position [k] the ledger is rolled back to, at or before the consumer's true position *)
Lemma GM_crash c s g B Bb : cfg_ok c -> GM c s g B Bb -> id_drift c s = false -> forall t x,
  stream (get_ts (reopen c s) t) = l_app (lget g t) /\
  (l_del (lget g t) <= length (l_app (lget g t)))%nat /\
  unread c (nrm x (get_ts s t)) = skipn (l_del (lget g t)) (l_app (lget g t)) /\
  exists k, (k <= l_del (lget g t))%nat /\
            unread c (nrm x (get_ts (reopen c s) t)) = skipn k (l_app (lget g t)) /\
            cnt (get_ts (reopen c s) t) = N.of_nat (length (l_app (lget g t)) - k).
Proof.
  intros Hc HG Hk t x. destruct (GM_reopen c s g B Bb Hc HG Hk) as (HG' & Hrb). destruct (Hrb t) as (Ha & Hdl).
  destruct (GQ_view QL c s g B Bb HG t x) as (A1 & _ & A3 & _). destruct (GQ_view QL c _ _ B Bb HG' t x) as (_ & B2 & B3 & B4).
  rewrite Ha in B2, B3, B4. split; [exact B2|]. split; [exact A1|]. split; [exact A3|].
  exists (l_del (lget (map (rbl c s) g) t)). auto.
Qed.

Definition GMN (c : Cfg) (n : N) : st -> lg -> N -> N -> Prop := GQ (QN n) c.

Lemma GMN_GM c n s g B Bb : GMN c n s g B Bb -> GM c s g B Bb.
Proof. apply (GQ_mono (QN n) QL). intros nid T _ (Hc & (pre & HL & _) & _). apply LG_Lag. eauto. Qed.

Lemma GMN_init c n : 0 < c_block c -> GMN c n init [] 0 0.
Proof. intros Hb. apply (GQ_init (QN n) c Hb). split; [constructor|]. split; [exists []; split; reflexivity|cbn; lia]. Qed.

(* a restart outside drift: GM_reopen rolls the ledger back, and the clause holds again with the counter at 0 *)
Lemma GMN_reopen c n s g B Bb : cfg_ok c -> GMN c n s g B Bb -> id_drift c s = false ->
  GMN c n (reopen c s) (map (rbl c s) g) B Bb /\ RB g (map (rbl c s) g).
Proof.
  intros Hc HG Hdr. destruct (GM_reopen c s g B Bb Hc (GMN_GM c n s g B Bb HG) Hdr) as (HM' & Hrb). split; [|exact Hrb].
  apply (GQ_mono (fun c k T => QL c k T /\ QN n c k T) (QN n) c _ _ _ _ (fun _ _ _ A => proj2 A)), GQ_and. split; [exact HM'|].
  intros t x. exact (proj1 (reopen_QN c n s g B Bb t x Hc HG Hdr)).
Qed.

Corollary GMN_from_init c n be ops : cfg_ok c -> n <= u32_max -> forallb rn_only ops = true ->
  outside_known (env_of c (ALO n) be) init ops = true ->
  N.of_nat (length (offered_all ops)) <= u64_max -> sum_len (offered_all ops) <= u64_max ->
  GMN c n (exec (env_of c (ALO n) be) init ops) (gm_ledger (env_of c (ALO n) be) init [] ops)
      (N.of_nat (length (offered_all ops))) (sum_len (offered_all ops)).
Proof.
  intros Hc Hn32 Hrn Hout HB HBb.
  exact (proj1 (GQ_history (QN n) c (ALO n) be Hc (fun _ _ _ _ H => H) (fun s g B Bb => GMN_reopen c n s g B Bb Hc) ops
           (fun o Hin Hok S Hg => QN_topic c n be S o Hc Hn32 Hg Hok (proj1 (forallb_forall _ _) Hrn o Hin))
           init [] 0 0 (GMN_init c n (proj1 (proj2 Hc))) Hout HB HBb)).
Qed.
