(* ConcInv.v — invariants of the concurrent model (model/Conc.v) for programs made of single
   appends and read_next calls: the per-topic facts and the ledgers both versions of the code
   share, and the invariant INV of the code before fix 4c905dc (fx = false), which is about
   programs whose read_next calls all consume ([th_ok]), one consumer per topic ([iv_del]).
   While an append is between its chain push and the installation of the new block (pc
   PA_seal_post) the old block is both sealed in the chain and still the writer's block; readers
   cannot see the writer then (they need its mutexes), so the topic is described by its EFFECTIVE
   state: the raw state without the writer. *)
From W Require Import model.Base model.Engine model.Conc proofs.ListP proofs.EngineInv proofs.EngineW.

Lemma nth_error_set_nth {A} (l : list A) n x m : (n < length l)%nat ->
  nth_error (c_set_nth l n x) m = if Nat.eqb m n then Some x else nth_error l m.
Proof. revert n m; induction l as [|a l IH]; intros n m H; cbn in *; [lia|]. destruct n, m; cbn; try reflexivity. apply IH. lia. Qed.
Lemma length_set_nth {A} (l : list A) n x : length (c_set_nth l n x) = length l.
Proof. revert n; induction l as [|a l IH]; intros n; cbn; [reflexivity|]. destruct n; cbn; [reflexivity|]. now rewrite IH. Qed.

Lemma with_writer_twice ts a b : with_writer (with_writer ts a) b = with_writer ts b.
Proof. reflexivity. Qed.
Lemma with_reader_writer ts r w : with_reader (with_writer ts w) r = with_writer (with_reader ts r) w.
Proof. reflexivity. Qed.
Lemma with_index_writer ts p w : with_index (with_writer ts w) p = with_writer (with_index ts p) w.
Proof. reflexivity. Qed.

(* an update of the entry count alone: the invariants do not speak of the count *)
Definition set_count (ts : tstate) (n : option N) : tstate :=
  {| ts_reader := ts_reader ts; ts_writer := ts_writer ts; ts_poisoned := ts_poisoned ts;
     ts_count := n; ts_index := ts_index ts; ts_unmodelled := ts_unmodelled ts |}.
Definition count_only (f : tstate -> tstate) : Prop :=
  exists g : option N -> option N, forall ts, f ts = set_count ts (g (ts_count ts)).

Lemma count_only_id : count_only (fun ts => ts).
Proof. exists (fun n => n). now intros []. Qed.
Lemma count_only_add d : count_only (fun ts => count_add ts d).
Proof.
  exists (fun n => if d =? 0 then n else Some (N.min u64_max (match n with Some n => n | None => 0 end + d))).
  intros ts. unfold count_add. destruct (d =? 0); [now destruct ts|reflexivity].
Qed.
Lemma count_only_sub d : count_only (fun ts => count_sub ts d).
Proof.
  exists (fun n => if d =? 0 then n else Some (sat_sub (match n with Some n => n | None => 0 end) d)).
  intros ts. unfold count_sub. destruct (d =? 0); [now destruct ts|reflexivity].
Qed.

Lemma TInvP_with_index c nid ts p : TInvP c nid ts -> r_hydrated (reader_of ts) = true -> TInvP c nid (with_index ts p).
Proof.
  intros [? ? ? ? ? ? ? ? ? ? ? ? ?] Hh. constructor; auto.
  change (reader_of (with_index ts p)) with (reader_of ts). intros Hf. rewrite Hh in Hf. discriminate.
Qed.
Lemma rn_hydrate_eq c nid ts : TInvP c nid ts -> rn_hydrate ts = set_hydrated (reader_of ts).
Proof. intros Hinv. unfold rn_hydrate. now rewrite (hydrate_eq _ _ _ (tp_hyd _ _ _ Hinv)). Qed.

Definition simple_call (cl : call) : bool :=
  match cl with CAppend _ _ => true | CRead _ true => true | _ => false end.

(* [mid]: an append of the topic stands at PA_seal_post *)
Definition th_mid (t : N) (th : thread) : bool :=
  match th_todo th with
  | CAppend t' _ :: _ => match th_pc th with PA_seal_post => t_id t' =? t | _ => false end
  | _ => false
  end.
(* the pcs at which an append holds its topic's writer mutexes *)
Definition th_holds (t : N) (th : thread) : bool :=
  match th_todo th with
  | CAppend t' _ :: _ => match th_pc th with PA_seal_pre _ | PA_seal_post => t_id t' =? t | _ => false end
  | _ => false
  end.
Definition mid (cs : cstate) (t : N) : bool := existsb (th_mid t) (cs_threads cs).
Definition rawts (cs : cstate) (t : N) : tstate := get_ts (sh_st (cs_sh cs)) t.
Definition eff (cs : cstate) (t : N) : tstate :=
  if mid cs t then with_writer (rawts cs t) None else rawts cs t.
Definition nid_of (cs : cstate) : N := a_next (s_alloc (sh_st (cs_sh cs))).

Definition hyd (ts : tstate) : Prop := r_hydrated (reader_of ts) = true.

Definition th_ok (c : Cfg) (cs : cstate) (th : thread) : Prop :=
  match th_todo th with
  | [] => th_pc th = PStart
  | CAppend t e :: _ =>
    match th_pc th with
    | PStart | PA_written => True
    | PA_flag | PA_seal_post => appendable c t (e_len e) = None
    | PA_seal_pre w => appendable c t (e_len e) = None /\ ts_writer (rawts cs (t_id t)) = Some w
    | _ => False
    end
  | CRead t ck :: _ =>
    ck = true /\
    match th_pc th with
    | PStart => True
    | PR_top | PR_t_snap _ _ | PR_t_wsnap _ _ _ | PR_t_init _ _ => hyd (rawts cs (t_id t))
    | PR_commit _ r _ | PR_idx r => hyd (rawts cs (t_id t)) /\ exists o, r = REntry o
    | _ => False
    end
  | _ => False
  end.

(* the writer snapshot [a] is still a prefix of the writer block of ts *)
Definition snap_ok (c : Cfg) (ts : tstate) (a : blk) : Prop :=
  exists w suf, ts_writer ts = Some w /\ b_id a = b_id w /\ b_ents w = b_ents a ++ suf /\ b_used a = sum_need c (b_ents a).

Definition win_ok (c : Cfg) (cs : cstate) (th : thread) : Prop :=
  match th_todo th with
  | CRead t true :: _ =>
    let ts := rawts cs (t_id t) in
    let r := reader_of ts in
    match th_pc th with
    | PR_t_snap sb so => r_idx r = length (r_chain r) /\ sb = r_tail_bid r /\ so = r_tail_off r
    | PR_t_wsnap sb so a =>
      mid cs (t_id t) = false /\ r_idx r = length (r_chain r) /\ sb = r_tail_bid r /\ so = r_tail_off r /\ snap_ok c ts a
    | PR_t_init a off =>
      mid cs (t_id t) = false /\ r_idx r = length (r_chain r) /\ snap_ok c ts a /\
      off = (if r_tail_bid r =? b_id a then r_tail_off r else 0)
    | _ => True
    end
  | _ => True
  end.

Definition lock_ok (cs : cstate) : Prop :=
  forall t, match wl_holder (sh_wl (cs_sh cs)) t with
            | None => forall i th, nth_error (cs_threads cs) i = Some th -> th_holds t th = false
            | Some tid => forall i th, nth_error (cs_threads cs) i = Some th -> th_holds t th = true -> i = tid
            end.

Definition res_ok (cl : call) (r : result) : Prop :=
  match cl, r with
  | CAppend _ _, ROk | CAppend _ _, RErr _ => True
  | CRead _ _, REntry _ | CRead _ _, RNone => True
  | _, _ => False
  end.
(* what a thread has done so far: the calls of its program that have returned, with results *)
Definition hist_ok (prog : list call) (th : thread) : Prop :=
  exists done, prog = done ++ th_todo th /\ Forall2 res_ok done (rev (th_done th)).
Definition done_of (prog : list call) (th : thread) : list call :=
  firstn (length prog - length (th_todo th)) prog.

Fixpoint del_hist (t : N) (cls : list call) (rs : list result) : list out :=
  match cls, rs with
  | cl :: cls', r :: rs' =>
    match cl, r with
    | CRead t' true, REntry o => if t_id t' =? t then [o] else []
    | _, _ => []
    end ++ del_hist t cls' rs'
  | _, _ => []
  end.
Definition del_pending (t : N) (th : thread) : list out :=
  match th_todo th with
  | CRead t' true :: _ =>
    match th_pc th with
    | PR_commit _ (REntry o) _ | PR_idx (REntry o) => if t_id t' =? t then [o] else []
    | _ => []
    end
  | _ => []
  end.
Definition del_seq (t : N) (prog : list call) (th : thread) : list out :=
  del_hist t (done_of prog th) (rev (th_done th)) ++ del_pending t th.

Fixpoint wr_hist (t : N) (cls : list call) (rs : list result) : list entry :=
  match cls, rs with
  | cl :: cls', r :: rs' =>
    match cl, r with
    | CAppend t' e, ROk => if t_id t' =? t then [e] else []
    | _, _ => []
    end ++ wr_hist t cls' rs'
  | _, _ => []
  end.
Definition wr_pending (t : N) (th : thread) : list entry :=
  match th_todo th with
  | CAppend t' e :: _ => match th_pc th with PA_written => if t_id t' =? t then [e] else [] | _ => [] end
  | _ => []
  end.
Definition wr_seq (t : N) (prog : list call) (th : thread) : list entry :=
  wr_hist t (done_of prog th) (rev (th_done th)) ++ wr_pending t th.

Definition prog_pids (prog : list call) : list N :=
  flat_map (fun cl => match cl with CAppend _ e => [e_pid e] | CBatch _ es => map e_pid es | _ => [] end) prog.
Definition own (prog : list call) (e : entry) : bool := existsb (N.eqb (e_pid e)) (prog_pids prog).
Definition consumes (prog : list call) (t : N) : Prop :=
  exists t' ck, In (CRead t' ck) prog /\ t_id t' = t.

(* iv_del gives every consumer of a topic the whole delivered prefix: INV holds only under one
   consumer per topic (ConcStep.single_consumer) *)
Record INV (c : Cfg) (progs : list (list call)) (cs : cstate) : Prop := {
  iv_next : 0 < nid_of cs;
  iv_ts : forall t, TInvP c (nid_of cs) (eff cs t);
  iv_bf : sh_bf (cs_sh cs) = [];
  iv_lock : lock_ok cs;
  iv_len : length (cs_threads cs) = length progs;
  iv_th : forall i th, nth_error (cs_threads cs) i = Some th ->
            th_ok c cs th /\ Forall (fun cl => simple_call cl = true) (th_todo th) /\ hist_ok (nth i progs []) th;
  iv_win : forall i th, nth_error (cs_threads cs) i = Some th -> win_ok c cs th;
  iv_del : forall t i th, nth_error (cs_threads cs) i = Some th -> consumes (nth i progs []) t ->
             del_seq t (nth i progs []) th ++ map out_of (unread c (eff cs t)) = map out_of (stream (eff cs t));
  iv_own : forall t i th, nth_error (cs_threads cs) i = Some th ->
             filter (own (nth i progs [])) (stream (eff cs t)) = wr_seq t (nth i progs []) th;
  iv_owned : forall t e, In e (stream (eff cs t)) -> exists i, (i < length progs)%nat /\ own (nth i progs []) e = true
}.

Lemma existsb_set_nth {A} (f : A -> bool) (l : list A) n x y :
  nth_error l n = Some y -> f x = f y -> existsb f (c_set_nth l n x) = existsb f l.
Proof.
  revert n; induction l as [|a l IH]; intros n Hn Hf; [destruct n; discriminate|].
  destruct n; cbn in *.
  - inversion Hn; subst. now rewrite Hf.
  - now rewrite (IH n Hn Hf).
Qed.

Lemma th_mid_holds t th : th_mid t th = true -> th_holds t th = true.
Proof. unfold th_mid, th_holds. destruct (th_todo th) as [|[| | |] ?]; try discriminate. destruct (th_pc th); auto; discriminate. Qed.

Lemma mid_false_free cs t : lock_ok cs -> wl_holder (sh_wl (cs_sh cs)) t = None -> mid cs t = false.
Proof.
  intros Hl Hn. specialize (Hl t). rewrite Hn in Hl. unfold mid.
  destruct (existsb (th_mid t) (cs_threads cs)) eqn:E; [|reflexivity].
  apply existsb_exists in E. destruct E as (th & Hin & Hm). apply In_nth_error in Hin. destruct Hin as (i & Hi).
  pose proof (th_mid_holds _ _ Hm). specialize (Hl i th Hi). congruence.
Qed.

Lemma done_of_eq prog th done : prog = done ++ th_todo th -> done_of prog th = done.
Proof.
  intros H. unfold done_of. rewrite H at 2. rewrite H, app_length.
  replace (length done + length (th_todo th) - length (th_todo th))%nat with (length done) by lia.
  now rewrite firstn_app, firstn_all, Nat.sub_diag, firstn_O, app_nil_r.
Qed.

Lemma del_hist_snoc t cls rs cl r : length cls = length rs ->
  del_hist t (cls ++ [cl]) (rs ++ [r]) = del_hist t cls rs ++ del_hist t [cl] [r].
Proof.
  revert rs; induction cls as [|x cls IH]; intros rs H; destruct rs as [|y rs]; try discriminate; [reflexivity|].
  cbn [app del_hist]. rewrite IH by (cbn in H; lia). now rewrite app_assoc.
Qed.
Lemma wr_hist_snoc t cls rs cl r : length cls = length rs ->
  wr_hist t (cls ++ [cl]) (rs ++ [r]) = wr_hist t cls rs ++ wr_hist t [cl] [r].
Proof.
  revert rs; induction cls as [|x cls IH]; intros rs H; destruct rs as [|y rs]; try discriminate; [reflexivity|].
  cbn [app wr_hist]. rewrite IH by (cbn in H; lia). now rewrite app_assoc.
Qed.

Lemma hist_len prog th done : prog = done ++ th_todo th -> Forall2 res_ok done (rev (th_done th)) ->
  length done = length (rev (th_done th)).
Proof. intros _ H. eapply Forall2_len; eauto. Qed.

(* The current call [cl] of [th] returns [r]: the thread model/Conc.v goes on with (cstep, SDoneC). *)
Lemma hist_ok_ret prog th cl rest r : th_todo th = cl :: rest -> res_ok cl r -> hist_ok prog th ->
  hist_ok prog {| th_todo := rest; th_pc := PStart; th_done := r :: th_done th |}.
Proof.
  intros A Hr (d & H1 & H2). exists (d ++ [cl]). cbn [th_todo th_done rev]. split.
  - rewrite H1, A, <- app_assoc. reflexivity.
  - apply Forall2_app; [exact H2|]. constructor; [exact Hr|constructor].
Qed.

(* a ledger over the returned calls plus what the current call has pending, when the call returns *)
Lemma hist_ret {X} (h : list call -> list result -> list X) (pend : thread -> list X) prog th cl rest r :
  (forall cls rs cl r, length cls = length rs -> h (cls ++ [cl]) (rs ++ [r]) = h cls rs ++ h [cl] [r]) ->
  hist_ok prog th -> th_todo th = cl :: rest ->
  let th' := {| th_todo := rest; th_pc := PStart; th_done := r :: th_done th |} in
  pend th' = [] -> h [cl] [r] = pend th ->
  h (done_of prog th') (rev (th_done th')) ++ pend th' = h (done_of prog th) (rev (th_done th)) ++ pend th.
Proof.
  intros Hsn (d & H1 & H2) A th' Hn Hp.
  assert (H1' : prog = (d ++ [cl]) ++ th_todo th') by (rewrite H1, A, <- app_assoc; reflexivity).
  rewrite (done_of_eq _ _ _ H1), (done_of_eq _ _ _ H1'). cbn [th' th_done rev].
  rewrite Hsn by (eapply Forall2_len; eauto). now rewrite Hn, app_nil_r, Hp.
Qed.

Lemma seq_ret prog th cl rest r : hist_ok prog th -> th_todo th = cl :: rest ->
  (forall t, del_hist t [cl] [r] = del_pending t th) -> (forall t, wr_hist t [cl] [r] = wr_pending t th) ->
  let th' := {| th_todo := rest; th_pc := PStart; th_done := r :: th_done th |} in
  forall t, del_seq t prog th' = del_seq t prog th /\ wr_seq t prog th' = wr_seq t prog th.
Proof.
  intros Hh A Hd Hw th' t.
  split; [apply (hist_ret (del_hist t) (del_pending t) prog th cl rest r (del_hist_snoc t) Hh A)|
          apply (hist_ret (wr_hist t) (wr_pending t) prog th cl rest r (wr_hist_snoc t) Hh A)]; auto;
    unfold del_pending, wr_pending; cbn [th_todo th_pc]; destruct rest as [|[| |? []|] ?]; reflexivity.
Qed.

Lemma wl_holder_take sh t tid t' :
  wl_holder (sh_wl (wl_take sh t tid)) t' = if t =? t' then Some tid else wl_holder (sh_wl sh) t'.
Proof. unfold wl_holder, wl_take. cbn [sh_wl find fst snd]. destruct (t =? t'); reflexivity. Qed.
Lemma wl_holder_release sh t t' :
  wl_holder (sh_wl (wl_release sh t)) t' = if t =? t' then None else wl_holder (sh_wl sh) t'.
Proof.
  unfold wl_holder, wl_release. cbn [sh_wl]. induction (sh_wl sh) as [|[k v] l IH]; cbn [filter find fst snd].
  - now destruct (t =? t').
  - destruct (k =? t) eqn:E1; cbn [negb filter find fst snd].
    + destruct (t =? t') eqn:E2; [exact IH|]. replace (k =? t') with false by lia. exact IH.
    + destruct (k =? t') eqn:E3.
      * replace (t =? t') with false by lia. reflexivity.
      * exact IH.
Qed.

(* the inner match of Conc.cur_topic *)
Definition head_topic (th : thread) : option N :=
  match th_todo th with cl :: _ => Some (t_id (call_topic cl)) | [] => None end.

(* what the window clauses see of the reader; not r_off: inside a window the cursor is behind the chain *)
Definition rd_same (ts ts' : tstate) : Prop :=
  r_idx (reader_of ts') = r_idx (reader_of ts) /\ r_chain (reader_of ts') = r_chain (reader_of ts) /\
  r_tail_bid (reader_of ts') = r_tail_bid (reader_of ts) /\ r_tail_off (reader_of ts') = r_tail_off (reader_of ts).

Lemma rd_same_refl ts : rd_same ts ts. Proof. repeat split. Qed.

(* the state after a step of thread tid *)
Definition upd (cs : cstate) (sh' : shared) (tid : nat) (th' : thread) : cstate :=
  {| cs_sh := sh'; cs_threads := c_set_nth (cs_threads cs) tid th' |}.

Lemma upd_nth cs sh' tid th th' i : nth_error (cs_threads cs) tid = Some th ->
  nth_error (cs_threads (upd cs sh' tid th')) i = if Nat.eqb i tid then Some th' else nth_error (cs_threads cs) i.
Proof. intros H. apply nth_error_set_nth. eapply nth_error_lt; eauto. Qed.

Lemma upd_nth_cases cs sh' tid th th' i thi : nth_error (cs_threads cs) tid = Some th ->
  nth_error (cs_threads (upd cs sh' tid th')) i = Some thi ->
  (i = tid /\ thi = th') \/ (i <> tid /\ nth_error (cs_threads cs) i = Some thi).
Proof.
  intros Hth Hi. rewrite (upd_nth _ _ _ _ _ _ Hth) in Hi. destruct (Nat.eqb_spec i tid) as [->|Hne]; [left|right]; split; congruence.
Qed.

Lemma mid_upd_same cs sh' tid th th' t : nth_error (cs_threads cs) tid = Some th ->
  th_mid t th' = th_mid t th -> mid (upd cs sh' tid th') t = mid cs t.
Proof. intros H E. unfold mid, upd. cbn. eapply existsb_set_nth; eauto. Qed.

(* [da] is appended to the stream, [dd] leaves the front of what is unread *)
Definition effect_ok (c : Cfg) (E E' : tstate) (da dd : list entry) : Prop :=
  stream E' = stream E ++ da /\ unread c E ++ da = dd ++ unread c E'.

Lemma effect_none c E E' : stream E' = stream E -> unread c E' = unread c E -> effect_ok c E E' [] [].
Proof. intros A B. split; [now rewrite app_nil_r|]. now rewrite app_nil_r, B. Qed.

Lemma rawts_upd cs sh' tid th' t : rawts (upd cs sh' tid th') t = get_ts (sh_st sh') t.
Proof. reflexivity. Qed.

Lemma head_topic_holds_false th t0 t : head_topic th = Some t0 -> t <> t0 -> th_holds t th = false.
Proof.
  unfold head_topic, th_holds. destruct (th_todo th) as [|cl rest]; [reflexivity|]. intros H Hne. inversion H; subst t0.
  destruct cl as [tt ee|tt es|tt ck|tt mb ck]; try reflexivity. cbn [call_topic] in Hne. destruct (th_pc th); try reflexivity;
  destruct (N.eqb_spec (t_id tt) t); try congruence; reflexivity.
Qed.
Lemma head_topic_mid_false th t0 t : head_topic th = Some t0 -> t <> t0 -> th_mid t th = false.
Proof.
  intros H Hne. destruct (th_mid t th) eqn:E; [|reflexivity].
  apply th_mid_holds in E. now rewrite (head_topic_holds_false th t0 t H Hne) in E.
Qed.

Lemma mid_upd_other cs sh' tid th th' t0 t :
  nth_error (cs_threads cs) tid = Some th -> head_topic th = Some t0 -> (forall t, t <> t0 -> th_mid t th' = false) ->
  t <> t0 -> mid (upd cs sh' tid th') t = mid cs t.
Proof.
  intros Hth Hhead Hm Hne. apply (mid_upd_same cs sh' tid th th' t Hth).
  rewrite (Hm t Hne). symmetry. eapply head_topic_mid_false; eauto.
Qed.
