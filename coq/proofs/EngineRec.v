(* EngineRec.v — the recovery scan (startup_chore as model/Engine.v has it) over ANY well-formed
   file image: every written block is rebuilt with all of its entries, attributed to the topic
   that wrote it, in file order; never-written blocks are skipped without hiding what follows. *)
From W Require Import model.Base model.Engine proofs.EngineWF proofs.EngineInv.

(* the extent the allocator gives a block, as a function of the entry it was allocated for *)
Definition extent_of (c : Cfg) (e : entry) : N :=
  if c_block c <? need c e then round_up c (need c e) else c_block c.

(* a block image as the writer leaves it: written by one topic; a one-unit block, or a
   multi-unit block whose first entry is the large one it was sized for; content inside it *)
Definition dwf (c : Cfg) (b : dblk) : Prop :=
  match d_ents b with
  | [] => True
  | e1 :: _ => (exists t, d_topic b = Some t) /\ extent_of c e1 = d_limit b /\ sum_need c (d_ents b) <= d_limit b
  end.

Definition rc_get (l : list (N * (topic * list blk))) (t : N) : list blk :=
  match find (fun q => fst q =? t) l with Some (_, (_, ch)) => ch | None => [] end.

Lemma rc_get_push_same l t b : rc_get (rc_push l t b) (t_id t) = rc_get l (t_id t) ++ [b].
Proof.
  unfold rc_get. induction l as [|[k [t0 ch]] l IH]; cbn.
  - now rewrite N.eqb_refl.
  - destruct (k =? t_id t) eqn:E; cbn; rewrite E; [reflexivity|exact IH].
Qed.
Lemma rc_get_push_other l t b t' : t' <> t_id t -> rc_get (rc_push l t b) t' = rc_get l t'.
Proof.
  intros Hne. unfold rc_get. induction l as [|[k [t0 ch]] l IH]; cbn.
  - replace (t_id t =? t') with false by lia. reflexivity.
  - destruct (k =? t_id t) eqn:E; cbn.
    + replace (k =? t') with false by lia. reflexivity.
    + destruct (k =? t'); [reflexivity|exact IH].
Qed.

Lemma walk_unit_fit c (Hh : 0 < c_hdr c) lim : forall es pos acc,
  pos + sum_need c es <= lim -> walk_unit c lim es pos acc = (rev acc ++ es, pos + sum_need c es, lim).
Proof.
  induction es as [|e es IH]; intros pos acc Hfit; cbn [walk_unit sum_need].
  - now rewrite app_nil_r, N.add_0_r.
  - cbn [sum_need] in Hfit. pose proof (need_pos c e Hh).
    replace (lim <=? pos) with false by lia.
    replace (lim <? pos + need c e) with false by lia.
    rewrite IH by lia. cbn [rev]. rewrite <- app_assoc. cbn. f_equal. f_equal. lia.
Qed.

Lemma walk_block c (Hh : 0 < c_hdr c) (Hb : 0 < c_block c) e1 es L :
  extent_of c e1 = L -> sum_need c (e1 :: es) <= L ->
  walk_unit c (c_block c) (e1 :: es) 0 [] = (e1 :: es, sum_need c (e1 :: es), L).
Proof.
  intros Hext Hfit. unfold extent_of in Hext.
  destruct (c_block c <? need c e1) eqn:E.
  - (* multi-unit: the first entry extends the extent to the allocated one *)
    cbn [walk_unit]. replace (c_block c <=? 0) with false by lia. rewrite N.add_0_l, E, Hext.
    cbn [sum_need] in Hfit. rewrite (walk_unit_fit c Hh L es (need c e1) [e1]) by lia.
    cbn [rev app sum_need]. reflexivity.
  - subst L. rewrite (walk_unit_fit c Hh (c_block c) (e1 :: es) 0 []) by lia. cbn [rev app]. now rewrite N.add_0_l.
Qed.

(* entries the blocks of one file hold for topic id [t] *)
Definition ents_of_topic (t : N) (blocks : list dblk) : list entry :=
  flat_map (fun b => match d_topic b with Some t0 => if t_id t0 =? t then d_ents b else [] | None => [] end) blocks.

Lemma ents_of_topic_app t a b : ents_of_topic t (a ++ b) = ents_of_topic t a ++ ents_of_topic t b.
Proof. unfold ents_of_topic. apply flat_map_app. Qed.

(* the same block by block: the entry lists of the written blocks of topic id [t] *)
Definition blocks_of (t : N) (blocks : list dblk) : list (list entry) :=
  filter (fun l => match l with [] => false | _ => true end)
    (map (fun b => match d_topic b with Some t0 => if t_id t0 =? t then d_ents b else [] | None => [] end) blocks).

Lemma blocks_of_app t a b : blocks_of t (a ++ b) = blocks_of t a ++ blocks_of t b.
Proof. unfold blocks_of. now rewrite map_app, filter_app. Qed.

Lemma concat_blocks_of t D : concat (blocks_of t D) = ents_of_topic t D.
Proof.
  induction D as [|b D IH]; [reflexivity|]. unfold blocks_of, ents_of_topic in *. cbn [map filter flat_map].
  destruct (match d_topic b with Some t0 => if t_id t0 =? t then d_ents b else [] | None => [] end); cbn [concat app]; now rewrite IH.
Qed.

(* what the scan guarantees of a rebuilt chain; [P] is whatever is known of the extents on disk *)
Definition GoodCh (c : Cfg) (P : N -> Prop) (nid : N) (ch : list blk) : Prop :=
  Forall (fun b => b_used b = sum_need c (b_ents b) /\ b_used b <= b_limit b /\ P (b_limit b)) ch /\
  Forall (fun b => 0 < b_id b < nid) ch /\
  NoDup (map b_id ch).

Lemma GoodCh_nil c P nid : GoodCh c P nid [].
Proof. split; [constructor|]. split; constructor. Qed.

Lemma GoodCh_mono c P n n' ch : n <= n' -> GoodCh c P n ch -> GoodCh c P n' ch.
Proof.
  intros Hn (H1 & H2 & H3). split; [exact H1|]. split; [|exact H3].
  eapply Forall_impl; [|exact H2]. cbn. intros; lia.
Qed.

Lemma GoodCh_snoc c P nid ch b : 0 < nid ->
  GoodCh c P nid ch -> b_used b = sum_need c (b_ents b) -> b_used b <= b_limit b -> P (b_limit b) -> nid <= b_id b ->
  GoodCh c P (b_id b + 1) (ch ++ [b]).
Proof.
  intros Hn (H1 & H2 & H3) Hu Hl Hp Hid. split; [|split].
  - apply Forall_app. split; [exact H1|]. constructor; [auto|constructor].
  - apply Forall_app. split; [eapply Forall_impl; [|exact H2]; cbn; intros; lia|].
    constructor; [lia|constructor].
  - rewrite map_app. cbn [map]. apply NoDup_snoc; [exact H3|].
    intros Hin. apply in_map_iff in Hin. destruct Hin as (b0 & Hb0 & Hin).
    eapply Forall_forall in H2; [|exact Hin]. lia.
Qed.

(* the scan only finds non-empty chains *)
Definition NEc (l : list (N * (topic * list blk))) : Prop := Forall (fun q => snd (snd q) <> []) l.

Lemma rc_push_NE l t b : NEc l -> NEc (rc_push l t b).
Proof.
  induction l as [|[k [t0 ch]] r IH]; intros H; cbn [rc_push].
  - constructor; [cbn; discriminate|constructor].
  - inversion H as [|q l' Hq Hr]; subst. destruct (k =? t_id t).
    + constructor; [|exact Hr]. cbn. intros E. apply app_eq_nil in E. destruct E; discriminate.
    + constructor; [exact Hq|exact (IH Hr)].
Qed.

(* One file.  The flag, the id and the entry lists (first three clauses) hold of any accumulator; the fourth is what
   good chains, positive ids and extents with [P] add; the fifth: if no chain was empty, none is. *)
Theorem scan_blocks_spec c (Hh : 0 < c_hdr c) (Hb : 0 < c_block c) (P : N -> Prop) f : forall blocks zeros next_id acc,
  Forall (dwf c) blocks ->
  let '(acc', id') := scan_blocks c f blocks zeros next_id acc in
  rc_flag acc' = rc_flag acc /\ next_id <= id' /\
  (forall t, map b_ents (rc_get (rc_chains acc') t) = map b_ents (rc_get (rc_chains acc) t) ++ blocks_of t blocks) /\
  (Forall (fun x => P (d_limit x)) blocks -> 0 < next_id -> (forall t, GoodCh c P next_id (rc_get (rc_chains acc) t)) ->
   forall t, GoodCh c P id' (rc_get (rc_chains acc') t)) /\
  (NEc (rc_chains acc) -> NEc (rc_chains acc')).
Proof.
  induction blocks as [|b blocks IH]; intros zeros next_id acc Hwf; cbn [scan_blocks].
  - split; [reflexivity|]. split; [lia|]. split; [|auto]. intros t. now rewrite app_nil_r.
  - pose proof (Forall_inv Hwf) as Hbw. apply Forall_inv_tail in Hwf. unfold dwf in Hbw.
    destruct (d_ents b) as [|e1 es] eqn:Ee.
    + (* never written: skipped, the scan goes on *)
      assert (Hq : forall t, blocks_of t [b] = []).
      { intros t. unfold blocks_of. cbn [map filter]. rewrite Ee. now destruct (d_topic b) as [t0|]; [destruct (t_id t0 =? t)|]. }
      specialize (IH (zeros + d_limit b / c_block c) next_id acc Hwf).
      destruct (d_topic b); destruct (scan_blocks _ _ blocks _ _ _) as [acc' id']; destruct IH as (A & B & C & G & E);
        (split; [exact A|]); (split; [exact B|]); (split; [intros t'; rewrite C; change (b :: blocks) with ([b] ++ blocks); now rewrite blocks_of_app, Hq|]);
        (split; [|exact E]); intros Hlim; exact (G (Forall_inv_tail Hlim)).
    + (* written: one block [nb] for its topic, numbered past the zero units before it *)
      destruct Hbw as ((t0 & Ht0) & Hext & Hfit). rewrite Ht0.
      rewrite (walk_block c Hh Hb e1 es (d_limit b) Hext Hfit).
      replace (d_limit b <? d_limit b) with false by lia.
      set (nb := {| b_id := next_id + zeros; b_file := f; b_off := d_off b; b_limit := d_limit b;
                    b_used := sum_need c (e1 :: es); b_ents := e1 :: es |}).
      match goal with |- context [scan_blocks c f blocks ?z ?i ?a] => specialize (IH z i a Hwf) end.
      destruct (scan_blocks _ _ blocks _ _ _) as [acc' id'].
      destruct IH as (A & B & C & G & E). cbn [rc_flag rc_chains] in *. split; [exact A|]. split; [lia|]. split; [|split; [|intros H; exact (E (rc_push_NE _ t0 nb H))]].
      * intros t. rewrite C. change (b :: blocks) with ([b] ++ blocks). rewrite blocks_of_app. unfold blocks_of at 2.
        cbn [map filter]. rewrite Ht0, Ee.
        destruct (t_id t0 =? t) eqn:Et.
        -- assert (t = t_id t0) by lia. subst t. rewrite rc_get_push_same, map_app, <- app_assoc. reflexivity.
        -- rewrite rc_get_push_other by lia. reflexivity.
      * intros Hlim Hn Hgood. apply (G (Forall_inv_tail Hlim)); [lia|].
        intros t. destruct (N.eq_dec t (t_id t0)) as [->|Hne].
        -- rewrite rc_get_push_same.
           apply (GoodCh_snoc c P next_id _ nb Hn (Hgood (t_id t0))); cbn [nb b_used b_ents b_limit b_id]; auto; [exact (Forall_inv Hlim)|lia].
        -- rewrite rc_get_push_other by exact Hne. eapply GoodCh_mono; [|apply Hgood]. lia.
Qed.

(* all files, in file order ([files_ents] below, block by block) *)
Fixpoint files_blocks (t : N) (nfiles : nat) (f : N) (disk : list dblk) : list (list entry) :=
  match nfiles with
  | O => []
  | S k => blocks_of t (filter (fun x => d_file x =? f) disk) ++ files_blocks t k (f + 1) disk
  end.

Theorem scan_files_spec c (Hh : 0 < c_hdr c) (Hb : 0 < c_block c) (P : N -> Prop) : forall nfiles f disk next_id acc,
  Forall (dwf c) disk ->
  let '(acc', id') := scan_files c nfiles f disk next_id acc in
  rc_flag acc' = rc_flag acc /\ next_id <= id' /\
  (forall t, map b_ents (rc_get (rc_chains acc') t) =
             map b_ents (rc_get (rc_chains acc) t) ++ files_blocks t nfiles f disk) /\
  (Forall (fun x => P (d_limit x)) disk -> 0 < next_id -> (forall t, GoodCh c P next_id (rc_get (rc_chains acc) t)) ->
   forall t, GoodCh c P id' (rc_get (rc_chains acc') t)) /\
  (NEc (rc_chains acc) -> NEc (rc_chains acc')).
Proof.
  induction nfiles as [|k IH]; intros f disk next_id acc Hwf; cbn [scan_files files_blocks].
  - split; [reflexivity|]. split; [lia|]. split; [|auto]. intros t. now rewrite app_nil_r.
  - pose proof (scan_blocks_spec c Hh Hb P f _ 0 next_id acc (Forall_filter _ (fun x => d_file x =? f) _ Hwf)) as H1.
    destruct (scan_blocks _ _ _ _ _ _) as [acc1 id1]. destruct H1 as (A1 & B1 & C1 & G1 & E1).
    specialize (IH (f + 1) disk id1 acc1 Hwf).
    destruct (scan_files _ _ _ _ _ _) as [acc' id']. destruct IH as (A2 & B2 & C2 & G2 & E2).
    split; [congruence|]. split; [lia|]. split; [intros t; now rewrite C2, C1, app_assoc|]. split; [|auto].
    intros Hlim Hn Hgood. apply (G2 Hlim); [lia|]. exact (G1 (Forall_filter _ _ _ Hlim) Hn Hgood).
Qed.

(* entry by entry: all files, in file order *)
Fixpoint files_ents (t : N) (nfiles : nat) (f : N) (disk : list dblk) : list entry :=
  match nfiles with
  | O => []
  | S k => ents_of_topic t (filter (fun x => d_file x =? f) disk) ++ files_ents t k (f + 1) disk
  end.

Lemma concat_files_blocks t : forall n f D, concat (files_blocks t n f D) = files_ents t n f D.
Proof. induction n as [|k IH]; intros f D; cbn [files_ents files_blocks]; [reflexivity|]. now rewrite concat_app, concat_blocks_of, IH. Qed.

Theorem scan_files_complete c (Hh : 0 < c_hdr c) (Hb : 0 < c_block c) : forall nfiles f disk next_id acc,
  Forall (dwf c) disk ->
  let '(acc', id') := scan_files c nfiles f disk next_id acc in
  rc_flag acc' = rc_flag acc /\
  forall t, chain_ents (rc_get (rc_chains acc') t) = chain_ents (rc_get (rc_chains acc) t) ++ files_ents t nfiles f disk.
Proof.
  intros nfiles f disk next_id acc Hwf. pose proof (scan_files_spec c Hh Hb (fun _ => True) nfiles f disk next_id acc Hwf) as H.
  destruct (scan_files _ _ _ _ _ _) as [acc' id']. destruct H as (A & _ & C & _). split; [exact A|].
  intros t. unfold chain_ents. now rewrite !flat_map_concat_map, C, concat_app, concat_files_blocks.
Qed.
