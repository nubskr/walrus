(* ClusterFence.v — a scheduler that lets apply@n through only while no task is inside the lease
   region of n never writes into a segment after the writer applied its sealing, for ALL schedules
   ([guarded_inv]); the fenced scheduler of model/ClusterSys.v is one ([fenced_guarded], [fenced_ok]).
   Invariant: [InvG] of ClusterP.v at G = [own] — what a task inside the region of e
   relies on is what e's CURRENT metadata says e owns: the segment is open and e's.  Task steps
   keep it whoever else is inside the region (a lease refresh installs an `expected` that is
   itself owned); only apply@n could break it, and it waits.  That fenced_step also keeps tasks
   out of a busy region is not used. *)
From W Require Import model.Base model.Meta model.Cluster model.ClusterSys
  spec.StreamSpec proofs.ListP proofs.MapP proofs.ClusterP.

Definition own (m : mstate) (e sg : N) : Prop := owned m e = Some sg.

Lemma entry_own s : entry own s.
Proof. intros e x sg _ H. exact H. Qed.

Lemma not_busy s e a : region_busy s e = false -> in_region e (pc_of s a) = false.
Proof.
  intros H. destruct (pc_of s a) as [pc|] eqn:Hp; [|reflexivity].
  apply (existsb_false_in _ _ _ H). unfold all_pcs. destruct a as [i|n|n|n|n]; cbn [pc_of] in Hp; try discriminate.
  - destruct (nth_error (s_clients s) i) as [c|] eqn:Ec; [|discriminate]. apply in_or_app. left.
    rewrite <- Hp. apply in_map. eapply nth_error_In; eauto.
  - apply (lookup_In N_cmp_ok) in Hp. apply in_or_app. right. apply in_or_app. left.
    apply in_map_iff. exists (n, pc). auto.
  - apply (lookup_In N_cmp_ok) in Hp. apply in_or_app. right. apply in_or_app. right.
    apply in_map_iff. exists (n, pc). auto.
Qed.

Lemma get_set_meta s e x x' y e0 :
  get_node s e = Some x -> nd_meta x' = nd_meta x -> get_node (set_node s e x') e0 = Some y ->
  exists y0, get_node s e0 = Some y0 /\ nd_meta y = nd_meta y0.
Proof. intros Hg Hm Hy. destruct (get_set_inv _ _ _ _ _ Hy) as [[-> ->]|[_ Hy0]]; eauto. Qed.

(* the engine append finds the segment open and the writer's own *)
Lemma exec_pc_scan_own cfg s p pc s1 out :
  nodes_ok s -> rok own s (Some pc) -> exec_pc cfg s p pc = (s1, out) ->
  forall rest, c23_scan (s_log s) (out_subs out ++ rest) = c23_scan (s_log s1) rest.
Proof.
  intros Hn Hp H.
  assert (Hl : rok led s (Some pc)).
  { intros q e x Hq Hr Hg sg Hc. exact (led_owned _ _ _ (node_ok_ginv _ _ (Hn _ _ Hg)) (Hp q e x Hq Hr Hg sg Hc)). }
  apply (exec_pc_scan cfg s p pc); auto.
  intros n seg q a x Hin Hg. destruct (exec_pc_writes _ _ _ _ _ _ _ _ _ _ H Hin) as [att ->].
  exact (owned_not_sealed _ _ _ (node_ok_ginv _ _ (Hn _ _ Hg)) (rok_spawn own _ _ _ _ _ Hp Hg)).
Qed.

(* a scheduler that refuses some events, and apply@n whenever a task is inside n's region *)
Definition guarded (cfg : ccfg) (st : cst -> cev -> cst * ctok) : Prop :=
  forall s ev, (exists x, st s ev = (s, (x, []))) \/
               (st s ev = cl_step cfg s ev /\ forall n, ev = EvA n -> region_busy s n = false).

Lemma guarded_inv cfg st s ev s' t : guarded cfg st -> InvG own s -> st s ev = (s', t) ->
  InvG own s' /\ forall rest, c23_scan (s_log s) (snd t ++ rest) = c23_scan (s_log s') rest.
Proof.
  intros Hst Hi H. destruct (Hst s ev) as [[x E]|[E Hb]]; rewrite E in H.
  { inversion H; subst. split; [exact Hi|reflexivity]. }
  split.
  - apply (InvG_step own cfg s ev s' t (entry_own s)); auto.
    intros n x c a sg -> _ R. rewrite (not_busy _ _ a (Hb n eq_refl)) in R. discriminate.
  - destruct Hi as [Hn Hp]. apply (cl_step_scan _ _ _ _ _ _ skips_scan H). intros pc p s1 out Hpc Hx _.
    specialize (Hp ev). rewrite Hpc in Hp. exact (exec_pc_scan_own _ _ _ _ _ _ Hn Hp Hx).
Qed.

Lemma fenced_guarded cfg : guarded cfg (fenced_step cfg).
Proof.
  intros s ev. destruct (is_task ev) eqn:Ht.
  - assert (A : forall n, ev = EvA n -> region_busy s n = false) by (intros n ->; discriminate Ht).
    destruct ev; try discriminate Ht; cbn [fenced_step]; destruct (cl_step cfg s _) as [s1 t1];
      (destruct (pc_of s1 _) as [pc'|]; [destruct (region_node pc'); [destruct (_ && _)|]|]); eauto.
  - destruct ev as [i|n|n|n|n]; try discriminate Ht; cbn [fenced_step].
    + destruct (region_busy s n) eqn:Hb; [left; eauto|right; split; [reflexivity|]]. intros m E. now inversion E; subst.
    + right. split; [reflexivity|discriminate].
Qed.

Lemma fenced_run_ok cfg sched : forall s, InvG own s ->
  c23_scan (s_log s) (events (fst (fenced_run cfg s sched))) = 0.
Proof.
  induction sched as [|e r IH]; intros s Hi; cbn [fenced_run]; [reflexivity|].
  destruct (fenced_step cfg s e) as [s1 t] eqn:E.
  destruct (guarded_inv cfg _ _ _ _ _ (fenced_guarded cfg) Hi E) as (Hi1 & Hs).
  specialize (IH s1 Hi1). destruct (fenced_run cfg s1 r) as [ts s2]. cbn [fst] in *.
  unfold events in *. cbn [flat_map]. now rewrite Hs.
Qed.

(* the fence is sufficient: with update_leases - ensure_lease - write atomic with respect to
   apply@n, no engine write follows the writer's apply of the sealing, nor goes to a segment of
   another node — for every schedule *)
Lemma fenced_ok cfg sched : c23_ok cfg (fenced_trace cfg sched) = true.
Proof.
  unfold c23_ok, c23_verdict, fenced_trace. change (boot_log cfg) with (s_log (cl_init cfg)).
  rewrite fenced_run_ok; [reflexivity|apply InvG_init].
Qed.
