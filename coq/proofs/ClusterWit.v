(* ClusterWit.v — witness schedules (each also replayed on the real code by the check:
   corpus/C22/*.case, corpus/C23/*.case).  w1, w2, w4, w5 are numbered after the mechanisms of
   DESIGN.md 11.6; w3 is not its (3) but the reader-lag witness. *)
From W Require Import model.Base model.Cluster model.ClusterSys spec.StreamSpec spec.ClusterClass.

Definition rp (k : nat) (e : cev) : list cev := repeat e k.

(* w1: two PUTs at the rollover threshold: c0 appends entry 1 of segment 1, counts 1 >= T = 1 and
   proposes Rollover(count = 1); before the node applies it c1 passes the lease check, appends
   entry 2 into the same segment, is acknowledged (and proposes a second rollover).  The reader
   leaves segment 1 after 1 entry.  The lease was valid: no C23 violation is involved. *)
Definition w1_cfg : ccfg := mkCfg 1 1 1 [[OPut 1]; [OPut 1]; [OGet 1; OGet 1; OGet 1]].
Definition w1_sched : list cev :=
  rp 10 (EvC 0) ++ rp 9 (EvC 1) ++ [EvA 1; EvA 1; EvC 0; EvC 1] ++ rp 14 (EvC 2).

Lemma w1_refutes :
  c22_verdict (cl_trace w1_cfg w1_sched) = 4 /\ c23_verdict w1_cfg (cl_trace w1_cfg w1_sched) = 0
  /\ k_under (cl_classes w1_cfg w1_sched) = true.
Proof. vm_compute. auto. Qed.

(* w3: a reader on a node whose apply lags answers EMPTY while an acknowledged entry sits in a
   segment it does not know yet (3 nodes, T = 1; node 3 has applied nothing after bootstrap) *)
Definition w3_cfg : ccfg := mkCfg 3 1 1 [[OPut 1; OPut 1]; [OGet 3; OGet 3]].
Definition w3_sched : list cev :=
  rp 10 (EvC 0) ++ [EvA 1; EvC 0; EvA 2] ++ rp 13 (EvC 0) ++ [EvA 1; EvC 0] ++ rp 10 (EvC 1).

Lemma w3_refutes :
  c22_verdict (cl_trace w3_cfg w3_sched) = 4 /\ c23_verdict w3_cfg (cl_trace w3_cfg w3_sched) = 0
  /\ k_lag (cl_classes w3_cfg w3_sched) = true /\ k_under (cl_classes w3_cfg w3_sched) = false.
Proof. vm_compute. auto. Qed.

(* w4: `offsets` is lost on restart: T = 2, one entry, restart, two more entries; the segment
   is sealed with count 2 but holds 3; the third acknowledged entry is never delivered *)
Definition w4_cfg : ccfg := mkCfg 1 2 1 [[OPut 1; OPut 1; OPut 1]; [OGet 1; OGet 1; OGet 1; OGet 1]].
Definition w4_sched : list cev :=
  rp 9 (EvC 0) ++ [EvR 1] ++ rp 19 (EvC 0) ++ [EvA 1; EvC 0] ++ rp 24 (EvC 1).

Lemma w4_refutes :
  c22_verdict (cl_trace w4_cfg w4_sched) = 4 /\ c23_verdict w4_cfg (cl_trace w4_cfg w4_sched) = 0
  /\ k_reset (cl_classes w4_cfg w4_sched) = true.
Proof. vm_compute. auto. Qed.

(* w2: a double rollover (PUT and monitor both propose from the counter of segment 1; the second
   command seals the then-current, empty segment 2 with count 1): the sealed count only
   OVER-states, the reader drains and moves on — accepted.  Not a defect by itself. *)
Definition w2_cfg : ccfg := mkCfg 1 1 1 [[OPut 1; OPut 1]; [OGet 1; OGet 1; OGet 1]].
Definition w2_sched : list cev :=
  rp 8 (EvC 0) ++ rp 4 (EvM 1) ++ [EvC 0; EvC 0; EvA 1; EvA 1; EvC 0; EvM 1] ++ rp 12 (EvC 0)
  ++ [EvA 1; EvC 0; EvC 0] ++ rp 20 (EvC 1).

Lemma w2_double_rollover_accepted :
  k_double (cl_classes w2_cfg w2_sched) = true /\ c22_verdict (cl_trace w2_cfg w2_sched) = 0
  /\ c23_verdict w2_cfg (cl_trace w2_cfg w2_sched) = 0.
Proof. vm_compute. auto. Qed.

(* w5a: check-then-write: c1's ensure_lease passes, apply@1 of the rollover sealing segment 1,
   then c1's engine append into segment 1 *)
Definition w5_cfg : ccfg := mkCfg 1 1 1 [[OPut 1]; [OPut 1]].
Definition w5a_sched : list cev := rp 10 (EvC 0) ++ rp 3 (EvC 1) ++ [EvA 1] ++ rp 6 (EvC 1) ++ [EvC 0].
Lemma w5a_refutes :
  c23_verdict w5_cfg (cl_trace w5_cfg w5a_sched) = 1 /\ k_ctw (cl_classes w5_cfg w5a_sched) = true.
Proof. vm_compute. auto. Qed.

(* w5b: stale refresh: c1 computes `expected` = {segment 1}, apply@1 of the sealing, the lease
   set still equals the stale `expected`, ensure_lease passes AFTER the apply, append *)
Definition w5b_sched : list cev := rp 10 (EvC 0) ++ [EvC 1; EvA 1] ++ rp 8 (EvC 1) ++ [EvC 0].
Lemma w5b_refutes :
  c23_verdict w5_cfg (cl_trace w5_cfg w5b_sched) = 1 /\ k_stale (cl_classes w5_cfg w5b_sched) = true.
Proof. vm_compute. auto. Qed.

(* the same two schedules under the fence: the apply waits, nothing is written after sealing *)
Lemma w5_fenced :
  c23_verdict w5_cfg (fenced_trace w5_cfg w5a_sched) = 0 /\ c23_verdict w5_cfg (fenced_trace w5_cfg w5b_sched) = 0.
Proof. vm_compute. auto. Qed.

(* the fence does not repair C22: w1 needs no stale lease *)
Lemma w1_fenced_still_loses : c22_verdict (fenced_trace w1_cfg w1_sched) = 4.
Proof. vm_compute. reflexivity. Qed.

(* non-vacuity: a sequential run that delivers across two rollovers *)
Definition nv_cfg : ccfg := mkCfg 1 2 1 [[OPut 1; OPut 1; OPut 1; OPut 1; OPut 1]; [OGet 1; OGet 1; OGet 1; OGet 1; OGet 1; OGet 1]].
Definition nv_sched : list cev := rp 70 (EvC 0) ++ [EvM 1; EvM 1] ++ rp 40 (EvC 1).
