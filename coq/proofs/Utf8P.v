(* Utf8P.v — the codec of model/Utf8.v: decode (encode s) = Some s for scalar values,
   encode (decode bs) = bs whenever decode succeeds, decoding yields scalar values only. *)
From W Require Import model.Base model.Utf8.
From Coq Require Import ZArith ZifyBool ZifyN.

Definition scalars (s : str) : Prop := Forall (fun c => is_scalar c = true) s.

Lemma utf8_enc1_length c : (1 <= length (utf8_enc1 c) <= 4)%nat.
Proof.
  unfold utf8_enc1. destruct (c <? 128), (c <? 2048), (c <? 65536); cbn [length]; lia.
Qed.

(* The range tests of encoder and decoder are decided by rewriting with these two, lia
   supplying the order; `rewrite !ltb_ge` turns the leading tests that fail into false and
   stops at the first one that holds. *)
Lemma ltb_ge a b : b <= a -> (a <? b) = false.
Proof. lia. Qed.

Lemma ltb_lt a b : a < b -> (a <? b) = true.
Proof. lia. Qed.

Lemma add_sub_l n m : n + m - n = m.
Proof. lia. Qed.

Lemma is_cont_mod x : is_cont (128 + x mod 64) = true.
Proof. unfold is_cont. lia. Qed.

Lemma utf8_dec1_enc1 c r : is_scalar c = true -> utf8_dec1 (utf8_enc1 c ++ r) = Some (c, r).
Proof.
  intros Hs. unfold is_scalar in Hs. unfold utf8_enc1.
  destruct (c <? 128) eqn:E1; [|destruct (c <? 2048) eqn:E2; [|destruct (c <? 65536) eqn:E3]];
    cbn [app utf8_dec1].
  - now rewrite E1.
  - rewrite !ltb_ge, ltb_lt, is_cont_mod, !add_sub_l by lia. do 2 f_equal. lia.
  - rewrite !ltb_ge, ltb_lt, !is_cont_mod, !add_sub_l by lia. cbn [andb].
    replace (c / 4096 * 4096 + (c / 64) mod 64 * 64 + c mod 64) with c by lia.
    rewrite E2. now replace ((55295 <? c) && (c <? 57344)) with false by lia.
  - rewrite !ltb_ge, ltb_lt, !is_cont_mod, !add_sub_l by lia. cbn [andb].
    replace (c / 262144 * 262144 + (c / 4096) mod 64 * 4096 + (c / 64) mod 64 * 64 + c mod 64)
      with c by lia.
    rewrite E3. now replace (1114111 <? c) with false by lia.
Qed.

Lemma utf8_decode_fuel_encode s : scalars s -> forall fuel, (length (utf8_encode s) <= fuel)%nat ->
  utf8_decode_fuel fuel (utf8_encode s) = Some s.
Proof.
  induction 1 as [|c s Hc Hs IH]; intros fuel Hf.
  - destruct fuel; reflexivity.
  - cbn [utf8_encode] in *. rewrite app_length in Hf.
    pose proof (utf8_enc1_length c) as Hl. pose proof (utf8_dec1_enc1 c (utf8_encode s) Hc) as Hd.
    destruct (utf8_enc1 c) as [|b e]; [cbn [length] in Hl; lia|]. destruct fuel as [|f]; [lia|].
    cbn [app utf8_decode_fuel] in *. rewrite Hd, IH by (assumption || lia). reflexivity.
Qed.

Theorem utf8_decode_encode s : scalars s -> utf8_decode (utf8_encode s) = Some s.
Proof. intros Hs. now apply utf8_decode_fuel_encode. Qed.

Lemma utf8_encode_app a b : utf8_encode (a ++ b) = utf8_encode a ++ utf8_encode b.
Proof. induction a as [|c a IH]; cbn [utf8_encode app]; [reflexivity|]. now rewrite IH, app_assoc. Qed.

Lemma utf8_encode_length s : (length s <= length (utf8_encode s) <= 4 * length s)%nat.
Proof.
  induction s as [|c s IH]; cbn [utf8_encode length]; [lia|].
  rewrite app_length. pose proof (utf8_enc1_length c). lia.
Qed.

(* six bits at a time: q * 64 + r with r < 64 is the only way to write a number so *)
Lemma div64 q r : r < 64 -> (q * 64 + r) / 64 = q.
Proof. intros H. symmetry. apply (N.div_unique _ _ _ r); lia. Qed.

Lemma mod64 q r : r < 64 -> (q * 64 + r) mod 64 = r.
Proof. intros H. symmetry. apply (N.mod_unique _ _ q); lia. Qed.

(* the encoder on a number written in six-bit digits, in the range of each length: lead + first
   digit, then one continuation byte per further digit *)
Lemma enc2 x0 x1 : x1 < 64 -> 2 <= x0 < 32 -> utf8_enc1 (x0 * 64 + x1) = [192 + x0; 128 + x1].
Proof. intros. unfold utf8_enc1. now rewrite ltb_ge, ltb_lt, div64, mod64 by lia. Qed.

Lemma enc3 x0 x1 x2 : x1 < 64 -> x2 < 64 -> x0 < 16 -> 2048 <= x0 * 4096 + x1 * 64 + x2 ->
  utf8_enc1 (x0 * 4096 + x1 * 64 + x2) = [224 + x0; 128 + x1; 128 + x2].
Proof.
  intros. unfold utf8_enc1. rewrite 2 ltb_ge, ltb_lt by lia.
  replace (x0 * 4096 + x1 * 64 + x2) with ((x0 * 64 + x1) * 64 + x2) by lia.
  now rewrite <- (N.div_div _ 64 64), !div64, !mod64 by (assumption || discriminate).
Qed.

Lemma enc4 x0 x1 x2 x3 : x1 < 64 -> x2 < 64 -> x3 < 64 -> 65536 <= x0 * 262144 + x1 * 4096 + x2 * 64 + x3 ->
  utf8_enc1 (x0 * 262144 + x1 * 4096 + x2 * 64 + x3) = [240 + x0; 128 + x1; 128 + x2; 128 + x3].
Proof.
  intros. unfold utf8_enc1. rewrite 3 ltb_ge by lia.
  replace (x0 * 262144 + x1 * 4096 + x2 * 64 + x3) with (((x0 * 64 + x1) * 64 + x2) * 64 + x3) by lia.
  now rewrite <- (N.div_div _ 64 (64 * 64)), <- !(N.div_div _ 64 64), !div64, !mod64 by (assumption || discriminate).
Qed.

(* By leading byte: the value the decoder computes is written in the six-bit digits b - 128 of the
   continuation bytes behind the digit b0 - lead, within the range of its length (the decoder refuses
   shorter forms), so the encoder gives the same bytes back. *)
Lemma utf8_dec1_sound bs c r : utf8_dec1 bs = Some (c, r) ->
  bs = utf8_enc1 c ++ r /\ is_scalar c = true.
Proof.
  unfold utf8_dec1, is_scalar, is_cont.
  destruct bs as [|b0 bs]; [discriminate|].
  destruct (b0 <? 128) eqn:E0.
  { intros [= <- <-]. unfold utf8_enc1. rewrite E0. split; [reflexivity|lia]. }
  destruct (b0 <? 194) eqn:E1; [discriminate|].
  destruct (b0 <? 224) eqn:E2.
  { destruct bs as [|b1 bs]; [discriminate|].
    destruct (_ && _) eqn:C1; [|discriminate].   (* the continuation byte *)
    intros [= <- <-]. split; [|lia].
    rewrite enc2 by lia. cbn [app]. repeat f_equal; lia. }
  destruct (b0 <? 240) eqn:E3.
  { destruct bs as [|b1 [|b2 bs]]; try discriminate.
    destruct (_ && _) eqn:C1; [|discriminate].
    destruct (_ || _) eqn:C2; [discriminate|].   (* overlong or surrogate *)
    intros [= <- <-]. split; [|lia].
    rewrite enc3 by lia. cbn [app]. repeat f_equal; lia. }
  destruct (b0 <? 245) eqn:E4; [|discriminate].
  destruct bs as [|b1 [|b2 [|b3 bs]]]; try discriminate.
  destruct (_ && _) eqn:C1; [|discriminate].
  destruct (_ || _) eqn:C2; [discriminate|].
  intros [= <- <-]. split; [|lia].
  rewrite enc4 by lia. cbn [app]. repeat f_equal; lia.
Qed.

Lemma utf8_decode_fuel_sound fuel : forall bs s, utf8_decode_fuel fuel bs = Some s ->
  utf8_encode s = bs /\ scalars s.
Proof.
  induction fuel as [|f IH]; intros [|b bs'] s H; cbn [utf8_decode_fuel] in H.
  1,3: inversion H; subst; split; [reflexivity|constructor].
  - discriminate.
  - destruct (utf8_dec1 (b :: bs')) as [[c r]|] eqn:E; [|discriminate].
    destruct (utf8_decode_fuel f r) as [s'|] eqn:E'; [|discriminate].
    inversion H; subst. destruct (utf8_dec1_sound _ _ _ E) as [-> Hc].
    destruct (IH _ _ E') as [<- Hs]. split; [reflexivity|now constructor].
Qed.

Theorem utf8_encode_decode bs s : utf8_decode bs = Some s -> utf8_encode s = bs /\ scalars s.
Proof. apply utf8_decode_fuel_sound. Qed.
