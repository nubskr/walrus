(* EngineGen.v — histories WITH restarts in ANY consistency mode (AtLeastOnce in particular): the
   invariant GM of raw states — for both hydration flavours the per-topic invariant TInv, the
   (possibly lagging) position invariant LG and agreement with a ledger whose l_del is the
   consumer's TRUE position — is kept by every restart-free operation, and every such operation
   satisfies the exactly-once step condition w.r.t. that ledger.  An instance of EngineRestart.GQ_op:
   what is proved here is that an operation keeps LG of its topic in the hydrated world ([LG_topic]). *)
From W Require Import model.Base model.Engine spec.Queue proofs.EngineWF proofs.EngineInv proofs.EngineW proofs.EngineMain proofs.EngineDisk
  proofs.EnginePos proofs.EngineP3 proofs.EngineBlk proofs.EngineNorm proofs.EngineRestart
  proofs.EngineP3L.

(* the persisted position is a good one that may lag: behind it lie delivered entries, then what is unread *)
Definition LG (c : Cfg) (T : tstate) : Prop :=
  CNE T /\ match ts_index T with
           | None => exists pre, stream T = pre ++ unread c T
           | Some p => PLag c T p
           end.

Definition TGM (c : Cfg) (nid : N) (ts : tstate) (l : ledger) (B Bb : N) : Prop :=
  SC ts /\ forall x,
    TInv c nid (nrm x ts) /\ LG c (nrm x ts) /\
    (l_del l <= length (l_app l))%nat /\ stream (nrm x ts) = l_app l /\
    unread c (nrm x ts) = skipn (l_del l) (l_app l) /\
    N.of_nat (length (l_app l)) <= B /\ sum_len (l_app l) <= Bb.

Definition GM (c : Cfg) (s : st) (g : lg) (B Bb : N) : Prop :=
  0 < a_next (s_alloc s) /\ DIs c s /\ BIs c s /\ DLim c s /\
  forall t, TGM c (a_next (s_alloc s)) (get_ts s t) (lget g t) B Bb.

(* [TGM] / [GM] are EngineRestart's [TGQ] / [GQ] written out at this clause: lemmas about GQ apply to GM as they stand *)
Definition QL : Cfg -> N -> tstate -> Prop := fun c _ => LG c.

Lemma GM_GQ : GM = GQ QL.
Proof. reflexivity. Qed.

Lemma GM_Rel x c s g B Bb : GM c s g B Bb -> Rel c (Nst x s) g B Bb.
Proof. exact (GQ_Rel QL x c s g B Bb). Qed.

Lemma LG_tstate0 c : LG c tstate0.
Proof. split; [constructor|exists []; reflexivity]. Qed.

Lemma GM_init c : 0 < c_block c -> GM c init [] 0 0.
Proof. intros Hb. apply (GQ_init QL c Hb), LG_tstate0. Qed.

Lemma TGM_CS c nid ts l B Bb : TGM c nid ts l B Bb -> 0 < nid -> CSw ts nid.
Proof. exact (TGQ_CS QL c nid ts l B Bb). Qed.

Lemma LG_Lag c T : LG c T <-> CNE T /\ exists pre, Lag c T pre.
Proof. unfold LG, Lag. destruct (ts_index T) as [p|]; [now rewrite PLag_LagAt|reflexivity]. Qed.

(* any operation on a hydrated state keeps the lagging position clause of its topic: a write makes the
   topic grow behind position and consumer; a stateful read is two legs, each of which lengthens the lag
   or persists the cursor *)
Lemma LG_topic c m be S o : cfg_ok c -> GInv c S -> op_ok c o ->
  LG c (get_ts S (otopic o)) -> LG c (get_ts (fst (step (env_of c m be) S o)) (otopic o)).
Proof.
  intros Hc Hg Hok HL. pose proof Hc as (Hh & _). pose proof Hg as (Hn & Hti).
  rewrite LG_Lag in HL |- *. destruct HL as (Hcne & pre & HL).
  destruct (topic_op c m be S o Hc Hg Hok) as [(t & ck & T1 & d & f & q1 & p & q & _ & L1 & L2 & _)|[(es & Hrun & _)|(-> & _)]]; [| |eauto].
  - destruct (Lag_leg c _ m _ _ _ f q1 T1 pre Hh L1 Hcne HL) as (Hcne1 & HL1).
    destruct (Lag_leg c _ m _ T1 _ p q _ _ Hh L2 Hcne1 HL1) as (Hcne2 & HL2). eauto.
  - destruct (WRun_Lag c Hh _ _ _ _ _ pre Hn (TInv_P _ _ _ (Hti _)) Hrun Hcne HL) as (Hcne' & HL'). eauto.
Qed.

Lemma GM_step c m be s g B Bb o : cfg_ok c -> GM c s g B Bb -> op_ok c o ->
  B + N.of_nat (length (offered o)) <= u64_max -> Bb + sum_len (offered o) <= u64_max ->
  c01_step_ok g o (snd (step (env_of c m be) s o)) = true /\
  GM c (fst (step (env_of c m be) s o)) (ledger_step g o (snd (step (env_of c m be) s o)))
     (B + N.of_nat (length (offered o))) (Bb + sum_len (offered o)).
Proof.
  intros Hc HG Hok HB HBb.
  destruct (GQ_op QL c m be s g B Bb o Hc HG Hok HB HBb (fun _ _ _ _ H => H) (fun S Hg => LG_topic c m be S o Hc Hg Hok)) as (A1 & _ & A3).
  auto.
Qed.
