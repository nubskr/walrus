(* EngineBR.v — batch_read_for_topic (stateful): the plan is a run of ranges through what is unread ([Seg]),
   parsing it takes the first entries of what is unread and records the position behind them ([Parsed]), the
   commit moves the cursor there ([br_commit_leg]).  [read_exact]: both stateful reads as a path of two legs
   ([Leg], EnginePos.v). *)
From W Require Import model.Base model.Engine proofs.EngineBasic proofs.EngineWF proofs.EngineInv proofs.EnginePos proofs.EngineW proofs.EngineRd.

Lemma out_of_trim0 e : {| o_pid := e_pid e; o_skip := N.min 0 (e_len e); o_len := e_len e - N.min 0 (e_len e) |} = out_of e.
Proof. unfold out_of. f_equal; lia. Qed.

Lemma outs_of_0 l : outs_of 0 l = map out_of l.
Proof. destruct l as [|e r]; [reflexivity|]. cbn [outs_of map]. f_equal; [apply out_of_trim0|apply map_ext, out_of_trim0]. Qed.

(* unread entries as a function of a cursor into the sealed chain; [W] = everything in the
   writer block, [WT] = what is unread when the cursor is past the chain *)
Definition UR (c : Cfg) (chain : list blk) (W WT : list entry) (i : nat) (off : N) : list entry :=
  match skipn i chain with
  | b :: r => ents_from c (b_ents b) off ++ chain_ents r ++ W
  | [] => WT
  end.

(* the entries from the start of a range to the end of its BLOCK ([pi_end] is not looked at: in a plan only the last range
   may end before its block does, [Seg]), and what is unread behind that block *)
Definition item_ents (c : Cfg) (it : plan_item) : list entry := ents_from c (b_ents (pi_blk it)) (pi_start it).
Definition item_rest (chain : list blk) (W : list entry) (it : plan_item) : list entry :=
  if pi_tail it then [] else chain_ents (skipn (S (pi_idx it)) chain) ++ W.

(* a planned range starts at an entry boundary of its block, whose fill is the size of its entries; a sealed block
   stands in the chain, not before the cursor [i0] the read started from *)
Definition item_ok (c : Cfg) (chain : list blk) (w : option blk) (i0 : nat) (it : plan_item) : Prop :=
  okoff c (b_ents (pi_blk it)) (pi_start it) /\
  b_used (pi_blk it) = sum_need c (b_ents (pi_blk it)) /\
  (if pi_tail it then w = Some (pi_blk it) else (i0 <= pi_idx it)%nat /\ nth_error chain (pi_idx it) = Some (pi_blk it)).

Definition full (it : plan_item) : Prop := pi_end it = b_used (pi_blk it).

Definition covered (c : Cfg) (it : plan_item) : Prop :=
  exists e r, item_ents c it = e :: r /\ pi_start it + need c e <= pi_end it.

(* [items] is a plan for the entries [U]: each range starts where the one before ended, every range but the
   last runs to the end of its block, only the last may lie in the writer block.  [f]: the read has yet to
   make progress: it plans something unless nothing is unread, and the first range holds an entry. *)
Inductive Seg (c : Cfg) (chain : list blk) (W : list entry) (w : option blk) (i0 : nat)
  : bool -> list plan_item -> list entry -> Prop :=
| SegNil f U : (f = true -> U = []) -> Seg c chain W w i0 f [] U
| SegCons f it rest U : item_ok c chain w i0 it -> (f = true -> covered c it) ->
    U = item_ents c it ++ item_rest chain W it -> (rest <> [] -> full it /\ pi_tail it = false) ->
    Seg c chain W w i0 false rest (item_rest chain W it) -> Seg c chain W w i0 f (it :: rest) U.

(* where the parser says it stopped, and what is unread from there *)
Definition PosOk (c : Cfg) (chain : list blk) (W : list entry) (w : option blk) (i0 : nat) (p : pstate) (L : list entry) : Prop :=
  if ps_saw_tail p then
    exists wb, w = Some wb /\ ps_tail_id p = b_id wb /\ okoff c (b_ents wb) (ps_tail_off p) /\
               ents_from c (b_ents wb) (ps_tail_off p) = L /\ b_ents wb <> []
  else
    exists b, (i0 <= ps_fin_idx p)%nat /\ nth_error chain (ps_fin_idx p) = Some b /\ okoff c (b_ents b) (ps_fin_off p) /\
              ents_from c (b_ents b) (ps_fin_off p) ++ chain_ents (skipn (S (ps_fin_idx p)) chain) ++ W = L.

Lemma PosOk_same c chain W w i0 p p' L : same_pos p p' -> PosOk c chain W w i0 p L -> PosOk c chain W w i0 p' L.
Proof. intros (A & B & C & D & E). unfold PosOk. now rewrite A, B, C, D, E. Qed.

Lemma ents_from_firstn c (Hh : 0 < c_hdr c) es : forall j off l,
  okoff c es off -> ents_from c es off = l -> (j <= length l)%nat ->
  okoff c es (off + sum_need c (firstn j l)) /\ ents_from c es (off + sum_need c (firstn j l)) = skipn j l.
Proof.
  induction j as [|j IH]; intros off l Ho He Hj.
  - cbn. rewrite N.add_0_r. auto.
  - destruct l as [|e r]; [cbn in Hj; lia|].
    cbn [firstn sum_need skipn].
    pose proof (okoff_step c Hh _ _ _ _ Ho He) as Ho'.
    pose proof (ents_from_step c Hh _ _ _ _ He) as He'.
    cbn [length] in Hj.
    destruct (IH (off + need c e) r Ho' He' ltac:(lia)) as (A & B).
    rewrite N.add_assoc. auto.
Qed.

(* the parser went from [p] to [p'] over the first [j] of the entries [U]: what it has put out, where it says it stopped.
   [f]: it could not have taken nothing ([U] is not empty, the first range holds an entry, the parser is fresh) *)
Record Parsed (c : Cfg) (chain : list blk) (W : list entry) (w : option blk) (i0 : nat) (f : bool) (p p' : pstate)
  (U : list entry) (j : nat) : Prop := {
  pa_outs : ps_outs p' = rev (map out_of (firstn j U)) ++ ps_outs p;
  pa_parsed : ps_parsed p' = ps_parsed p + N.of_nat j;
  pa_len : (j <= length U)%nat;
  pa_trim : ps_trim p' = 0;
  pa_pos : match j with O => same_pos p p' | S _ => PosOk c chain W w i0 p' (skipn j U) end;
  pa_prog : f = true -> U <> [] -> ps_n p = 0 -> ps_stop p = false -> 1 <= c_max_entries c -> (1 <= j)%nat
}.

Lemma Parsed_none c chain W w i0 (f : bool) p U : ps_trim p = 0 ->
  (f = true -> U <> [] -> ps_n p = 0 -> ps_stop p = false -> 1 <= c_max_entries c -> False) -> Parsed c chain W w i0 f p p U 0.
Proof.
  intros Ht Hno. constructor; cbn; auto; [lia|lia|repeat split|]. intros H1 H2 H3 H4 H5. destruct (Hno H1 H2 H3 H4 H5).
Qed.

Lemma parse_plan_halt c maxb items p :
  (items = [] \/ c_max_entries c <= ps_n p \/ ps_stop p = true) -> parse_plan c maxb items p = p.
Proof.
  intros H. destruct items as [|it r]; [reflexivity|]. cbn [parse_plan].
  destruct H as [H|[H|H]]; [discriminate H| |].
  - replace (c_max_entries c <=? ps_n p) with true by lia. reflexivity.
  - rewrite H. now rewrite orb_true_r.
Qed.

(* parsing is sequential: a parse that took all of [A], then one over what follows *)
Lemma Parsed_app c chain W w i0 f p p1 p2 A R j2 :
  Parsed c chain W w i0 f p p1 (A ++ R) (length A) -> Parsed c chain W w i0 false p1 p2 R j2 ->
  Parsed c chain W w i0 f p p2 (A ++ R) (length A + j2).
Proof.
  intros [Ho1 Hpa1 _ _ Hpos1 Hprog1] [Ho2 Hpa2 Hj2 Ht2 Hpos2 _]. constructor.
  - (* pa_outs *) rewrite Ho2, Ho1, firstn_app_2, (firstn_app_exact _ _ _ eq_refl), map_app, rev_app_distr. now rewrite app_assoc.
  - (* pa_parsed *) rewrite Hpa2, Hpa1. lia.
  - (* pa_len *) rewrite app_length. lia.
  - (* pa_trim *) exact Ht2.
  - (* pa_pos: the second parse says where it stopped, unless it took nothing *) rewrite skipn_app_2. destruct j2 as [|j2']; [rewrite Nat.add_0_r|rewrite Nat.add_succ_r; exact Hpos2].
    destruct Hpos2 as (b1 & b2 & b3 & b4 & b5).
    rewrite (skipn_app_exact _ _ _ eq_refl) in Hpos1.
    destruct (length A).
    + destruct Hpos1 as (a1 & a2 & a3 & a4 & a5). repeat split; congruence.
    + exact (PosOk_same _ _ _ _ _ _ _ _ (conj b1 (conj b2 (conj b3 (conj b4 b5)))) Hpos1).
  - (* pa_prog *) intros Hf Hne Hn Hs Hc. exact (Nat.le_trans _ _ _ (Hprog1 Hf Hne Hn Hs Hc) (Nat.le_add_r _ _)).
Qed.

(* a full range that is not emptied has ended the read: its next entry lies inside it, so the cap or the budget stopped the parser *)
Lemma full_range_halts c (Hh : 0 < c_hdr c) maxb it p p1 j :
  okoff c (b_ents (pi_blk it)) (pi_start it) -> b_used (pi_blk it) = sum_need c (b_ents (pi_blk it)) -> full it ->
  RangeOk c maxb it (item_ents c it) (pi_start it) p p1 j -> (j < length (item_ents c it))%nat ->
  c_max_entries c <= ps_n p1 \/ ps_stop p1 = true.
Proof.
  intros Hok Hus Hfull HR Hlt. destruct (ro_end _ _ _ _ _ _ _ _ HR Hlt) as [H|[H|(e' & Hn' & Hlt')]]; [left; exact H|right; exact H|]. exfalso.
  destruct (ents_from_firstn c Hh (b_ents (pi_blk it)) j (pi_start it) (item_ents c it) Hok eq_refl (Nat.lt_le_incl _ _ Hlt)) as (Ho' & He').
  rewrite (nth_error_split_skipn _ _ _ Hn') in He'. unfold okoff in Ho'. rewrite He' in Ho'. cbn [sum_need] in Ho'.
  unfold full in Hfull. lia.
Qed.

Lemma parse_plan_spec c (Hh : 0 < c_hdr c) maxb chain W w i0 : forall f items U,
  Seg c chain W w i0 f items U -> forall p, ps_trim p = 0 -> ps_saw_tail p = false ->
  exists j, Parsed c chain W w i0 f p (parse_plan c maxb items p) U j.
Proof.
  induction 1 as [f U HU|f it rest U Hok Hcov HU Hrest Hseg IH]; intros p Ht Hnt; cbn [parse_plan].
  - exists 0%nat. apply Parsed_none; [exact Ht|]. intros Hf Hne. destruct (Hne (HU Hf)).
  - destruct ((c_max_entries c <=? ps_n p) || ps_stop p) eqn:Eh.
    { exists 0%nat. apply Parsed_none; [exact Ht|]. intros _ _ Hn Hs H1. rewrite Hs, Hn in Eh. cbn in Eh. rewrite orb_false_r in Eh. lia. }
    fold (item_ents c it). destruct Hok as (Hok & Hus & Hblk).
    destruct (parse_range_spec c maxb it (item_ents c it) (pi_start it) p) as (j1 & HR). pose proof HR as [Hjl Ho Hpa Htr _ Hpos _ Hprog].
    set (p1 := parse_range c maxb it (item_ents c it) (pi_start it) p) in *. subst U. rewrite Ht in Ho, Htr.
    destruct (ents_from_firstn c Hh (b_ents (pi_blk it)) j1 (pi_start it) (item_ents c it) Hok eq_refl Hjl) as (Ho' & He').
    (* the range alone *)
    assert (H1 : Parsed c chain W w i0 f p p1 (item_ents c it ++ item_rest chain W it) j1).
    { constructor.
      - now rewrite Ho, outs_of_0, (firstn_app_le _ _ _ Hjl).
      - exact Hpa.
      - rewrite app_length. exact (Nat.le_trans _ _ _ Hjl (Nat.le_add_r _ _)).
      - now destruct j1.
      - destruct j1 as [|j']; [exact Hpos|]. rewrite skipn_app_le by exact Hjl. unfold PosOk, item_rest.
        destruct (pi_tail it).
        + destruct Hpos as (-> & -> & ->). exists (pi_blk it). rewrite app_nil_r. repeat split; auto.
          intros E. unfold item_ents in Hjl. rewrite E in Hjl. cbn in Hjl. lia.
        + destruct Hpos as (-> & -> & ->). rewrite Hnt. exists (pi_blk it). rewrite He'. repeat split; apply Hblk || auto.
      - intros Hf _ Hn _ Hc. destruct (Hcov Hf) as (e & r & He & Hfit). exact (Hprog e r He Hn Hc Hfit). }
    destruct rest as [|it2 rest']; [exists j1; exact H1|].
    destruct (Hrest ltac:(discriminate)) as (Hfull & Etail). rewrite Etail in Hpos.
    destruct (Nat.eq_dec j1 (length (item_ents c it))) as [Hall|Hnot].
    + (* the range was emptied: on with the next *)
      assert (Hnt1 : ps_saw_tail p1 = false) by (destruct j1; [destruct Hpos as (_ & _ & _ & _ & G)|destruct Hpos as (G & _)]; congruence).
      destruct (IH p1 (pa_trim _ _ _ _ _ _ _ _ _ _ H1) Hnt1) as (j2 & H2). exists (j1 + j2)%nat. subst j1.
      exact (Parsed_app c chain W w i0 f p p1 _ _ _ j2 H1 H2).
    + exists j1. rewrite parse_plan_halt; [exact H1|]. right.
      exact (full_range_halts c Hh maxb it p p1 j1 Hok Hus Hfull HR (proj2 (Nat.le_neq _ _) (conj Hjl Hnot))).
Qed.

Lemma peek_want_ge c b off e1 r :
  ents_from c (b_ents b) off = e1 :: r -> off + need c e1 <= b_used b ->
  exists req, peek_want c b off = Some req /\ need c e1 <= req.
Proof.
  intros He Hfit. unfold peek_want.
  replace (b_used b <? off + c_hdr c) with false by (unfold need in Hfit; lia).
  rewrite (ents_from_view c _ _ _ _ He).
  destruct (e_len e1 <? c_small c).
  - destruct (b_used b <? off + need c e1 + c_hdr c); [eexists; split; [reflexivity|lia]|].
    destruct r; eexists; split; try reflexivity; lia.
  - eexists; split; [reflexivity|lia].
Qed.

Lemma UR_cons c chain W WT i off b r : skipn i chain = b :: r ->
  UR c chain W WT i off = ents_from c (b_ents b) off ++ chain_ents r ++ W.
Proof. intros H. unfold UR. now rewrite H. Qed.

(* The sealed ranges.  Planning goes on behind the chain only from a plan that was not truncated and came to the
   end of the chain; whatever plan [tl] for the rest [WT] follows there completes a plan for all that is unread. *)
Lemma plan_sealed_spec c (Hh : 0 < c_hdr c) maxb chain W WT w i0 : forall rest idx off hint planned acc,
  skipn idx chain = rest -> (i0 <= idx)%nat ->
  Forall (bwf c) rest ->
  (forall b r, rest = b :: r -> okoff c (b_ents b) off) ->
  ((idx < length chain)%nat -> WT = W) ->
  let '(acc', _, idx', trunc) := plan_sealed c maxb false rest idx off hint planned acc in
  exists items, acc' = rev items ++ acc /\
    forall tl, (if negb trunc && (length chain <=? idx')%nat then forall f, Seg c chain W w i0 f tl WT else tl = []) ->
      Seg c chain W w i0 (match acc with [] => true | _ => false end) (items ++ tl) (UR c chain W WT idx off).
Proof.
  induction rest as [|b rest' IH]; intros idx off hint planned acc Hsk Hi0 Hwf Hcur HWT; cbn [plan_sealed].
  - exists []. split; [reflexivity|]. intros tl Htl. rewrite (proj2 (Nat.leb_le _ _) (skipn_nil_ge _ _ Hsk)) in Htl.
    unfold UR. rewrite Hsk. apply Htl.
  - pose proof (Hcur b rest' eq_refl) as Hok.
    inversion Hwf as [|x l (Hbu & Hbl & Hbm) Hwf']; subst.
    destruct (skipn_cons_inv _ _ _ _ Hsk) as (Hnth & HskS). pose proof (skipn_len_lt _ _ _ _ Hsk) as HidxLt.
    assert (HURS : UR c chain W WT (S idx) 0 = chain_ents rest' ++ W).
    { unfold UR. rewrite HskS. exact (cursor_next c chain W WT idx b rest' Hsk HWT). }
    destruct (negb ((planned <? maxb) || match acc with [] => true | _ :: _ => false end)) eqn:Estop.
    { (* budget used up before this block: only possible after a first range *)
      exists []. split; [reflexivity|]. intros tl Htl. rewrite (proj2 (Nat.leb_gt _ _) HidxLt), andb_false_r in Htl. subst tl.
      destruct acc; [cbn in Estop; rewrite orb_true_r in Estop; discriminate|]. constructor. discriminate. }
    destruct (b_used b <=? off) eqn:Eex.
    { (* exhausted block *)
      rewrite (UR_cons c chain W WT idx off b rest' Hsk), (ents_from_end c Hh) by lia. cbn [app]. rewrite <- HURS.
      exact (IH (S idx) 0 0 planned acc HskS (Nat.le_le_succ_r _ _ Hi0) Hwf' (fun b0 r0 _ => okoff_0 c (b_ents b0))
                (fun _ => HWT HidxLt)). }
    (* a range is planned in this block *)
    destruct (entry_at c Hh _ _ Hok ltac:(lia)) as (e1 & re & Eef & _ & Hok1). pose proof (okoff_le _ _ _ Hok1) as Hfit1.
    set (want0 := maxb - planned).
    set (want := match acc with
                 | [] => if false && (off <? hint) then N.max want0 (hint - off)
                         else match peek_want c b off with Some req => N.max want0 req | None => want0 end
                 | _ :: _ => want0 end).
    assert (Hwant : (acc = [] -> need c e1 <= want) /\ 0 < want).
    { unfold want. destruct acc as [|a0 acc0].
      - cbn [andb]. destruct (peek_want_ge c b off e1 re Eef ltac:(lia)) as (req & -> & Hr).
        pose proof (need_pos c e1 Hh). split; [intros; lia|lia].
      - split; [intros; discriminate|]. unfold want0. cbn in Estop. rewrite orb_false_r in Estop. lia. }
    destruct Hwant as (Hw1 & Hw0).
    set (e := N.min (b_used b) (N.min u64_max (off + want))).
    replace (off <? e) with true by (unfold e; lia).
    set (item := {| pi_blk := b; pi_start := off; pi_end := e; pi_tail := false; pi_idx := idx |}).
    assert (Hitem : forall tl, (tl <> [] -> full item) -> Seg c chain W w i0 false tl (UR c chain W WT (S idx) 0) ->
              Seg c chain W w i0 (match acc with [] => true | _ => false end) (item :: tl) (UR c chain W WT idx off)).
    { intros tl Hfull Htl. apply SegCons.
      - unfold item_ok, item; cbn. repeat split; auto.
      - intros Ha. exists e1, re. split; [exact Eef|]. cbn [item pi_start pi_end].
        assert (need c e1 <= want) by (apply Hw1; now destruct acc). unfold e. lia.
      - rewrite (UR_cons c chain W WT idx off b rest' Hsk). unfold item_ents, item_rest, item; cbn [pi_blk pi_start pi_tail pi_idx]. now rewrite HskS.
      - intros Hne. split; [exact (Hfull Hne)|reflexivity].
      - unfold item_rest, item; cbn [pi_tail pi_idx]. now rewrite HskS, <- HURS. }
    destruct (e <? b_used b) eqn:Etr.
    + (* truncated by the budget: the plan ends here *)
      exists [item]. split; [reflexivity|]. intros tl ->. apply Hitem; [intros H0; destruct (H0 eq_refl)|]. constructor. discriminate.
    + specialize (IH (S idx) 0 hint (planned + (e - off)) (item :: acc) HskS (Nat.le_le_succ_r _ _ Hi0) Hwf' (fun b0 r0 _ => okoff_0 c (b_ents b0))
                     (fun _ => HWT HidxLt)).
      destruct (plan_sealed c maxb false rest' (S idx) 0 hint (planned + (e - off)) (item :: acc)) as [[[acc' planned'] idx'] trunc].
      destruct IH as (items & -> & Hseg).
      exists (item :: items). split; [cbn [rev]; now rewrite <- app_assoc|].
      intros tl Htl. apply Hitem; [intros _; unfold full, item; cbn; unfold e in *; lia|exact (Hseg tl Htl)].
Qed.

(* what is unread of the writer block once the cursor is behind the chain *)
Definition tail_unread (c : Cfg) (ts : tstate) : list entry :=
  match ts_writer ts with Some w => ents_from c (b_ents w) (tail_start ts w) | None => [] end.

Lemma unread_UR c ts : unread c ts =
  UR c (chain_of ts) (w_ents ts) (tail_unread c ts) (r_idx (reader_of ts)) (r_off (reader_of ts)).
Proof. reflexivity. Qed.

(* the complete plan, in order: the sealed ranges, then what is unread of the writer block *)
Lemma br_plan_full c (Hh : 0 < c_hdr c) nid ts maxb r1 : TInv c nid ts ->
  let r := reader_of ts in
  exists L,
    br_plan c maxb (ts_writer ts) (r1, r_chain r, r_idx r, r_off r, r_tail_bid r, r_tail_off r, 0, 0, false) = (rev L, 0) /\
    Seg c (r_chain r) (w_ents ts) (ts_writer ts) (r_idx r) true L (unread c ts).
Proof.
  intros Hinv r. unfold br_plan. rewrite unread_UR. fold r. change (chain_of ts) with (r_chain r).
  pose proof (plan_sealed_spec c Hh maxb (r_chain r) (w_ents ts) (tail_unread c ts) (ts_writer ts) (r_idx r) (skipn (r_idx r) (r_chain r))
                (r_idx r) (r_off r) 0 0 [] eq_refl (Nat.le_refl _) (Forall_skipn _ _ _ (ti_chain _ _ _ Hinv))
                (fun b r0 Hs => ti_cur _ _ _ Hinv b (nth_error_skipn _ _ _ _ Hs))
                (tail_from_front c nid ts (TInv_P _ _ _ Hinv))) as Hplan.
  destruct (plan_sealed _ _ _ _ _ _ _ _ _) as [[[racc planned'] idx'] trunc].
  destruct Hplan as (items & -> & Hseg). rewrite app_nil_r. cbn beta iota.
  (* no range in the writer block: nothing is unread there, or the plan does not get there *)
  assert (Hplain : (if negb trunc && (length (r_chain r) <=? idx')%nat then tail_unread c ts = [] else True) ->
            exists L, (rev items, 0) = (rev L, 0) /\ Seg c (r_chain r) (w_ents ts) (ts_writer ts) (r_idx r) true L
                                                      (UR c (r_chain r) (w_ents ts) (tail_unread c ts) (r_idx r) (r_off r))).
  { intros H. exists items. split; [reflexivity|]. rewrite <- (app_nil_r items). apply Hseg.
    destruct (negb trunc && _); [|reflexivity]. intros f. constructor. intros _. exact H. }
  destruct (negb trunc && (length (r_chain r) <=? idx')%nat) eqn:Eend; [|now apply Hplain].
  unfold tail_unread in *. destruct (ts_writer ts) as [w|] eqn:Ew; [|now apply Hplain].
  change (if r_tail_bid r =? b_id w then r_tail_off r else 0) with (tail_start ts w). pose proof (ti_tail _ _ _ Hinv w Ew) as Hokw.
  destruct (writer_ok c nid ts w (TInv_P _ _ _ Hinv) Ew) as ((Hwu & _) & _).
  destruct (tail_start ts w <? b_used w) eqn:Ets.
  2:{ apply Hplain, (ents_from_end c Hh). lia. }
  destruct (entry_at c Hh _ _ Hokw ltac:(lia)) as (e & re & Eef & _ & Hok1). pose proof (okoff_le _ _ _ Hok1).
  exists (items ++ [{| pi_blk := w; pi_start := tail_start ts w; pi_end := b_used w; pi_tail := true; pi_idx := 0 |}]).
  split; [now rewrite rev_app_distr|]. apply Hseg. intros f. apply SegCons.
  - unfold item_ok; cbn. repeat split; auto.
  - intros _. exists e, re. split; [exact Eef|cbn; lia].
  - unfold item_ents, item_rest; cbn. now rewrite app_nil_r.
  - intros H0. destruct (H0 eq_refl).
  - constructor. discriminate.
Qed.

(* The commit of a stateful read that parsed the first [j] unread entries and recorded the position behind them, as a
   leg from the hydrated state.  A peek commits nothing, nor does a read that parsed nothing; otherwise the cursor moves
   to the recorded position, and the mode only chooses the counter and whether the cursor is persisted. *)
Lemma br_commit_leg c nid m ts p j (ck : bool) : TInv c nid ts ->
  let U := unread c ts in
  ps_parsed p = N.of_nat j -> (j <= length U)%nat ->
  ((0 < j)%nat -> PosOk c (chain_of ts) (w_ents ts) (ts_writer ts) (r_idx (reader_of ts)) p (skipn j U)) ->
  let Th := with_reader ts (set_hydrated (reader_of ts)) in
  exists b q, Leg c nid m true Th (if ck then firstn j U else []) b q (br_commit m ck false (length (chain_of ts)) Th p).
Proof.
  intros Hinv U Hpa Hjl Hpos Th. pose proof (TInv_P _ _ _ Hinv) as HP.
  destruct (ck && (0 <? j)%nat) eqn:Eck.
  2:{ rewrite br_commit_none by (rewrite Hpa; destruct ck; [|reflexivity]; destruct j; [reflexivity|discriminate Eck]).
      replace (if ck then firstn j U else []) with (@nil entry) by (destruct ck; [|reflexivity]; destruct j; [reflexivity|discriminate Eck]).
      exists false, {| p_tail := false; p_a := 0; p_off := 0 |}.
      apply Leg_quiet; [exact (Read_refl c nid Th (rd_inv _ _ _ _ _ (hydrated_read c nid ts Hinv)) eq_refl)|split; reflexivity]. }
  apply andb_prop in Eck. destruct Eck as (-> & Hj). apply Nat.ltb_lt in Hj. specialize (Hpos Hj).
  set (d := firstn j U) in *. set (L := skipn j U) in *.
  assert (Hu : unread c ts = d ++ L) by (symmetry; apply firstn_skipn).
  assert (Hd : length d = j) by (unfold d; rewrite firstn_length; lia).
  assert (Hcnt : cnt ts - N.of_nat j = N.of_nat (length L)).
  { rewrite (ti_cnt _ _ _ Hinv), Hu, app_length. lia. }
  unfold br_commit, count_sub. rewrite Hpa. cbn [negb andb].
  replace (0 <? N.of_nat j) with true by lia. replace (N.of_nat j =? 0) with false by lia.
  set (rh := set_hydrated (reader_of ts)).
  (* whatever counter [n] and index [ix'] the mode chooses: the state with the cursor at the recorded position [q] *)
  assert (H : exists q, forall n ix', let ts' := mk_ts ts (if ps_saw_tail p
                         then set_tail (set_cur (set_since rh n) (length (chain_of ts)) 0) (ps_tail_id p) (ps_tail_off p)
                         else set_cur (set_since rh n) (ps_fin_idx p) (ps_fin_off p)) (Some (cnt ts - N.of_nat j)) ix' in
              Read c nid Th d ts' /\ PosIs ts' q /\
              q = (if ps_saw_tail p then {| p_tail := true; p_a := ps_tail_id p; p_off := ps_tail_off p |}
                   else {| p_tail := false; p_a := N.of_nat (ps_fin_idx p); p_off := ps_fin_off p |})).
  { unfold PosOk in Hpos. destruct (ps_saw_tail p) eqn:Esaw; eexists; intros n ix' ts'.
    - destruct Hpos as (wb & Hwb & Hid & Hokt & Hents & Hne).
      destruct (cursor_tail c nid ts (reader_of ts') (Some (cnt ts - N.of_nat j)) ix' wb (ps_tail_off p) HP Hwb
                  eq_refl eq_refl eq_refl eq_refl Hid eq_refl Hokt) as (P1 & U1 & Hq).
      fold ts' in P1, U1, Hq. rewrite Hents in U1. rewrite <- Hid in Hq.
      split; [|split; [exact (Hq Hne)|reflexivity]].
      exact (Read_mk c nid Th (reader_of ts') _ _ d L eq_refl eq_refl P1 U1 Hu Hcnt).
    - destruct Hpos as (b & Hi0 & Hnb & Hokb & Hents).
      destruct (cursor_sealed c nid ts (reader_of ts') (Some (cnt ts - N.of_nat j)) ix' (ps_fin_idx p) (ps_fin_off p) b HP (Nat.le_lt_trans _ _ _ Hi0 (nth_error_lt _ _ _ Hnb))
                  eq_refl eq_refl eq_refl eq_refl eq_refl eq_refl Hnb Hokb) as (P1 & U1 & Hq).
      fold ts' in P1, U1, Hq. rewrite Hents in U1.
      split; [|split; [exact Hq|reflexivity]].
      exact (Read_mk c nid Th (reader_of ts') _ _ d L eq_refl eq_refl P1 U1 Hu Hcnt). }
  destruct H as (q & H). exists (match m with Strict => true | ALO _ => false end), q. destruct m as [|n]; cbn zeta.
  - destruct (H (r_since rh) (Some q)) as (A & B & C). rewrite C in A, B |- *.
    destruct (ps_saw_tail p); (constructor; [exact A|reflexivity|intros _; exact B|reflexivity]).
  - epose proof (H _ (ts_index ts)) as (A & _ & _).
    destruct (ps_saw_tail p); (constructor; [exact A|reflexivity|discriminate|]);
      unfold Since; (destruct d; [discriminate Hd || (cbn in Hd; lia)|]); exists n; (split; [reflexivity|discriminate]).
Qed.

(* batch_read in any mode: [k] entries are returned; the first leg is the hydration, on the second a consuming
   read that returned some moves the cursor behind them and, in Strict mode only, persists it *)
Lemma batch_read_legs c m s t maxb ck nid : cfg_ok c ->
  TInv c nid (get_ts s (t_id t)) ->
  let ts := get_ts s (t_id t) in
  let U := unread c ts in
  exists ts' k p q, batch_read c m s t maxb ck None = (set_ts s (t_id t) ts', REntries (map out_of (firstn k U))) /\
    (k <= length U)%nat /\ (U <> [] -> (1 <= k)%nat) /\
    Leg c nid m true (with_reader ts (set_hydrated (reader_of ts))) (if ck then firstn k U else []) p q ts'.
Proof.
  intros (Hh & _ & _ & _ & Hme & _) Hinv. cbv zeta. set (ts := get_ts s (t_id t)) in *. set (U := unread c ts).
  unfold batch_read, br_position. fold ts. rewrite (hydrate_eq _ _ true (ti_hyd _ _ _ Hinv)). cbn beta iota zeta.
  rewrite br_from_plan. cbn zeta. unfold br_wsnap. rewrite (ti_poison _ _ _ Hinv).
  cbn [set_hydrated r_chain r_idx r_off r_tail_bid r_tail_off].
  edestruct (br_plan_full c Hh nid ts maxb) as (L & Hplan & HsegL); [exact Hinv|]. rewrite Hplan, rev_involutive. clear Hplan.
  destruct (parse_plan_spec c Hh maxb _ _ _ _ true L _ HsegL (ps0 0) eq_refl eq_refl) as (j & [Ho Hpa Hj _ Hpos Hprog]).
  fold U in Ho, Hj, Hpos, Hprog. cbn [ps_outs ps_parsed ps0] in Ho, Hpa. rewrite app_nil_r in Ho. rewrite Ho, rev_involutive.
  destruct (br_commit_leg c nid m ts (parse_plan c maxb L (ps0 0)) j ck Hinv Hpa Hj) as (b & q & Hleg);
    [destruct j; [intros H; destruct (Nat.lt_irrefl _ H)|intros _; exact Hpos]|].
  eexists; exists j, b, q. split; [reflexivity|]. split; [exact Hj|]. split; [intros HU; apply Hprog; auto|exact Hleg].
Qed.

(* Both stateful reads, any mode, exactly: the first [k] unread entries are handed out; a consuming read
   moves over them.  The way from [ts] to what is stored is two legs through a state [T1]: on the first
   nothing is consumed, and a consuming read_next that enters the writer block at its front persists that
   cursor (the provisional position; [f]); on the second the entries go and the cursor is persisted if
   the mode wants it ([p]).  For a batch read the first leg is the hydration alone. *)
Theorem read_exact c m be s o t ck nid : cfg_ok c -> rtopic o = Some (t, ck) ->
  TInv c nid (get_ts s (t_id t)) ->
  let ts := get_ts s (t_id t) in
  let U := unread c ts in
  exists T1 ts' k f q1 p q,
    step {| v_cfg := c; v_mode := m; v_backend := be |} s o = (set_ts s (t_id t) ts', answer o (firstn k U)) /\
    (k <= length U)%nat /\ (U <> [] -> (1 <= k)%nat) /\ (is_batch o = false -> (k <= 1)%nat) /\
    Leg c nid m (is_batch o) ts [] f q1 T1 /\
    Leg c nid m (is_batch o) T1 (if ck then firstn k U else []) p q ts'.
Proof.
  intros Hc Ho Hinv ts U.
  destruct o as [| |t0 ck0|t0 maxb ck0 [st0|]| |]; try discriminate Ho; injection Ho as -> ->;
    cbn [step v_cfg v_mode is_batch].
  - (* ORead *) destruct (read_next_legs c m s t ck nid Hc Hinv) as (T1 & ts' & f & q1 & p & q & E & L1 & L2). fold ts in E, L1, L2. fold U in E, L2.
    exists T1, ts', (length (firstn 1 U)), f, q1, p, q.
    replace (firstn (length (firstn 1 U)) U) with (firstn 1 U) by (destruct U; reflexivity).
    split; [exact E|]. split; [destruct U; cbn; lia|]. split; [destruct U; [congruence|cbn; lia]|]. split; [intros _; destruct U; cbn; lia|]. split; [exact L1|exact L2].
  - (* OBatchRead, stateful *) destruct (batch_read_legs c m s t maxb ck nid Hc Hinv) as (ts' & k & p & q & E & Hk & Hk1 & L2).
    exists (with_reader ts (set_hydrated (reader_of ts))), ts', k, false, q, p, q.
    split; [exact E|]. split; [exact Hk|]. split; [exact Hk1|]. split; [discriminate|]. split; [|exact L2].
    apply Leg_quiet; [exact (hydrated_read c nid ts Hinv)|split; reflexivity].
Qed.
