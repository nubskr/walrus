(* DurableP.v — lemmas about the durability model (model/Durable.v): what every power-loss
   outcome keeps, how the replayed disk reads, structural facts of the model that hold
   for every trace ([GInv]), the logs as read per inode and per name ([iops], [nops]), and the
   footprint of a step in those terms ([dframe]). *)
From W Require Import model.Base model.Durable proofs.ListP.

Lemma nodup_n_NoDup l : nodup_n l = true -> NoDup l.
Proof.
  induction l as [|x l IH]; intros H; [constructor|]. cbn in H. apply andb_prop in H as (H1 & H2).
  constructor; [|auto]. apply negb_true_iff in H1. rewrite <- existsb_eqb_in. congruence.
Qed.

Lemma map_upd_proj {A B} (h : A -> B) (c : A -> bool) (g : A -> A) l :
  (forall x, h (g x) = h x) -> map h (map (fun x => if c x then g x else x) l) = map h l.
Proof. intros H. rewrite map_map. apply map_ext. intros x. destruct (c x); [apply H|reflexivity]. Qed.

Lemma adm_pick {A} (l : list (bool * A)) : forall bits, adm l (pick bits l).
Proof.
  induction l as [|[b x] l IH]; intros bits; cbn; [constructor|].
  destruct b; [constructor; apply IH|].
  destruct bits as [|[|] bs]; try (constructor; apply IH).
Qed.

Lemma adm_outcomes {A} (l : list (bool * A)) o : adm l o <-> In o (outcomes l).
Proof.
  split.
  - induction 1 as [|b x l o H IH|x l o H IH]; cbn.
    + now left.
    + apply in_or_app. left. now apply in_map.
    + apply in_or_app. right. exact IH.
  - revert o. induction l as [|[b x] l IH]; intros o H; cbn in H.
    + destruct H as [<-|[]]. constructor.
    + apply in_app_or in H as [H|H].
      * apply in_map_iff in H as (o' & <- & H). constructor. now apply IH.
      * destruct b; [destruct H|]. constructor. now apply IH.
Qed.

Lemma adm_is_pick {A} (l : list (bool * A)) o : adm l o -> exists bits, o = pick bits l.
Proof.
  induction 1 as [|b x l o H (bits & ->)|x l o H (bits & ->)].
  - now exists [].
  - destruct b; [exists bits; reflexivity|exists (true :: bits); reflexivity].
  - exists (false :: bits). reflexivity.
Qed.

Lemma adm_keeps {A} (l : list (bool * A)) o x : adm l o -> In (true, x) l -> In x o.
Proof.
  induction 1; intros Hin; cbn in *.
  - destruct Hin.
  - destruct Hin as [E|Hin]; [inversion E; now left|right; auto].
  - destruct Hin as [E|Hin]; [discriminate|auto].
Qed.

Lemma adm_sub {A} (l : list (bool * A)) o x : adm l o -> In x o -> exists b, In (b, x) l.
Proof.
  induction 1 as [|b y l o H IH|y l o H IH]; intros Hin; cbn in *.
  - destruct Hin.
  - destruct Hin as [<-|Hin]; [exists b; now left|]. destruct (IH Hin) as (b' & Hb). exists b'. now right.
  - destruct (IH Hin) as (b' & Hb). exists b'. now right.
Qed.

Lemma adm_filter {A} (p : A -> bool) (l : list (bool * A)) o :
  adm l o -> adm (filter (fun y => p (snd y)) l) (filter p o).
Proof.
  induction 1 as [|b x l o H IH|x l o H IH]; cbn.
  - constructor.
  - destruct (p x); [constructor|]; assumption.
  - destruct (p x); [constructor|]; assumption.
Qed.

Lemma adm_single_true {A} (x : A) o : adm [(true, x)] o -> o = [x].
Proof. intros H. inversion H as [|b y l o' H'|]; subst. now inversion H'. Qed.

Lemma adm_app_inv {A} (l1 l2 : list (bool * A)) o :
  adm (l1 ++ l2) o -> exists o1 o2, o = o1 ++ o2 /\ adm l1 o1 /\ adm l2 o2.
Proof.
  revert o. induction l1 as [|[b x] l1 IH]; intros o H; cbn in H.
  - exists [], o. repeat split; [constructor|assumption].
  - inversion H as [|b' x' l' o' Ha|x' l' o' Ha]; subst.
    + destruct (IH _ Ha) as (o1 & o2 & -> & H1 & H2). exists (x :: o1), o2. repeat split; [constructor|]; assumption.
    + destruct (IH _ Ha) as (o1 & o2 & -> & H1 & H2). exists o1, o2. repeat split; [constructor|]; assumption.
Qed.

Lemma pick_outcome_admissible fb db s : admissible s (pick_outcome fb db s).
Proof. split; apply adm_pick. Qed.

Lemma in_sync_ino i l b y : In (b, y) (sync_ino i l) -> exists b', In (b', y) l /\ (b' = true -> b = true).
Proof.
  unfold sync_ino. intros H. apply in_map_iff in H as ([b' y'] & E & H). cbn in E. inversion E; subst.
  exists b'. split; [assumption|]. intros ->. reflexivity.
Qed.
Lemma sync_ino_in i l b y : In (b, y) l -> In (b || (fst y =? i), y) (sync_ino i l).
Proof. intros H. unfold sync_ino. apply in_map_iff. exists (b, y). split; [reflexivity|assumption]. Qed.
Lemma sync_ino_true i l y : In (true, y) l -> In (true, y) (sync_ino i l).
Proof. intros H. apply (sync_ino_in i) in H. exact H. Qed.
Lemma sync_ino_filter (p : N * fop -> bool) i l :
  filter (fun y => p (snd y)) (sync_ino i l) = sync_ino i (filter (fun y => p (snd y)) l).
Proof. exact (filter_map_comm _ (fun y => p (snd y)) l). Qed.
Lemma in_sync_all {A} (l : list (bool * A)) b y : In (b, y) (sync_all l) -> b = true /\ exists b', In (b', y) l.
Proof.
  unfold sync_all. intros H. apply in_map_iff in H as ([b' y'] & E & H). inversion E; subst.
  split; [reflexivity|]. now exists b'.
Qed.
Lemma sync_all_in {A} (l : list (bool * A)) b y : In (b, y) l -> In (true, y) (sync_all l).
Proof. intros H. unfold sync_all. apply in_map_iff. exists (b, y). split; [reflexivity|assumption]. Qed.
Lemma sync_all_app {A} (l1 l2 : list (bool * A)) : sync_all (l1 ++ l2) = sync_all l1 ++ sync_all l2.
Proof. apply map_app. Qed.

Lemma vlook_vdel d f g : vlook (vdel d f) g = if f =? g then None else vlook d g.
Proof.
  unfold vdel. induction d as [|[h i] d IH]; cbn [filter vlook fst].
  - now destruct (f =? g).
  - destruct (N.eqb_spec h f) as [->|Hn]; cbn [negb vlook].
    + rewrite IH. destruct (N.eqb_spec f g); reflexivity.
    + rewrite IH. destruct (N.eqb_spec h g) as [->|]; [|reflexivity].
      destruct (N.eqb_spec f g); [congruence|reflexivity].
Qed.

Lemma vlook_rename d a b i g :
  vlook ((b, i) :: vdel (vdel d a) b) g = if b =? g then Some i else if a =? g then None else vlook d g.
Proof. cbn [vlook]. rewrite !vlook_vdel. destruct (b =? g); reflexivity. Qed.

(* fs::write either truncates and rewrites the inode the name has, or links a fresh one *)
Lemma dstep_tmpwrite s f len id :
  dstep s (ETmpWrite f len id) =
  match vlook (d_vdir s) f with
  | Some j => add_fop (add_fop s false j (FSetLen 0)) false j (FWrite 0 len id)
  | None => mkD (d_next s + 1) ((f, d_next s) :: d_vdir s) ((false, (d_next s, FWrite 0 len id)) :: d_fops s)
                ((false, DLink f (d_next s)) :: d_dops s)
  end.
Proof.
  cbn [dstep]. unfold do_write, do_create. destruct (vlook (d_vdir s) f) eqn:E; cbn [add_fop d_vdir vlook].
  - now rewrite E.
  - now rewrite N.eqb_refl.
Qed.

Definition dino (d : dop) : option N := match d with DLink _ i => Some i | DRename _ _ i => Some i | DUnlink _ => None end.
Record GInv (s : dstate) : Prop := {
  g_lt : forall g i, vlook (d_vdir s) g = Some i -> i < d_next s;
  (* the model never makes a hard link; the frame lemmas for a file's inode rest on it *)
  g_inj : forall g h i, vlook (d_vdir s) g = Some i -> vlook (d_vdir s) h = Some i -> g = h;
  g_flt : forall b j o, In (b, (j, o)) (d_fops s) -> j < d_next s;
  g_dlt : forall b d j, In (b, d) (d_dops s) -> dino d = Some j -> j < d_next s }.

Lemma ginv_init : GInv d_init.
Proof. constructor; cbn; intros; try discriminate; contradiction. Qed.

(* set_len, write, and create of an existing name: one operation on the inode the name has, if any *)
Lemma ginv_fop_at s f b o : GInv s -> GInv (match vlook (d_vdir s) f with Some i => add_fop s b i o | None => s end).
Proof.
  intros G. destruct (vlook (d_vdir s) f) as [i|] eqn:E; [|assumption]. pose proof (g_lt _ G _ _ E) as Hi.
  destruct G as [G1 G2 G3 G4]. constructor; cbn; auto. intros b' j o' [[= <- <- <-]|H]; eauto.
Qed.

Lemma ginv_create s f : GInv s -> GInv (do_create s f).
Proof.
  intros G. pose proof (ginv_fop_at s f false (FSetLen 0) G) as Gf. unfold do_create.
  destruct (vlook (d_vdir s) f) as [i|] eqn:E; [exact Gf|].
  destruct G as [G1 G2 G3 G4]. constructor; cbn.
  - intros g i. destruct (N.eqb_spec f g); intros H; [inversion H; lia|]. apply G1 in H. lia.
  - intros g h i. destruct (N.eqb_spec f g), (N.eqb_spec f h); intros H1 H2; try congruence.
    + inversion H1; subst. apply G1 in H2. lia.
    + inversion H2; subst. apply G1 in H1. lia.
    + eauto.
  - intros b j o H. apply G3 in H. lia.
  - intros b d j [H|H] Hd; [inversion H; subst; cbn in Hd; inversion Hd; lia|]. eapply G4 in H; eauto. lia.
Qed.

Lemma ginv_step s e : GInv s -> GInv (dstep s e).
Proof.
  intros G. destruct e; cbn [dstep].
  - (* ECreate *) now apply ginv_create.
  - (* ESetLen *) now apply ginv_fop_at.
  - (* EWrite *) now apply ginv_fop_at.
  - (* ESyncFile *) destruct (vlook (d_vdir s) f) eqn:E; [|assumption]. destruct G as [G1 G2 G3 G4]. constructor; cbn; auto.
    intros b j o H. apply in_sync_ino in H as (b' & H & _). eauto.
  - (* ESyncDir *) destruct G as [G1 G2 G3 G4]. constructor; cbn; auto.
    intros b d j H. apply in_sync_all in H as (_ & b' & H). eauto.
  - (* ETmpWrite *) apply ginv_fop_at. now apply ginv_create.
  - (* ERename *) destruct (vlook (d_vdir s) a) as [i|] eqn:E; [|assumption]. destruct G as [G1 G2 G3 G4].
    constructor; cbn [d_next d_vdir d_fops d_dops]; auto.
    + intros g j. rewrite vlook_rename. destruct (b =? g); [intros [= <-]; eauto|]. destruct (a =? g); [discriminate|eauto].
    + (* i moves from a to b: a name other than b that still leads to i would have been a *)
      assert (Hb : forall h, (if a =? h then None else vlook (d_vdir s) h) = Some i -> False).
      { intros h. destruct (N.eqb_spec a h) as [|Hn]; [discriminate|]. intros H. apply Hn. eauto. }
      intros g h j. rewrite !vlook_rename.
      destruct (N.eqb_spec b g) as [<-|], (N.eqb_spec b h) as [<-|]; try reflexivity.
      * intros [= <-] H. destruct (Hb _ H).
      * intros H [= <-]. destruct (Hb _ H).
      * destruct (a =? g), (a =? h); try discriminate. eauto.
    + intros b' d j [H|H] Hd; [inversion H; subst; cbn in Hd; inversion Hd; subst; eauto|eauto].
  - (* ERemove *) destruct (vlook (d_vdir s) f) as [i|] eqn:E; [|assumption]. destruct G as [G1 G2 G3 G4]. constructor; cbn; auto.
    + intros g j. rewrite vlook_vdel. destruct (f =? g); [discriminate|eauto].
    + intros g h j. rewrite !vlook_vdel. destruct (f =? g), (f =? h); try discriminate. eauto.
    + intros b' d j [H|H] Hd; [inversion H; subst; discriminate|eauto].
  - (* EAck *) assumption.
  - (* EAckRead *) assumption.
Qed.

Lemma ginv_run_from s tr : GInv s -> GInv (drun_from s tr).
Proof. revert s. induction tr as [|e tr IH]; intros s G; cbn; [assumption|]. apply IH. now apply ginv_step. Qed.

Definition touches (d : dop) (f : N) : Prop :=
  match d with DLink g _ => g = f | DRename a b _ => a = f \/ b = f | DUnlink g => g = f end.

(* [touches] as a test, the name first so that [touchesb f] is the predicate handed to [filter] *)
Definition touchesb (f : N) (d : dop) : bool :=
  match d with DLink g _ | DUnlink g => g =? f | DRename a b _ => (a =? f) || (b =? f) end.
(* the binding an operation that touches f leaves under f *)
Definition dres (f : N) (o : option dop) : option N :=
  match o with
  | Some (DLink _ i) => Some i
  | Some (DRename _ b i) => if b =? f then Some i else None
  | _ => None
  end.

Lemma touchesb_spec f d : touchesb f d = true <-> touches d f.
Proof. destruct d; cbn [touchesb touches]; rewrite ?orb_true_iff, !N.eqb_eq; reflexivity. Qed.

(* [dlook] is decided by the newest operation that touches the name *)
Lemma dlook_find l f : dlook l f = dres f (hd_error (filter (touchesb f) l)).
Proof.
  induction l as [|d l IH]; [reflexivity|]. cbn [dlook filter]. destruct d as [g i|a b i|g]; cbn [touchesb].
  - destruct (g =? f); [reflexivity|exact IH].
  - destruct (b =? f) eqn:Eb, (a =? f); cbn [orb dres hd_error]; rewrite ?Eb; try reflexivity. exact IH.
  - destruct (g =? f); [reflexivity|exact IH].
Qed.

Lemma dlook_untouched l f : (forall d, In d l -> ~ touches d f) -> dlook l f = None.
Proof.
  intros H. rewrite dlook_find, filter_none; [reflexivity|]. apply Forall_forall. intros d Hin.
  destruct (touchesb f d) eqn:Ht; [|reflexivity]. apply touchesb_spec in Ht. destruct (H d Hin Ht).
Qed.

(* every operation on inode i is the sizing or one of the writes recorded for f in W, which are
   pairwise disjoint and below the size: a kept write owns its bytes and the file is long enough *)
Lemma kept_write l i n f off len id (W : list (N * (N * N * N))) :
  (forall o, In (i, o) l -> o = FSetLen n \/ exists off' len' id', o = FWrite off' len' id' /\ In (f, (off', len', id')) W) ->
  (forall off' len' id', In (f, (off', len', id')) W -> off' + len' <= n) ->
  (forall off' len' id', In (f, (off', len', id')) W -> overlaps off len off' len' = true -> (off', len', id') = (off, len, id)) ->
  In (f, (off, len, id)) W -> In (i, FWrite off len id) l ->
  off + len <= flen l i /\ forall pos, off <= pos -> pos < off + len -> owner l i pos = Some id.
Proof.
  intros Hops Hfit Hdis HW. induction l as [|[j o] l IH]; intros Hin; [destruct Hin|].
  specialize (IH (fun o H => Hops o (or_intror H))). cbn [flen owner]. destruct (N.eqb_spec j i) as [->|Hn].
  - destruct (Hops o (or_introl eq_refl)) as [->|(off' & len' & id' & -> & HW')].
    + destruct Hin as [E|Hin]; [discriminate|]. destruct (IH Hin) as (_ & IH2).
      pose proof (Hfit _ _ _ HW) as Hle. split; [exact Hle|].
      intros pos H1 H2. rewrite (proj2 (N.ltb_lt pos n)) by lia. now apply IH2.
    + destruct Hin as [E|Hin].
      * inversion E; subst off' len' id'. split; [lia|]. intros pos H1 H2.
        now rewrite (proj2 (N.leb_le off pos) H1), (proj2 (N.ltb_lt pos (off + len)) H2).
      * destruct (IH Hin) as (IH1 & IH2). split; [lia|]. intros pos H1 H2.
        destruct ((off' <=? pos) && (pos <? off' + len')) eqn:Ec; [|now apply IH2].
        (* pos lies in both ranges: the two writes overlap, so they are the same *)
        apply andb_prop in Ec as (E1 & E2). apply N.leb_le in E1. apply N.ltb_lt in E2.
        assert (Ho : overlaps off len off' len' = true) by (apply andb_true_intro; split; apply N.ltb_lt; lia).
        specialize (Hdis _ _ _ HW' Ho). now inversion Hdis.
  - destruct Hin as [E|Hin]; [inversion E; congruence|]. now apply IH.
Qed.

Lemma holds_version_of o x id : holds_version o x id -> version_of o x = Some (Some id).
Proof. intros (i & len & Hd & Ho). unfold version_of. now rewrite Hd, Ho. Qed.

Lemma reflected_ends_of o f off len id : reflected o f off len id -> 0 < len -> reflected_ends o f off len id = true.
Proof.
  intros (i & Hd & Hl & Ho) Hlen. unfold reflected_ends. rewrite Hd, !Ho, N.eqb_refl, (proj2 (N.leb_le _ _) Hl) by lia. reflexivity.
Qed.

Lemma run_from_app s t1 t2 : drun_from s (t1 ++ t2) = drun_from (drun_from s t1) t2.
Proof. apply fold_left_app. Qed.

Definition ev_names (e : ev) : list N :=
  match e with
  | ECreate f | ESetLen f _ | EWrite f _ _ _ _ | ESyncFile f | ETmpWrite f _ _ | ERemove f => [f]
  | ERename a b => [a; b]
  | ESyncDir | EAck _ | EAckRead _ _ => []
  end.

(* The two views of the logs, flagged, newest first: the file operations on inode j, the directory
   operations on name x.  What an outcome keeps of a view is read off by [adm_filter]. *)
Definition iops (s : dstate) (j : N) : list (bool * (N * fop)) := filter (fun y => fst (snd y) =? j) (d_fops s).
Definition nops (s : dstate) (x : N) : list (bool * dop) := filter (fun y => touchesb x (snd y)) (d_dops s).

Lemma nops_sync_dir s x : nops (dstep s ESyncDir) x = sync_all (nops s x).
Proof. exact (filter_map_comm _ (fun y => touchesb x (snd y)) (d_dops s)). Qed.

Lemma in_iops s b j o : In (b, (j, o)) (d_fops s) <-> In (b, (j, o)) (iops s j).
Proof. unfold iops. rewrite filter_In. cbn [fst snd]. rewrite N.eqb_refl. tauto. Qed.

(* The footprint of a step.  s' differs from s only in what concerns the names of ns: the other names
   keep their bindings and their directory operations, an inode bound under a name of ns is new or was
   bound under a name of ns, and an inode no name of ns leads to has kept its file operations, flags
   included.  Every dstep but the directory fsync is such a step for the names of its event
   ([dstep_dframe]); an invariant about other names is kept by it for that reason alone. *)
Record dframe (ns : list N) (s s' : dstate) : Prop := {
  df_vdir : forall g, ~ In g ns -> vlook (d_vdir s') g = vlook (d_vdir s) g;
  df_from : forall g j, vlook (d_vdir s') g = Some j -> vlook (d_vdir s) g = Some j \/
            In g ns /\ (d_next s <= j \/ exists a, In a ns /\ vlook (d_vdir s) a = Some j);
  df_dops : forall g, ~ In g ns -> nops s' g = nops s g;
  df_fops : forall j, (forall g, In g ns -> vlook (d_vdir s') g <> Some j) -> iops s' j = iops s j }.

Lemma dframe_refl ns s : dframe ns s s.
Proof. constructor; auto. Qed.

Lemma dframe_add_fop ns s s' f i b o : dframe ns s s' -> In f ns -> vlook (d_vdir s') f = Some i -> dframe ns s (add_fop s' b i o).
Proof.
  intros [V F D O] Hf E. constructor; auto. intros j Hj. rewrite <- (O j Hj). unfold iops. cbn [add_fop d_fops filter fst snd].
  destruct (N.eqb_spec i j) as [<-|]; [destruct (Hj f Hf E)|reflexivity].
Qed.

Lemma dframe_fop_at s f b o : dframe [f] s (match vlook (d_vdir s) f with Some i => add_fop s b i o | None => s end).
Proof.
  destruct (vlook (d_vdir s) f) as [i|] eqn:E; [|apply dframe_refl].
  apply (dframe_add_fop _ s s f); [apply dframe_refl|now left|exact E].
Qed.

Lemma dframe_create s f : dframe [f] s (do_create s f).
Proof.
  pose proof (dframe_fop_at s f false (FSetLen 0)) as H. unfold do_create. destruct (vlook (d_vdir s) f) eqn:E; [exact H|].
  constructor; cbn [d_vdir d_fops d_dops vlook]; auto.
  - intros g Hg. destruct (N.eqb_spec f g) as [<-|]; [destruct Hg; now left|reflexivity].
  - intros g j. destruct (N.eqb_spec f g) as [<-|]; [intros [= <-]; right; split; [now left|left; apply N.le_refl]|now left].
  - intros g Hg. unfold nops. cbn [d_dops filter snd touchesb]. destruct (N.eqb_spec f g) as [<-|]; [destruct Hg; now left|reflexivity].
Qed.

Lemma sync_ino_other i j (l : list (bool * (N * fop))) : i <> j ->
  filter (fun y => fst (snd y) =? j) (sync_ino i l) = filter (fun y => fst (snd y) =? j) l.
Proof.
  intros Hne. rewrite (sync_ino_filter (fun z => fst z =? j)). unfold sync_ino. rewrite <- (map_id (filter _ l)) at 2.
  apply map_ext_in. intros [b [k o]] H. apply filter_In in H as (_ & H). cbn [fst snd] in *. apply N.eqb_eq in H. subst k.
  destruct (N.eqb_spec j i); [congruence|now rewrite orb_false_r].
Qed.

Lemma dstep_dframe s e : e <> ESyncDir -> dframe (ev_names e) s (dstep s e).
Proof.
  intros He. destruct e; cbn [dstep ev_names]; try apply dframe_refl.
  - (* ECreate *) apply dframe_create.
  - (* ESetLen *) apply dframe_fop_at.
  - (* EWrite *) apply dframe_fop_at.
  - (* ESyncFile *) destruct (vlook (d_vdir s) f) as [i|] eqn:E; [|apply dframe_refl]. constructor; cbn [d_vdir d_dops]; auto.
    + intros j Hj. apply sync_ino_other. intros <-. exact (Hj f (or_introl eq_refl) E).
  - (* ESyncDir *) destruct He. reflexivity.
  - (* ETmpWrite *) unfold do_write. destruct (vlook (d_vdir (do_create s f)) f) as [i|] eqn:E; [|apply dframe_create].
    apply (dframe_add_fop _ s _ f); [apply dframe_create|now left|exact E].
  - (* ERename *) destruct (vlook (d_vdir s) a) as [i|] eqn:E; [|apply dframe_refl]. constructor; cbn [d_vdir d_fops d_dops In]; auto.
    + intros g Hg. rewrite vlook_rename. destruct (N.eqb_spec b g); [tauto|]. destruct (N.eqb_spec a g); [tauto|reflexivity].
    + intros g j. rewrite vlook_rename. destruct (N.eqb_spec b g) as [<-|]; [intros [= <-]; right; split; [auto|]; right; exists a; auto|].
      destruct (a =? g); [discriminate|now left].
    + intros g Hg. unfold nops. cbn [d_dops filter snd touchesb]. destruct (N.eqb_spec a g), (N.eqb_spec b g); tauto || reflexivity.
  - (* ERemove *) destruct (vlook (d_vdir s) f) as [i|] eqn:E; [|apply dframe_refl]. constructor; cbn [d_vdir d_fops d_dops In]; auto.
    + intros g Hg. rewrite vlook_vdel. destruct (N.eqb_spec f g); [tauto|reflexivity].
    + intros g j. rewrite vlook_vdel. destruct (f =? g); [discriminate|now left].
    + intros g Hg. unfold nops. cbn [d_dops filter snd touchesb]. destruct (N.eqb_spec f g); [tauto|reflexivity].
Qed.
