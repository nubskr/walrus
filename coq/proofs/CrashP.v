(* CrashP.v — list lemmas about [outs_are] for the theorems saying what the C07, C08 and C09 acceptors mean (props/C07.v,
   props/C08.v, props/C09.v), and the model's verdict on a three-entry batch whose first write completed before the crash. *)
From W Require Import model.Base model.Engine model.EngineCfg spec.Queue.

Lemma outs_are_length os es : outs_are os es = true -> length os = length es.
Proof.
  revert es; induction os as [|o os IH]; intros [|e es] H; cbn in H; try discriminate; [reflexivity|].
  apply andb_prop in H. destruct H as (_ & H). cbn. f_equal. now apply IH.
Qed.

(* the model's verdict: a crash after the first entry's write of a three-entry batch leaves
   exactly that one entry recovered — a strict, non-empty subset *)
Definition tb : topic := {| t_id := 1; t_nlen := 2 |}.
Definition b3 : list entry := [{| e_pid := 1; e_len := 10 |}; {| e_pid := 2; e_len := 20 |}; {| e_pid := 3; e_len := 30 |}].
Lemma batch_crash_partial :
  stream_of (batch_crash small_cfg init tb b3 1) 1 = [{| e_pid := 1; e_len := 10 |}].
Proof. vm_compute. reflexivity. Qed.

Lemma outs_are_app a b x y : outs_are a x = true -> outs_are b y = true -> outs_are (a ++ b) (x ++ y) = true.
Proof.
  revert x; induction a as [|o a IH]; intros [|e x] Ha Hb; cbn in *; try discriminate; [exact Hb|].
  apply andb_prop in Ha. destruct Ha as (H1 & H2). rewrite H1. cbn. now apply IH.
Qed.
