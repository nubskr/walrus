(* EngineGrow.v — how the non-empty blocks of a topic ([memne]) evolve under appends and
   batches: existing blocks keep their position and id, only the last block may receive
   entries, new blocks come behind; the sealed chain only grows at its end, by non-empty
   blocks.  Every outcome of [append] / [batch] (accepted or rejected) is covered. *)
From W Require Import model.Base model.Engine proofs.EngineWF proofs.EngineInv proofs.EngineW proofs.EnginePos.

Lemma Grow_refl ts : Grow ts ts.
Proof.
  split.
  - exists []. split; [now rewrite app_nil_r|constructor].
  - exists []. split; [now rewrite app_nil_r|apply MG_refl].
Qed.

Lemma Grow_trans a b d : Grow a b -> Grow b d -> Grow a d.
Proof.
  intros ((q1 & Hc1 & Hq1) & es1 & Hs1 & Hm1) ((q2 & Hc2 & Hq2) & es2 & Hs2 & Hm2).
  split.
  - exists (q1 ++ q2). split; [now rewrite Hc2, Hc1, app_assoc|].
    apply Forall_app. split; assumption.
  - exists (es1 ++ es2). split; [now rewrite Hs2, Hs1, app_assoc|].
    eapply MG_trans; eassumption.
Qed.

Lemma MG_prefix P M M' es : MG M M' es -> MG (P ++ M) (P ++ M') es.
Proof.
  intros (Hl & Hp & Hc). split; [rewrite !app_length; lia|]. split; [|now rewrite !chain_ents_app, Hc, app_assoc].
  intros j b Hj. destruct (Nat.lt_ge_cases j (length P)) as [Hlt|Hge].
  - rewrite nth_error_app1 in Hj by exact Hlt. exists b, []. rewrite nth_error_app1, app_nil_r by exact Hlt. auto.
  - rewrite nth_error_app2 in Hj by exact Hge. destruct (Hp _ _ Hj) as (b' & e1 & H1 & H2 & H3 & H4).
    exists b', e1. rewrite nth_error_app2 by exact Hge. repeat split; auto. intros Hs. apply H4. rewrite app_length in Hs. lia.
Qed.

Lemma MG_new b : MG [] [b] (b_ents b).
Proof. split; [cbn; lia|]. split; [intros [|j] b0 H; discriminate|]. cbn. now rewrite app_nil_r. Qed.

Lemma MG_ext w w' e1 : b_id w' = b_id w -> b_ents w' = b_ents w ++ e1 -> MG [w] [w'] e1.
Proof.
  intros Hid He. split; [cbn; lia|]. split; [|cbn; now rewrite !app_nil_r].
  intros [|[|j]] b H; try discriminate. injection H as <-. exists w', e1. cbn. repeat split; auto. lia.
Qed.

Lemma nonempty_b_false b : b_ents b = [] -> nonempty_b b = false.
Proof. unfold nonempty_b. now intros ->. Qed.

Lemma nonempty_b_true' b : b_ents b <> [] -> nonempty_b b = true.
Proof. apply nonempty_b_true. Qed.

(* growth read off the blocks behind the old chain: those that joined the chain, then the writer block *)
Lemma Grow_blocks ts ts' q es : chain_of ts' = chain_of ts ++ q -> Forall (fun b => b_ents b <> []) q ->
  MG (filter nonempty_b (w_list ts)) (filter nonempty_b (q ++ w_list ts')) es -> Grow ts ts'.
Proof.
  intros Hc Hq Hm. assert (H : MG (memne ts) (memne ts') es).
  { unfold memne. rewrite Hc, <- app_assoc, !(filter_app _ (chain_of ts)). now apply MG_prefix. }
  split; [exists q; auto|]. exists es. split; [|exact H]. rewrite <- !chain_ents_memne. apply H.
Qed.

(* the topic's first writer block: it is empty, so nothing changes among the non-empty blocks *)
Lemma first_writer_grow nid ts nb : ts_writer ts = None -> fresh_blk nid nb -> Grow ts (with_writer ts (Some nb)).
Proof.
  intros Hnone (_ & _ & Fe & _). apply (Grow_blocks ts _ [] []); [symmetry; apply app_nil_r|constructor|].
  unfold w_list. cbn [with_writer ts_writer app filter]. rewrite Hnone, (nonempty_b_false nb Fe). apply MG_refl.
Qed.

(* one more entry in the writer block: the last non-empty block receives it, or (the writer
   block was empty) the writer block becomes the new last non-empty block *)
Lemma add_entry_grow c ts w e : ts_writer ts = Some w -> Grow ts (with_writer ts (Some (blk_add w c [e]))).
Proof.
  intros Hsome. apply (Grow_blocks ts _ [] [e]); [symmetry; apply app_nil_r|constructor|].
  unfold w_list. cbn [with_writer ts_writer app filter]. rewrite Hsome. cbn [filter].
  replace (nonempty_b (blk_add w c [e])) with true by (unfold nonempty_b, blk_add; cbn [b_ents]; now destruct (b_ents w)).
  unfold nonempty_b. destruct (b_ents w) as [|e0 r0] eqn:Ew.
  - pose proof (MG_new (blk_add w c [e])) as H. cbn [blk_add b_ents] in H. now rewrite Ew in H.
  - apply MG_ext; [reflexivity|]. cbn [blk_add b_ents]. now rewrite Ew.
Qed.

(* sealing the writer block and switching to a fresh one: the non-empty blocks are the same
   (an empty writer block is retired, a non-empty one moves to the end of the chain) *)
Lemma rotate_grow c (Hh : 0 < c_hdr c) nid ts w nb : bwf c w -> ts_writer ts = Some w -> fresh_blk nid nb ->
  Grow ts (with_writer (seal ts w) (Some nb)).
Proof.
  intros Hwwf Hsome (_ & _ & Fe & _).
  assert (Hch : chain_of (with_writer (seal ts w) (Some nb)) = if b_used w =? 0 then chain_of ts else chain_of ts ++ [w])
    by apply chain_of_seal.
  destruct (b_used w =? 0) eqn:Ez.
  - apply (Grow_blocks _ _ [] []); [now rewrite app_nil_r|constructor|].
    unfold w_list. cbn [with_writer ts_writer app filter]. rewrite Hsome. cbn [filter].
    rewrite (nonempty_b_false nb Fe), (nonempty_b_false w (bwf_used0 c w Hh Hwwf Ez)). apply MG_refl.
  - apply (Grow_blocks _ _ [w] [] Hch); [constructor; [exact (bwf_used_pos c w Hwwf Ez)|constructor]|].
    unfold w_list. cbn [with_writer ts_writer app filter]. rewrite Hsome. cbn [filter].
    rewrite (nonempty_b_false nb Fe). apply MG_refl.
Qed.

Lemma count_add_grow ts d : Grow ts (count_add ts d).
Proof.
  unfold count_add. destruct (d =? 0); [apply Grow_refl|].
  apply (Grow_blocks _ _ [] []); [symmetry; apply app_nil_r|constructor|apply MG_refl].
Qed.

Lemma WStep_grow c (Hh : 0 < c_hdr c) n T l n' T' : TInvP c n T -> WStep c n T l n' T' -> Grow T T'.
Proof.
  intros Hinv [nb Hw Hf|w e Hw _|w nb Hw Hf].
  - exact (first_writer_grow n T nb Hw Hf).
  - exact (add_entry_grow c T w e Hw).
  - exact (rotate_grow c Hh n T w nb (writer_bwf c n T w Hinv Hw) Hw Hf).
Qed.

Lemma WRun_grow c (Hh : 0 < c_hdr c) n T l n' T' : 0 < n -> TInvP c n T -> WRun c n T l n' T' -> Grow T T'.
Proof.
  intros Hn Hinv H. refine (WRun_inv c Hh (fun _ X => Grow T X) _ _ n T l n' T' Hn Hinv H (Grow_refl T)).
  - intros m X k m' X' _ HX Hs HG. exact (Grow_trans _ _ _ HG (WStep_grow c Hh m X k m' X' HX Hs)).
  - intros _ X d HG. exact (Grow_trans _ _ _ HG (count_add_grow X d)).
Qed.

(* all that a position clause needs to know of a write: the topic grows by the entries written, behind
   everything unread, and the persisted position stays *)
Lemma WRun_grows c (Hh : 0 < c_hdr c) n T es n' T' : 0 < n -> TInvP c n T -> WRun c n T es n' T' ->
  Grow T T' /\ stream T' = stream T ++ es /\ unread c T' = unread c T ++ es /\ ts_index T' = ts_index T.
Proof.
  intros Hn HT Hrun. split; [exact (WRun_grow c Hh n T es n' T' Hn HT Hrun)|]. destruct Hrun as (t2 & W & ->).
  destruct (WSteps_spec c Hh n T es n' t2 Hn HT W) as (_ & _ & Hst & Hun & _). rewrite stream_count_add, unread_count_add.
  split; [exact Hst|]. split; [exact Hun|].
  transitivity (ts_index t2); [unfold count_add; now destruct (_ =? 0)|].
  clear - W. induction W as [|? ? ? ? ? ? _ IH Hs]; [reflexivity|]. rewrite <- IH. destruct Hs; reflexivity.
Qed.

Lemma append_grow c s t e : cfg_ok c -> GInv c s -> cnt (get_ts s (t_id t)) + 1 <= u64_max ->
  Grow (get_ts s (t_id t)) (get_ts (fst (append c s t e)) (t_id t)).
Proof.
  intros Hc Hg _. destruct (write_WRun c Strict Fd s (OAppend t e) t Hc eq_refl) as (es & Hrun).
  exact (WRun_grow c (proj1 Hc) _ _ _ _ _ (proj1 Hg) (TInv_P _ _ _ (proj2 Hg _)) Hrun).
Qed.

Lemma batch_grow c be s t es : cfg_ok c -> GInv c s -> cnt (get_ts s (t_id t)) + N.of_nat (length es) <= u64_max ->
  Grow (get_ts s (t_id t)) (get_ts (fst (batch c be s t es)) (t_id t)).
Proof.
  intros Hc Hg _. destruct (write_WRun c Strict be s (OBatch t es) t Hc eq_refl) as (es' & Hrun).
  exact (WRun_grow c (proj1 Hc) _ _ _ _ _ (proj1 Hg) (TInv_P _ _ _ (proj2 Hg _)) Hrun).
Qed.
