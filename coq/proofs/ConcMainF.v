(* ConcMainF.v — the code as it is (fx = true): the invariant of proofs/ConcInvF.v holds along
   EVERY schedule (no hypothesis on the interleaving, any number of consumers per topic). *)
From W Require Import model.Base model.Conc spec.ConcSpec proofs.EngineWF
  proofs.EngineMain proofs.ConcInvF proofs.ConcStep proofs.ConcBridge proofs.ConcMain.

Definition simple_progsP (progs : list (list call)) : Prop :=
  Forall (Forall (fun cl => simple_callP cl = true)) progs.

Theorem invF_every_schedule c m be progs sched :
  cfg_ok c -> simple_progsP progs -> NoDup (offered_pids progs) ->
  exists L, INVF c progs (ro_cs (run_schedule (env_of c m be) true progs sched)) L.
Proof.
  intros Hc Hs Hnd.
  destruct (G_run winF_at (fun _ _ => True) true c progs m be (fun _ => false) (winF_frames c progs) Hc Hnd Hs
              (fun _ _ _ _ H => H) (fun _ _ _ _ _ _ _ _ _ _ => I) sched) as [Hf|(L & G)]; [discriminate|].
  exists L. apply GINV_INVF. rewrite winF_lift. exact G.
Qed.

(* C05 for the code with the fix: any number of producers and consumers, every schedule *)
Theorem fixed_every_schedule c m be progs sched :
  cfg_ok c -> simple_progsP progs -> NoDup (offered_pids progs) ->
  let ro := run_schedule (env_of c m be) true progs sched in
  threads_done (ro_cs ro) = true ->
  c05_run_ok progs (cresults (ro_cs ro)) false = true.
Proof.
  intros Hc Hs Hnd ro Hdone.
  destruct (invF_every_schedule c m be progs sched Hc Hs Hnd) as (L & HI).
  apply (invF_accepts c progs (ro_cs ro) L Hs Hnd HI Hdone).
Qed.
