(* ClusterKnown.v — outside the known class of C23 the property holds, for ALL schedules:
   if the model's run of a case never raises k_ctw / k_stale (no engine append into a segment
   that is sealed in the writer's metadata at that moment), the C23 acceptor accepts the
   trace.  Together with never_foreign this says the two mechanisms are the only ones. *)
From W Require Import model.Base model.Cluster spec.StreamSpec spec.ClusterClass proofs.ListP proofs.ClusterP.

(* the two flags of c23_known; of the ghost's updates only [ghost_sub] at an engine write raises them *)
Definition g_bad (g : ghost) : bool := g_ctw g || g_stale g.

Lemma ghost_sub_bad s e g u :
  g_bad (ghost_sub s e g u) =
  g_bad g || match u with EW n seg _ _ => node_sealed s n seg | _ => false end.
Proof.
  destruct u as [c k b n|c k r|n seg p a|n seg p|idx c]; cbn [ghost_sub]; try (now rewrite orb_false_r).
  - destruct r; cbn [ghost_sub]; unfold g_bad; cbn; now rewrite orb_false_r.
  - unfold g_bad. cbn [g_ctw g_stale]. destruct (node_sealed s n seg); [|now rewrite !andb_false_l, !orb_false_r].
    cbn [andb]. destruct (g_ctw g), (g_stale g), (match e with EvC i => _ | _ => false end); reflexivity.
Qed.

Lemma fold_sub_bad s e subs : forall g,
  g_bad (fold_left (ghost_sub s e) subs g) =
  g_bad g || existsb (fun u => match u with EW n seg _ _ => node_sealed s n seg | _ => false end) subs.
Proof.
  induction subs as [|u r IH]; intros g; cbn [fold_left existsb]; [now rewrite orb_false_r|].
  rewrite IH, ghost_sub_bad. now rewrite orb_assoc.
Qed.

Lemma ghost_pc_bad s e s' g : g_bad (ghost_pc s e s' g) = g_bad g.
Proof.
  unfold ghost_pc. destruct (pc_of_ev s e) as [pc|]; [|reflexivity].
  destruct pc; try reflexivity; destruct (pc_of_ev s' e) as [pc'|]; try reflexivity;
    destruct pc'; try reflexivity; destruct e; reflexivity.
Qed.

Lemma ghost_restart_bad s e t g : g_bad (ghost_restart s e t g) = g_bad g.
Proof. unfold ghost_restart. destruct e; try reflexivity. destruct (fst t); reflexivity. Qed.

Lemma run_g_mono cfg sched : forall s g, g_bad g = true -> g_bad (snd (cl_run_g cfg s g sched)) = true.
Proof.
  induction sched as [|e r IH]; intros s g H; cbn [cl_run_g]; [exact H|].
  destruct (cl_step cfg s e) as [s1 t]. apply IH.
  rewrite ghost_restart_bad, ghost_pc_bad, fold_sub_bad, H. reflexivity.
Qed.

Lemma step_scan_unsealed cfg s ev s' t :
  InvG led s -> cl_step cfg s ev = (s', t) ->
  (forall n seg p a, In (EW n seg p a) (snd t) -> node_sealed s n seg = false) ->
  forall rest, c23_scan (s_log s) (snd t ++ rest) = c23_scan (s_log s') rest.
Proof.
  intros [Hn Hp] H Hu. apply (cl_step_scan _ _ _ _ _ _ skips_scan H). intros pc p s1 out Hpc Hx Hin.
  specialize (Hp ev). rewrite Hpc in Hp. apply (exec_pc_scan cfg s p pc); auto.
  intros n seg q a x Hw Hg. specialize (Hu n seg q a (Hin _ Hw)). unfold node_sealed in Hu. now rewrite Hg in Hu.
Qed.

Lemma run_outside cfg sched : forall s g, InvG led s ->
  g_bad (snd (cl_run_g cfg s g sched)) = false ->
  c23_scan (s_log s) (events (fst (cl_run cfg s sched))) = 0.
Proof.
  induction sched as [|e r IH]; intros s g Hi Hb; cbn [cl_run cl_run_g] in *; [reflexivity|].
  destruct (cl_step cfg s e) as [s1 t] eqn:E.
  pose proof (InvLed_step _ _ _ _ _ Hi E) as Hi1.
  set (g2 := ghost_restart s e t (ghost_pc s e s1 (fold_left (ghost_sub s e) (snd t) g))) in *.
  assert (Hg2 : g_bad g2 = false).
  { destruct (g_bad g2) eqn:X; [|reflexivity]. rewrite (run_g_mono cfg r s1 g2 X) in Hb. discriminate. }
  unfold g2 in Hg2. rewrite ghost_restart_bad, ghost_pc_bad, fold_sub_bad in Hg2.
  apply orb_false_iff in Hg2. destruct Hg2 as [_ Hex].
  specialize (IH s1 g2 Hi1 Hb). destruct (cl_run cfg s1 r) as [ts s2]. cbn [fst] in *.
  unfold events in *. cbn [flat_map]. rewrite (step_scan_unsealed _ _ _ _ _ Hi E); [exact IH|].
  intros n seg p a Hin. exact (existsb_false_in _ _ _ Hex Hin).
Qed.

Lemma outside_known_c23 cfg sched : c23_known cfg sched = false -> c23_ok cfg (cl_trace cfg sched) = true.
Proof.
  unfold c23_known, cl_classes, c23_ok, c23_verdict, cl_trace. intros H.
  destruct (cl_run_g cfg (cl_init cfg) ghost0 sched) as [s g] eqn:E. cbn [k_ctw k_stale] in H.
  change (boot_log cfg) with (s_log (cl_init cfg)).
  rewrite (run_outside cfg sched (cl_init cfg) ghost0 (InvG_init led cfg)); [reflexivity|].
  rewrite E. exact H.
Qed.
