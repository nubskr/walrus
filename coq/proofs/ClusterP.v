(* ClusterP.v — proofs about model/Cluster.v for ALL schedules.
   The per-pc clause of the lease region, [rok G]: a task between update_leases and the engine
   append relies on a segment (the one in `expected`, in the lease set, or in hand) that is good,
   in the sense G, in the node's current metadata.  What one [exec_pc] does to the state, what it
   emits, and that the acting task's clause follows it for every G ([exec_pc_spec]: [shape],
   [emits], [rok]); the anatomy of a task step; the invariant [InvG G] (every node's metadata is
   the replay of its applied prefix, every task's clause holds) and its step lemma; with G = [led],
     never_foreign   no engine write ever goes into a segment that the writer's applied
                     metadata assigns to another node (second clause of C23). *)
From W Require Import model.Base model.Map model.Bincode model.Meta model.Cluster model.ClusterSys
  spec.StreamSpec proofs.ListP proofs.MapP proofs.MetaP.

(* The G that holds for every schedule: t_leaders only grows under apply, so [led] survives any
   command, whereas [owned] changes at a rollover and needs the fence. *)
Definition led (m : mstate) (n sg : N) : Prop :=
  exists t, topic_of m = Some t /\ lookup N.compare sg (t_leaders t) = Some n.

Lemma topic_of_tinv m t : ginv true m -> topic_of m = Some t -> tinv true t.
Proof.
  intros Hi Ht. unfold topic_of, get_topic_state in Ht. rewrite (gi_live _ _ Hi) in Ht.
  exact (lookup_Forall str_cmp_ok _ _ _ _ (gi_topics _ _ Hi) Ht).
Qed.

Lemma owned_spec m n sg : owned m n = Some sg ->
  exists t, topic_of m = Some t /\ t_leader t = n /\ t_cur t = sg.
Proof.
  unfold owned. destruct (topic_of m) as [t|]; [|discriminate].
  destruct (t_leader t =? n) eqn:E; [|discriminate]. intros H. inversion H. subst.
  exists t. apply N.eqb_eq in E. auto.
Qed.

Lemma led_owned m n sg : ginv true m -> owned m n = Some sg -> led m n sg.
Proof.
  intros Hi Ho. destruct (owned_spec _ _ _ Ho) as (t & Ht & Hl & Hc).
  exists t. split; [exact Ht|]. rewrite <- Hc, <- Hl. exact (ti_open _ _ (topic_of_tinv _ _ Hi Ht)).
Qed.

Lemma owned_not_sealed m n sg : ginv true m -> owned m n = Some sg -> sealed_in m sg = false.
Proof.
  intros Hi Ho. destruct (owned_spec _ _ _ Ho) as (t & Ht & Hl & Hc).
  unfold sealed_in. rewrite Ht. destruct (lookup N.compare sg (t_sealed t)) as [v|] eqn:E; [|reflexivity].
  exfalso. pose proof (topic_of_tinv _ _ Hi Ht) as Hti. pose proof (ti_pos _ _ Hti).
  destruct (proj1 (keys_are_lookup _ _ _ sg (ti_sealed _ _ Hti)) (ex_intro _ v E)). lia.
Qed.

Lemma led_not_foreign m n sg : led m n sg -> foreign_in m n sg = false.
Proof.
  intros (t & Ht & Hl). unfold foreign_in. rewrite Ht, Hl. now rewrite N.eqb_refl.
Qed.

Lemma led_step m c n sg : ginv true m -> led m n sg -> led (fst (apply_cmd_fx m c)) n sg.
Proof.
  intros Hi (t & Ht & Hl).
  destruct (good_step_fx m c Hi) as (Hi' & Hx & _).
  unfold topic_of, get_topic_state in Ht. rewrite (gi_live _ _ Hi) in Ht.
  apply (lookup_In str_cmp_ok) in Ht.
  rewrite cluster_ext_spec in Hx. destruct (Hx _ _ Ht) as (t' & Ht' & Hte).
  exists t'. split.
  - unfold topic_of, get_topic_state. now rewrite (gi_live _ _ Hi').
  - apply topic_ext_spec in Hte. destruct Hte as (_ & Hsub & _).
    rewrite sub_map_spec in Hsub. apply Hsub. now apply (lookup_In N_cmp_ok).
Qed.

Lemma apply_rollover m t nl cnt :
  topic_of m = Some t ->
  exists t', topic_of (fst (apply_cmd_fx m (RolloverTopic tname nl cnt))) = Some t' /\ (t' = t \/ rollover_fx t nl cnt = Some t').
Proof.
  intros Ht. pose proof Ht as Ht0. unfold topic_of, get_topic_state in Ht. destruct (m_poisoned m); [discriminate|].
  cbn [apply_cmd_fx]. rewrite Ht. destruct (rollover_fx t nl cnt) as [t'|]; [|exists t; exact (conj Ht0 (or_introl eq_refl))].
  exists t'. split; [|now right]. unfold topic_of, get_topic_state. cbn [fst m_poisoned m_cl set_topics c_topics].
  apply (lookup_ins_same str_cmp_ok).
Qed.

Lemma replay_app m a b : replay m (a ++ b) = replay (replay m a) b.
Proof. revert m. induction a as [|c a IH]; intros m; cbn [replay app]; auto. Qed.

Lemma replay_snoc m a c : replay m (a ++ [c]) = fst (apply_cmd_fx (replay m a) c).
Proof. rewrite replay_app. reflexivity. Qed.

Lemma ginv_replay m l : ginv true m -> ginv true (replay m l).
Proof. revert m. induction l as [|c l IH]; intros m Hi; cbn [replay]; auto. apply IH, (good_step_fx m c Hi). Qed.

Lemma replay_upserts l : forall m, m_poisoned m = false -> c_topics (m_cl m) = [] ->
  m_poisoned (replay m (map (fun n => UpsertNode n (node_addr n)) l)) = false /\
  c_topics (m_cl (replay m (map (fun n => UpsertNode n (node_addr n)) l))) = [].
Proof.
  induction l as [|n l IH]; intros m Hp Ht; cbn [map replay]; [auto|]. apply IH; reflexivity || exact Ht.
Qed.

Lemma boot_topic cfg : topic_of (replay m_init (boot_log cfg)) = Some (new_topic (cf_lead cfg)).
Proof.
  unfold boot_log. rewrite replay_app.
  destruct (replay_upserts (node_ids cfg) m_init eq_refl eq_refl) as [Hp Ht].
  set (m := replay m_init (map (fun n => UpsertNode n (node_addr n)) (node_ids cfg))) in *.
  cbn [replay apply_cmd_fx apply_cmd]. rewrite Ht. cbn [lookup fst].
  unfold topic_of, get_topic_state. cbn [m_poisoned m_cl set_topics c_topics ins].
  cbn [lookup]. now rewrite str_cmp_refl.
Qed.

Record node_ok (log : list cmd) (x : node) : Prop := {
  no_replay : nd_meta x = replay m_init (firstn (nd_applied x) log);
  no_le : (nd_applied x <= length log)%nat
}.

Lemma node_ok_ginv log x : node_ok log x -> ginv true (nd_meta x).
Proof. intros [-> _]. apply ginv_replay, (ginv_init true). Qed.

Definition nodes_ok (s : cst) : Prop := forall n x, get_node s n = Some x -> node_ok (s_log s) x.

Lemma get_set s n x m : get_node (set_node s n x) m = if m =? n then Some x else get_node s m.
Proof.
  unfold get_node, set_node. cbn [s_nodes].
  destruct (N.eqb_spec m n) as [->|Hne]; [apply (lookup_ins_same N_cmp_ok)|now apply (lookup_ins_other N_cmp_ok)].
Qed.
Lemma get_set_same s n x : get_node (set_node s n x) n = Some x.
Proof. now rewrite get_set, N.eqb_refl. Qed.
Lemma get_set_other s n m x : m <> n -> get_node (set_node s n x) m = get_node s m.
Proof. intros H. rewrite get_set. now destruct (N.eqb_spec m n). Qed.

Lemma get_set_inv s n x m y :
  get_node (set_node s n x) m = Some y -> (m = n /\ y = x) \/ (m <> n /\ get_node s m = Some y).
Proof. rewrite get_set. destruct (N.eqb_spec m n); intros H; [left; now inversion H|now right]. Qed.

Definition same_meta (x x' : node) : Prop := nd_meta x' = nd_meta x /\ nd_applied x' = nd_applied x.

Definition out_pc (o : outcome) : option cpc :=
  match o with OYield pc _ _ => Some pc | OBlocked _ pc => Some pc | OFinish _ _ => None end.
Definition out_subs (o : outcome) : list csub :=
  match o with OYield _ _ u => u | OBlocked u _ => u | OFinish _ u => u end.

Inductive shape (s : cst) (pc : cpc) (s1 : cst) : Prop :=
| ShSame : s1 = s -> shape s pc s1
| ShNode e x x' : get_node s e = Some x -> s1 = set_node s e x' -> same_meta x x' ->
    (nd_lease x' = nd_lease x \/ exists ex k, pc = PUlWrite e ex k /\ nd_lease x' = ex) -> shape s pc s1
| ShLog c k : pc = PPropose c k ->
    s1 = mkSt (s_nodes s) (s_log s ++ [c]) (s_clients s) (s_lease s) (s_mon s) -> shape s pc s1.

(* at most one sub-event: a consuming read, the engine write of PSpawn (carrying the apply pointer
   of the node written on), or the command that PPropose appends to the log *)
Inductive emits (s : cst) (p : cpayload) (pc : cpc) (s1 : cst) : list csub -> Prop :=
| EmNone : s_log s1 = s_log s -> emits s p pc s1 []
| EmRead e seg a : s_log s1 = s_log s -> emits s p pc s1 [EX e seg a]
| EmWrite e seg att x : pc = PSpawn e seg att -> get_node s e = Some x -> s_log s1 = s_log s ->
    emits s p pc s1 [EW e seg p (nd_applied x)]
| EmLog c k : pc = PPropose c k -> s_log s1 = s_log s ++ [c] -> emits s p pc s1 [EL (length (s_log s)) c].

Lemma emits_nil s p pc s1 u : u = [] -> s_log s1 = s_log s -> emits s p pc s1 u.
Proof. intros ->. apply EmNone. Qed.

Lemma after_ul_subs e k : out_subs (after_ul e k) = [].
Proof. now destruct k. Qed.
Lemma after_propose_subs k : out_subs (after_propose k) = [].
Proof. now destruct k. Qed.
Lemma enter_propose_subs e c k u : out_subs (enter_propose e c k u) = u.
Proof. unfold enter_propose. now destruct (e =? raft_leader). Qed.

(* The segment a pc inside the lease region relies on: `expected`, the lease set, or the one in hand. *)
Definition claim (x : node) (pc : cpc) : option N :=
  match pc with
  | PUlRead _ ex _ | PUlWrite _ ex _ => ex
  | PEnsure _ _ _ => nd_lease x
  | PWlRead _ sg _ | PWlWrite _ sg _ | PKeyLock _ sg _ | PSpawn _ sg _ => Some sg
  | _ => None
  end.

(* whatever a pc inside the region of e claims is G in e's metadata *)
Definition rok (G : mstate -> N -> N -> Prop) (s : cst) (o : option cpc) : Prop :=
  forall pc e x, o = Some pc -> region_node pc = Some e -> get_node s e = Some x ->
  forall sg, claim x pc = Some sg -> G (nd_meta x) e sg.

(* what update_leases computes as `expected` is good *)
Definition entry (G : mstate -> N -> N -> Prop) (s : cst) : Prop :=
  forall e x sg, get_node s e = Some x -> owned (nd_meta x) e = Some sg -> G (nd_meta x) e sg.

Lemma rok_off (G : mstate -> N -> N -> Prop) s o : (forall e, in_region e o = false) -> rok G s o.
Proof.
  intros H pc e x -> Hr. specialize (H e). cbn [in_region] in H. rewrite Hr, N.eqb_refl in H. discriminate.
Qed.

Lemma rok_enter_ul (G : mstate -> N -> N -> Prop) s x e k : entry G s -> get_node s e = Some x -> rok G s (out_pc (enter_ul x e k)).
Proof.
  intros He Hg pc e0 y Hpc. inversion Hpc; subst pc. cbn [region_node claim]. intros Hr Hy sg Hc.
  inversion Hr; subst e0. rewrite Hg in Hy. inversion Hy; subst y. now apply He.
Qed.

Lemma rok_on (G : mstate -> N -> N -> Prop) s s1 pc pc' e x x' :
  region_node pc = Some e -> get_node s e = Some x -> get_node s1 e = Some x' -> nd_meta x' = nd_meta x ->
  region_node pc' = Some e -> (forall sg, claim x' pc' = Some sg -> claim x pc = Some sg) ->
  rok G s (Some pc) -> rok G s1 (Some pc').
Proof.
  intros R Hg Hg1 Hm R' Hc Hp q e0 y Hq R0 Hy sg Hs. inversion Hq; subst q. rewrite R' in R0. inversion R0; subst e0.
  rewrite Hg1 in Hy. inversion Hy; subst y. rewrite Hm. exact (Hp pc e x eq_refl R Hg sg (Hc sg Hs)).
Qed.

Lemma after_propose_off k e : in_region e (out_pc (after_propose k)) = false.
Proof. now destruct k. Qed.
Lemma enter_propose_off e0 c k u e : in_region e (out_pc (enter_propose e0 c k u)) = false.
Proof. unfold enter_propose. now destruct (e0 =? raft_leader). Qed.

Lemma opt_eqb_eq a b : opt_eqb a b = true -> a = b.
Proof. destruct a, b; cbn; try discriminate; auto. intros H. apply N.eqb_eq in H. now subst. Qed.

(* the leaves of the case analysis of exec_pc: the state is the same / one node is updated
   keeping metadata, apply pointer and lease, and nothing is emitted; then why the acting task's
   clause follows: the step ends outside every region, stays inside one with the same claim,
   does not move, or enters update_leases *)
Ltac sh0 := apply ShSame; reflexivity.
Ltac shn Hg := eapply ShNode; [exact Hg|reflexivity|split; reflexivity|left; reflexivity].
Ltac no_subs :=
  apply emits_nil; [first [reflexivity|apply after_ul_subs|apply after_propose_subs|apply enter_propose_subs]|reflexivity].
Ltac sh_same := cbn [fst snd]; split; [sh0|split; [no_subs|]].
Ltac sh_node Hg := cbn [fst snd]; split; [shn Hg|split; [no_subs|]].
Ltac fl_off := intros ? _ _; apply rok_off; intros ?; first [reflexivity|apply after_propose_off|apply enter_propose_off].
Ltac fl_on Hg :=
  intros ? _; eapply rok_on; [reflexivity|exact Hg|first [exact Hg|apply get_set_same]|reflexivity|reflexivity|cbn [claim]; auto].
Ltac fl_stay := intros ? _ Hp; exact Hp.
Ltac fl_enter := intros ? He _; now apply rok_enter_ul.

(* the cursor loop that PGLock and PGHw end with *)
Lemma get_loop_spec s p pc h x seg del :
  get_node s h = Some x -> let r := get_loop x h seg del in
  shape s pc (set_node s h (fst r)) /\ emits s p pc (set_node s h (fst r)) (out_subs (snd r)) /\
  forall G, entry G s -> rok G s (Some pc) -> rok G (set_node s h (fst r)) (out_pc (snd r)).
Proof.
  intros Hg. unfold get_loop. destruct (topic_of (nd_meta x)) as [t|]; [|sh_node Hg; fl_off].
  destruct (skip_sealed _ _ _ _) as [seg2 del2]. destruct (_ =? h); [sh_node Hg; fl_off|].
  destruct (has_addr _ _); sh_node Hg; fl_off.
Qed.

Lemma exec_pc_spec cfg s p pc s1 out :
  exec_pc cfg s p pc = (s1, out) -> shape s pc s1 /\ emits s p pc s1 (out_subs out) /\
  forall G, entry G s -> rok G s (Some pc) -> rok G s1 (out_pc out).
Proof.
  intros H. rewrite (surjective_pairing (exec_pc cfg s p pc)) in H. injection H as <- <-.
  (* bullets: the constructors of cpc; the goals after `;`: the branches of exec_pc, top to bottom *)
  destruct pc as [e ex k|e ex k|dst seg|e seg att|e seg att|e seg att|e seg att|e seg att|e seg|e seg|c k|c k|idx k
                 |h|h dst cur|h e cur|h e cur r|n|n|n seg]; cbn [exec_pc].
  - (* PUlRead *) destruct (get_node s e) eqn:Hg; [destruct (opt_eqb _ _) eqn:E|]; sh_same; [|fl_on Hg|fl_stay].
    destruct k; [|fl_off]. fl_on Hg. intros sg. now rewrite (opt_eqb_eq _ _ E).
  - (* PUlWrite *) destruct (get_node s e) eqn:Hg; [|sh_same; fl_stay].
    split; [eapply ShNode; [exact Hg|reflexivity|split; reflexivity|right; eauto]|split; [no_subs|]].
    destruct k; [fl_on Hg|fl_off].
  - (* PPutRpc *) destruct (get_node s dst) eqn:Hg; sh_same; [fl_enter|fl_off].
  - (* PEnsure *) destruct (get_node s e) eqn:Hg; [destruct (opt_eqb _ _) eqn:E; [|destruct att]|]; sh_same;
      [fl_on Hg|fl_off|fl_enter|fl_stay].
    intros sg <-. exact (opt_eqb_eq _ _ E).
  - (* PWlRead *) destruct (get_node s e) eqn:Hg; [destruct (mem _ _)|]; sh_same; [fl_on Hg|fl_on Hg|fl_stay].
  - (* PWlWrite *) destruct (get_node s e) eqn:Hg; [sh_node Hg; fl_on Hg|sh_same; fl_stay].
  - (* PKeyLock *) destruct (get_node s e) eqn:Hg; [destruct (mem _ _)|]; [sh_same; fl_stay|sh_node Hg; fl_on Hg|sh_same; fl_stay].
  - (* PSpawn *) destruct (get_node s e) eqn:Hg; [|sh_same; fl_stay].
    split; [shn Hg|split; [eapply EmWrite; [reflexivity|exact Hg|reflexivity]|fl_off]].
  - (* PRecord *) destruct (get_node s e) eqn:Hg; [sh_node Hg|sh_same]; fl_off.
  - (* PCount *) destruct (get_node s e); [destruct (_ <? _)|]; sh_same; fl_off.
  - (* PMetaRpc *) sh_same; fl_off.
  - (* PPropose *) split; [eapply ShLog; reflexivity|split; [eapply EmLog; reflexivity|fl_off]].
  - (* PWaitApplied *) destruct (get_node s raft_leader); [destruct (Nat.ltb _ _)|]; sh_same; fl_off.
  - (* PGLock *) destruct (get_node s h) as [x|] eqn:Hg; [|sh_same; fl_off].
    destruct (nd_rc x); [sh_same; fl_off|].
    destruct (match nd_cursor x with Some c => c | None => (0, 0) end) as [seg del].
    pose proof (get_loop_spec s p (PGLock h) h x seg del Hg) as L. now destruct (get_loop x h seg del).
  - (* PGRpc *) destruct (get_node s dst); [sh_same; fl_off|].
    destruct (get_node s h) eqn:Hg; [sh_node Hg|sh_same]; fl_off.
  - (* PGRead *) destruct (get_node s h) as [xh|]; [|sh_same; fl_off].
    destruct (get_node s e) as [xe|] eqn:Hg; [|sh_same; fl_off].
    destruct (queue_of xe _); (split; [|split; [now apply EmRead|fl_off]]); [sh0|shn Hg].
  - (* PGHw *) destruct (get_node s h) as [x|] eqn:Hg; [|sh_same; fl_off].
    destruct (match nd_cursor x with Some c => c | None => (0, 0) end) as [seg del].
    destruct r as [a|].
    + sh_node Hg; fl_off.
    + destruct (seg <? cur).
      * pose proof (get_loop_spec s p (PGHw h e cur None) h x (seg + 1) 0 Hg) as L. now destruct (get_loop x h (seg + 1) 0).
      * sh_node Hg; fl_off.
  - (* PLTick *) destruct (get_node s n) eqn:Hg; sh_same; [fl_enter|fl_off].
  - (* PMTick *) destruct (get_node s n) as [x|]; [destruct (owned _ _)|]; sh_same; fl_off.
  - (* PMCount *) destruct (get_node s n) as [x|]; [destruct (_ <? _)|]; sh_same; fl_off.
Qed.

Lemma exec_pc_shape cfg s p pc s1 out : exec_pc cfg s p pc = (s1, out) -> shape s pc s1.
Proof. intros H. apply (exec_pc_spec _ _ _ _ _ _ H). Qed.

Lemma exec_pc_emits cfg s p pc s1 out : exec_pc cfg s p pc = (s1, out) -> emits s p pc s1 (out_subs out).
Proof. intros H. apply (exec_pc_spec _ _ _ _ _ _ H). Qed.

Lemma rok_next (G : mstate -> N -> N -> Prop) cfg s p pc s1 out :
  entry G s -> rok G s (Some pc) -> exec_pc cfg s p pc = (s1, out) -> rok G s1 (out_pc out).
Proof. intros He Hp H. now apply (exec_pc_spec _ _ _ _ _ _ H). Qed.

Lemma exec_pc_writes cfg s p pc s1 out n seg q a :
  exec_pc cfg s p pc = (s1, out) -> In (EW n seg q a) (out_subs out) -> exists att, pc = PSpawn n seg att.
Proof.
  intros H Hin. destruct (exec_pc_emits _ _ _ _ _ _ H) as [_|e sg b _|e sg att x -> _ _|c k -> _]; cbn [In] in Hin;
    try (destruct Hin as [E|[]]; inversion E; subst); [contradiction|eauto].
Qed.

Lemma shape_log s pc s1 : shape s pc s1 ->
  s_log s1 = s_log s \/ exists c k, pc = PPropose c k /\ s_log s1 = s_log s ++ [c].
Proof.
  intros [->|e x x' Hg -> _ _|c k -> ->]; cbn; eauto.
Qed.

Definition same_recs (s s1 : cst) : Prop :=
  s_clients s1 = s_clients s /\ s_lease s1 = s_lease s /\ s_mon s1 = s_mon s.

Lemma shape_tasks s pc s1 : shape s pc s1 -> same_recs s s1.
Proof. intros [->|e x x' Hg -> _ _|c k -> ->]; repeat split. Qed.

Lemma pc_of_tasks s s' : same_recs s s' -> forall a, pc_of s' a = pc_of s a.
Proof. intros (E1 & E2 & E3) a. destruct a; cbn [pc_of]; rewrite ?E1, ?E2, ?E3; reflexivity. Qed.

(* one node is replaced keeping metadata and apply pointer, or the log grows *)
Lemma shape_nodes_ok s pc s1 : nodes_ok s -> shape s pc s1 -> nodes_ok s1.
Proof.
  intros Hn [->|e x x' Hg -> [Hm Ha] _|c k -> ->]; auto.
  - intros n y Hy. destruct (get_set_inv _ _ _ _ _ Hy) as [[-> ->]|[_ Hy0]]; [|apply (Hn _ _ Hy0)].
    destruct (Hn _ _ Hg) as [B C]. split; cbn [set_node s_log]; rewrite ?Hm, ?Ha; assumption.
  - intros n x Hg. destruct (Hn n x Hg) as [B C]. split; cbn [s_log].
    + now rewrite firstn_app_le.
    + rewrite app_length. cbn. lia.
Qed.

Lemma rok_nodes_eq (G : mstate -> N -> N -> Prop) s s' o : s_nodes s' = s_nodes s -> rok G s o -> rok G s' o.
Proof. intros E H pc e x Ho Hr Hg. unfold get_node in Hg. rewrite E in Hg. now apply (H pc e x). Qed.

(* node n gets a new metadata (apply@n) or a new lease set (restart@n): clauses about other nodes
   are untouched; a task inside n's region needs G to survive the new metadata and the new lease
   to be the old one or good *)
Lemma rok_node (G : mstate -> N -> N -> Prop) s n x x' o :
  get_node s n = Some x ->
  (in_region n o = true -> forall sg, G (nd_meta x) n sg -> G (nd_meta x') n sg) ->
  (in_region n o = true -> forall sg, nd_lease x' = Some sg -> nd_lease x = Some sg \/ G (nd_meta x') n sg) ->
  rok G s o -> rok G (set_node s n x') o.
Proof.
  intros Hg Hm Hl Ho q e y -> Hr Hy sg Hc.
  destruct (get_set_inv _ _ _ _ _ Hy) as [[-> ->]|[_ Hy0]]; [|now apply (Ho q e y)].
  assert (R : in_region n (Some q) = true) by (cbn [in_region]; now rewrite Hr, N.eqb_refl).
  destruct q; cbn [claim] in Hc; try exact (Hm R _ (Ho _ n x eq_refl Hr Hg sg Hc)).
  destruct (Hl R _ Hc) as [E|E]; [exact (Hm R _ (Ho _ n x eq_refl Hr Hg sg E))|exact E].
Qed.

(* A step of shape [pc -> s1] by a task whose own clause holds keeps the clause of every task,
   with no condition on who is where: only PUlWrite changes a lease, and what it installs is good
   by the writer's clause. *)
Lemma rok_shape (G : mstate -> N -> N -> Prop) s pc s1 o : shape s pc s1 -> rok G s (Some pc) -> rok G s o -> rok G s1 o.
Proof.
  intros [->|e x x' Hg -> [Hm _] Hl|c k -> ->] Hp Ho; [exact Ho| |exact Ho].
  apply (rok_node G s e x x' o Hg); [intros _ sg; now rewrite Hm| |exact Ho].
  intros _ sg Hs. destruct Hl as [Hl|(ex & k & -> & Hl)]; [left; congruence|right].
  rewrite Hm. apply (Hp _ e x eq_refl eq_refl Hg). cbn [claim]. congruence.
Qed.

Lemma rok_spawn (G : mstate -> N -> N -> Prop) s e seg att x :
  rok G s (Some (PSpawn e seg att)) -> get_node s e = Some x -> G (nd_meta x) e seg.
Proof. intros Hp Hg. exact (Hp _ e x eq_refl eq_refl Hg seg eq_refl). Qed.

(* the engine write passes both acceptors when the writer's metadata, which is the replay of
   its applied prefix, neither seals the segment nor assigns it to another node *)
Lemma exec_pc_fscan cfg s p pc s1 out :
  nodes_ok s -> rok led s (Some pc) -> exec_pc cfg s p pc = (s1, out) ->
  forall rest, c23_foreign_scan (s_log s) (out_subs out ++ rest) = c23_foreign_scan (s_log s1) rest.
Proof.
  intros Hn Hp H rest.
  destruct (exec_pc_emits _ _ _ _ _ _ H) as [El|e seg a El|e seg att x -> Hg El|c k -> El]; cbn [c23_foreign_scan app]; rewrite El; auto.
  destruct (Hn _ _ Hg) as [B C]. now rewrite <- B, (led_not_foreign _ _ _ (rok_spawn _ _ _ _ _ _ Hp Hg)).
Qed.

Lemma exec_pc_scan cfg s p pc s1 out :
  nodes_ok s -> rok led s (Some pc) -> exec_pc cfg s p pc = (s1, out) ->
  (forall n seg q a x, In (EW n seg q a) (out_subs out) -> get_node s n = Some x -> sealed_in (nd_meta x) seg = false) ->
  forall rest, c23_scan (s_log s) (out_subs out ++ rest) = c23_scan (s_log s1) rest.
Proof.
  intros Hn Hp H Hu rest.
  destruct (exec_pc_emits _ _ _ _ _ _ H) as [El|e seg a El|e seg att x -> Hg El|c k -> El]; cbn [c23_scan app]; rewrite El; auto.
  - destruct (Hn _ _ Hg) as [B C].
    replace (Nat.ltb (length (s_log s)) (nd_applied x)) with false by (symmetry; now apply Nat.ltb_ge).
    now rewrite <- B, (Hu _ _ _ _ x (or_introl eq_refl) Hg), (led_not_foreign _ _ _ (rok_spawn _ _ _ _ _ _ Hp Hg)).
  - now rewrite Nat.eqb_refl.
Qed.

Lemma rok_invoke (G : mstate -> N -> N -> Prop) s o : entry G s -> rok G s (out_pc (invoke s o)).
Proof.
  intros He. destruct o as [h|h]; cbn [invoke].
  - destruct (get_node s h) as [x|] eqn:Hg; [|apply rok_off; reflexivity].
    destruct (topic_of (nd_meta x)) as [t|]; [|apply rok_off; reflexivity].
    destruct (t_leader t =? h); [now apply rok_enter_ul|]. destruct (has_addr _ _); apply rok_off; reflexivity.
  - destruct (get_node s h); apply rok_off; reflexivity.
Qed.

Lemma invoke_subs s o : out_subs (invoke s o) = [].
Proof.
  destruct o as [h|h]; cbn [invoke]; destruct (get_node s h) as [x|]; try reflexivity.
  destruct (topic_of (nd_meta x)) as [t|]; [|reflexivity]. destruct (t_leader t =? h); [reflexivity|]. now destruct (has_addr _ _).
Qed.

Lemma nth_set_nth_same {A} (a : A) : forall l i c, nth_error l i = Some c -> nth_error (set_nth i a l) i = Some a.
Proof.
  induction l as [|y l IH]; intros [|i] c H; cbn in *; try discriminate; [reflexivity|]. eapply IH; eauto.
Qed.

Lemma nth_set_nth_other {A} (a : A) : forall l i j, j <> i -> nth_error (set_nth i a l) j = nth_error l j.
Proof.
  induction l as [|y l IH]; intros [|i] [|j] H; cbn; try reflexivity; try congruence.
  apply IH. congruence.
Qed.

Lemma cev_eq_dec (a b : cev) : {a = b} + {a <> b}.
Proof. decide equality; try apply N.eq_dec; apply Nat.eq_dec. Qed.

Definition is_task (ev : cev) : bool := match ev with EvC _ | EvL _ | EvM _ => true | _ => false end.

(* the acting task's record, seen through the event that names it: its client record, the
   payload of the client's current operation, that operation, and what the token carries around
   the sub-events of the step (the invocation before, the answer after) *)
Definition tcl (s : cst) (ev : cev) : option client := match ev with EvC i => nth_error (s_clients s) i | _ => None end.
Definition tpay (s : cst) (ev : cev) : cpayload :=
  match ev, tcl s ev with EvC i, Some c => (N.of_nat i, cl_k c) | _, _ => (0, 0) end.
Definition top (s : cst) (ev : cev) : option cop := match tcl s ev with Some c => hd_error (cl_ops c) | None => None end.
Definition tpre (s : cst) (ev : cev) : list csub :=
  match pc_of s ev, top s ev with
  | None, Some o => [EInv (fst (tpay s ev)) (snd (tpay s ev)) (is_put o) (op_node o)]
  | _, _ => []
  end.
Definition tpost (s : cst) (ev : cev) (out : outcome) : list csub :=
  match ev, out with EvC _, OFinish r _ => [EResp (fst (tpay s ev)) (snd (tpay s ev)) r] | _, _ => [] end.
Definition next_client (out : outcome) (c : client) : client :=
  match out_pc out with
  | Some pc' => mkClient (cl_ops c) (cl_k c) (Some pc')
  | None => mkClient (tl (cl_ops c)) (cl_k c + 1) None
  end.

Definition next_clients (ev : cev) (out : outcome) (cs cs' : list client) : Prop :=
  forall j, nth_error cs' j = if cev_eq_dec ev (EvC j) then option_map (next_client out) (nth_error cs j) else nth_error cs j.

(* A task step that moves is one [exec_pc] (or the invocation) from s to s1 with outcome [out];
   s' differs from s1 only in the acting task's record: its pc follows [out], a client that is
   answered moves on to its next operation; every other task keeps its record. *)
Record anatomy (cfg : ccfg) (s : cst) (ev : cev) (s' : cst) (t : ctok) (s1 : cst) (out : outcome) : Prop := {
  an_src : match pc_of s ev with
           | Some pc => exec_pc cfg s (tpay s ev) pc = (s1, out)
           | None => exists o, top s ev = Some o /\ s1 = s /\ out = invoke s o
           end;
  an_subs : snd t = tpre s ev ++ out_subs out ++ tpost s ev out;
  an_nodes : s_nodes s' = s_nodes s1;
  an_log : s_log s' = s_log s1;
  an_top : match ev with EvC _ => top s ev <> None | _ => True end;
  (* middle case: step_bg's OFinish arm leaves the loop's pc as it is; no pc of a loop finishes *)
  an_pc : pc_of s' ev = match out_pc out, ev with None, EvC _ => None | None, _ => pc_of s ev | o, _ => o end;
  an_others : forall b, b <> ev -> pc_of s' b = pc_of s b;
  an_clients : next_clients ev out (s_clients s) (s_clients s')
}.

(* a client's turn that moves: the outcome of its exec_pc, or of the invocation behind its EInv,
   decides the new record; an answer is appended on OFinish *)
Lemma step_client_cases cfg s i s' t :
  step_client cfg s i = (s', t) ->
  (s' = s /\ snd t = []) \/
  exists c o rest s1 out pre,
    nth_error (s_clients s) i = Some c /\ cl_ops c = o :: rest /\
    match cl_pc c with
    | Some pc => exec_pc cfg s (N.of_nat i, cl_k c) pc = (s1, out) /\ pre = []
    | None => s1 = s /\ out = invoke s o /\ pre = [EInv (N.of_nat i) (cl_k c) (is_put o) (op_node o)]
    end /\
    s' = set_clients s1 (set_nth i match out_pc out with
                                   | Some pc' => mkClient (o :: rest) (cl_k c) (Some pc')
                                   | None => mkClient rest (cl_k c + 1) None
                                   end (s_clients s1)) /\
    snd t = pre ++ out_subs out ++ match out with OFinish r _ => [EResp (N.of_nat i) (cl_k c) r] | _ => [] end.
Proof.
  unfold step_client. intros H.
  destruct (nth_error (s_clients s) i) as [c|]; [|inversion H; now left].
  destruct (cl_ops c) as [|o rest] eqn:Hops; [inversion H; now left|]. right. exists c, o, rest.
  destruct (cl_pc c) as [pc|].
  - destruct (exec_pc cfg s (N.of_nat i, cl_k c) pc) as [s1 out]. exists s1, out, [].
    destruct out; inversion H; cbn [out_pc out_subs snd app]; rewrite ?app_nil_r; repeat split; exact Hops.
  - exists s, (invoke s o), [EInv (N.of_nat i) (cl_k c) (is_put o) (op_node o)].
    destruct (invoke s o); inversion H; cbn [out_pc out_subs snd app]; rewrite ?app_nil_r; repeat split; exact Hops.
Qed.

Lemma client_anatomy cfg s i s' t :
  step_client cfg s i = (s', t) ->
  (s' = s /\ snd t = []) \/ exists s1 out, anatomy cfg s (EvC i) s' t s1 out.
Proof.
  intros H. destruct (step_client_cases _ _ _ _ _ H) as [L|(c & o & rest & s1 & out & pre & Hc & Hops & Src & -> & Hs)]; [now left|right].
  exists s1, out.
  assert (Hpc : pc_of s (EvC i) = cl_pc c) by (cbn [pc_of]; now rewrite Hc).
  assert (Hpay : tpay s (EvC i) = (N.of_nat i, cl_k c)) by (unfold tpay, tcl; now rewrite Hc).
  assert (Htop : top s (EvC i) = Some o) by (unfold top, tcl; now rewrite Hc, Hops).
  assert (T : same_recs s s1).
  { destruct (cl_pc c); [exact (shape_tasks _ _ _ (exec_pc_shape _ _ _ _ _ _ (proj1 Src)))|destruct Src as (-> & _); repeat split]. }
  destruct T as (T1 & T2 & T3).
  split; cbn [set_clients s_nodes s_log s_clients]; auto.
  - rewrite Hpc, Hpay, Htop. destruct (cl_pc c); [tauto|]. exists o. tauto.
  - rewrite Hs. unfold tpre, tpost. rewrite Hpc, Hpay, Htop. destruct (cl_pc c); [destruct Src as [_ ->]|destruct Src as (_ & _ & ->)]; reflexivity.
  - now rewrite Htop.
  - cbn [pc_of set_clients s_clients]. rewrite T1, (nth_set_nth_same _ _ _ _ Hc). now destruct (out_pc out).
  - intros b Hb. destruct b as [j|m|m|m|m]; cbn [pc_of set_clients s_clients s_lease s_mon]; rewrite ?T1, ?T2, ?T3; auto.
    rewrite nth_set_nth_other by congruence. reflexivity.
  - intros j. rewrite T1. destruct (cev_eq_dec (EvC i) (EvC j)) as [E|E].
    + inversion E; subst j. rewrite (nth_set_nth_same _ _ _ _ Hc), Hc. cbn [option_map]. unfold next_client. rewrite Hops. reflexivity.
    + rewrite nth_set_nth_other by congruence. reflexivity.
Qed.

Lemma step_bg_cases cfg s n mon s' t :
  step_bg cfg s n mon = (s', t) ->
  (s' = s /\ snd t = []) \/
  exists pc s1 out, lookup N.compare n (if mon then s_mon s else s_lease s) = Some pc /\
    exec_pc cfg s (0, 0) pc = (s1, out) /\
    s' = match out_pc out with Some pc' => (if mon then set_mon_pc else set_lease_pc) s1 n pc' | None => s1 end /\
    snd t = out_subs out.
Proof.
  unfold step_bg. intros H.
  destruct (lookup N.compare n _) as [pc|] eqn:Hl; [|inversion H; now left]. right.
  destruct (exec_pc cfg s (0, 0) pc) as [s1 out] eqn:He. exists pc, s1, out. destruct out; inversion H; subst; repeat split; assumption.
Qed.

Lemma bg_anatomy cfg s n mon s' t :
  step_bg cfg s n mon = (s', t) ->
  (s' = s /\ snd t = []) \/ exists s1 out, anatomy cfg s (if mon then EvM n else EvL n) s' t s1 out.
Proof.
  intros H. destruct (step_bg_cases _ _ _ _ _ _ H) as [L|(pc & s1 & out & Hl & He & -> & Hs)]; [now left|right].
  exists s1, out. pose proof (shape_tasks _ _ _ (exec_pc_shape _ _ _ _ _ _ He)) as T. pose proof T as (T1 & T2 & T3).
  assert (Hpc : pc_of s (if mon then EvM n else EvL n) = Some pc) by (destruct mon; exact Hl).
  assert (Hpay : tpay s (if mon then EvM n else EvL n) = (0, 0)) by (now destruct mon).
  assert (Hpost : tpost s (if mon then EvM n else EvL n) out = []) by (now destruct mon).
  split.
  - now rewrite Hpc, Hpay.
  - unfold tpre. now rewrite Hs, Hpc, Hpost, app_nil_r.
  - destruct (out_pc out), mon; reflexivity.
  - destruct (out_pc out), mon; reflexivity.
  - now destruct mon.
  - destruct (out_pc out) as [pc'|].
    + destruct mon; cbn [pc_of set_mon_pc set_lease_pc s_mon s_lease]; apply (lookup_ins_same N_cmp_ok).
    + destruct mon; apply (pc_of_tasks _ _ T).
  - intros b Hb. destruct (out_pc out) as [pc'|].
    + destruct mon; destruct b as [j|m|m|m|m]; cbn [pc_of set_mon_pc set_lease_pc s_clients s_mon s_lease];
        rewrite ?T1, ?T2, ?T3; auto; apply (lookup_ins_other N_cmp_ok); congruence.
    + apply (pc_of_tasks _ _ T).
  - intros j. replace (s_clients _) with (s_clients s) by (destruct (out_pc out), mon; cbn; congruence).
    destruct mon; (destruct (cev_eq_dec _ _); [discriminate|reflexivity]).
Qed.

Lemma task_anatomy cfg s ev s' t :
  is_task ev = true -> cl_step cfg s ev = (s', t) ->
  (s' = s /\ snd t = []) \/ exists s1 out, anatomy cfg s ev s' t s1 out.
Proof.
  destruct ev as [i|n|n|n|n]; cbn [is_task cl_step]; try discriminate; intros _ H.
  - now apply client_anatomy.
  - apply (bg_anatomy cfg s n false); exact H.
  - apply (bg_anatomy cfg s n true); exact H.
Qed.

Lemma pc_of_set_node s n x a : pc_of (set_node s n x) a = pc_of s a.
Proof. destruct a; reflexivity. Qed.

(* apply@n and restart@n: nothing is emitted; one node gets the next command applied, or its
   lease set recomputed from its metadata *)
Lemma env_step cfg s e s' t : is_task e = false -> cl_step cfg s e = (s', t) ->
  snd t = [] /\ (s' = s \/ exists n x x', get_node s n = Some x /\ s' = set_node s n x' /\
    ((exists c, e = EvA n /\ nth_error (s_log s) (nd_applied x) = Some c /\
                x' = with_meta x (fst (apply_cmd_fx (nd_meta x) c)) (S (nd_applied x)))
     \/ (same_meta x x' /\ nd_lease x' = owned (nd_meta x) n))).
Proof.
  destruct e as [i|n|n|n|n]; try discriminate; intros _; cbn [cl_step].
  - unfold Cluster.step_apply. destruct (get_node s n) as [x|] eqn:Hg; [|intros H; inversion H; auto].
    destruct (nth_error (s_log s) (nd_applied x)) as [c|] eqn:Hc; intros H; inversion H; [|auto].
    split; [reflexivity|right]. exists n, x, (with_meta x (fst (apply_cmd_fx (nd_meta x) c)) (S (nd_applied x))). eauto 8.
  - unfold step_restart. destruct (get_node s n) as [x|] eqn:Hg; [|intros H; inversion H; auto].
    destruct (_ && _); intros H; inversion H; [|auto].
    split; [reflexivity|right]. do 3 eexists. split; [exact Hg|]. split; [reflexivity|]. right. split; [split|]; reflexivity.
Qed.

Lemma cl_step_nodes_ok cfg s e s' t : nodes_ok s -> cl_step cfg s e = (s', t) -> nodes_ok s'.
Proof.
  intros Hn H. destruct (is_task e) eqn:Ht.
  - destruct (task_anatomy _ _ _ _ _ Ht H) as [[-> _]|(s1 & out & A)]; [exact Hn|].
    intros n x Hg. unfold get_node in Hg. rewrite (an_nodes _ _ _ _ _ _ _ A) in Hg. rewrite (an_log _ _ _ _ _ _ _ A).
    pose proof (an_src _ _ _ _ _ _ _ A) as Src.
    destruct (pc_of s e) as [pc|]; [|destruct Src as (o & _ & -> & _); exact (Hn n x Hg)].
    exact (shape_nodes_ok _ _ _ Hn (exec_pc_shape _ _ _ _ _ _ Src) n x Hg).
  - destruct (env_step _ _ _ _ _ Ht H) as [_ [->|(n & x & x' & Hg & -> & Hx)]]; [exact Hn|].
    intros e0 y Hy. destruct (get_set_inv _ _ _ _ _ Hy) as [[-> ->]|[_ Hy0]]; [|apply (Hn _ _ Hy0)].
    destruct (Hn _ _ Hg) as [B C]. destruct Hx as [(c & _ & Hc & ->)|[[Hm Ha] _]]; split; cbn [with_meta nd_meta nd_applied set_node s_log].
    + rewrite (firstn_snoc_nth _ _ _ Hc), replay_snoc, <- B. reflexivity.
    + apply nth_error_Some. congruence.
    + now rewrite Hm, Ha.
    + now rewrite Ha.
Qed.

Record InvG (G : mstate -> N -> N -> Prop) (s : cst) : Prop := { ig_nodes : nodes_ok s; ig_pcs : forall a, rok G s (pc_of s a) }.

(* The invariant survives a step, if G survives the metadata that apply@n installs for the
   tasks inside n's region.  A task step: the acting task by [rok_next], the others by [rok_shape]. *)
Lemma InvG_step (G : mstate -> N -> N -> Prop) cfg s e s' t :
  entry G s ->
  (forall n x c a sg, e = EvA n -> get_node s n = Some x -> in_region n (pc_of s a) = true ->
     G (nd_meta x) n sg -> G (fst (apply_cmd_fx (nd_meta x) c)) n sg) ->
  InvG G s -> cl_step cfg s e = (s', t) -> InvG G s'.
Proof.
  intros He Ha [Hn Hp] H. split; [exact (cl_step_nodes_ok _ _ _ _ _ Hn H)|]. intros a. destruct (is_task e) eqn:Ht.
  - destruct (task_anatomy _ _ _ _ _ Ht H) as [[-> _]|(s1 & out & A)]; [apply Hp|].
    apply (rok_nodes_eq G s1); [exact (an_nodes _ _ _ _ _ _ _ A)|].
    assert (K : rok G s1 (out_pc out) /\ forall o, rok G s o -> rok G s1 o).
    { pose proof (an_src _ _ _ _ _ _ _ A) as Src. pose proof (Hp e) as Hpe.
      destruct (pc_of s e) as [pc|]; [|destruct Src as (o & _ & -> & ->); split; [now apply rok_invoke|auto]].
      split; [exact (rok_next G _ _ _ _ _ _ He Hpe Src)|]. intros o. exact (rok_shape G _ _ _ o (exec_pc_shape _ _ _ _ _ _ Src) Hpe). }
    destruct K as [K1 K2].
    destruct (cev_eq_dec a e) as [->|Hne]; [|rewrite (an_others _ _ _ _ _ _ _ A _ Hne); apply K2, Hp].
    rewrite (an_pc _ _ _ _ _ _ _ A). destruct (out_pc out) as [pc'|] eqn:Eo; [exact K1|].
    destruct e; try apply K2, Hp; apply rok_off; reflexivity.
  - destruct (env_step _ _ _ _ _ Ht H) as [_ [->|(n & x & x' & Hg & -> & Hx)]]; [apply Hp|].
    rewrite pc_of_set_node. apply (rok_node G s n x); [exact Hg| | |apply Hp].
    + destruct Hx as [(c & -> & _ & ->)|[[Hm _] _]]; intros R sg; [exact (Ha n x c a sg eq_refl Hg R)|now rewrite Hm].
    + destruct Hx as [(c & _ & _ & ->)|[[Hm _] Hl]]; intros _ sg; [now left|]. rewrite Hl, Hm. right. now apply He.
Qed.

(* a fold over the events, started from a command log, that looks only at EW / EX / EL *)
Definition skips {R} (f : list cmd -> list csub -> R) : Prop :=
  forall log rest, (forall c k b n, f log (EInv c k b n :: rest) = f log rest) /\
                   (forall c k r, f log (EResp c k r :: rest) = f log rest).

Lemma skips_scan : skips c23_scan.
Proof. split; reflexivity. Qed.
Lemma skips_fscan : skips c23_foreign_scan.
Proof. split; reflexivity. Qed.

Lemma skips_tpre {R} (f : list cmd -> list csub -> R) s ev log rest : skips f -> f log (tpre s ev ++ rest) = f log rest.
Proof. intros Hf. unfold tpre. destruct (pc_of s ev); [reflexivity|]. destruct (top s ev); [apply Hf|reflexivity]. Qed.
Lemma skips_tpost {R} (f : list cmd -> list csub -> R) s ev out log rest : skips f -> f log (tpost s ev out ++ rest) = f log rest.
Proof. intros Hf. destruct ev, out; try reflexivity. apply Hf. Qed.

(* A fold over the events follows a step of cl_step as it follows the acting exec_pc. *)
Lemma cl_step_scan {R} (f : list cmd -> list csub -> R) cfg s e s' t :
  skips f -> cl_step cfg s e = (s', t) ->
  (forall pc p s1 out, pc_of s e = Some pc -> exec_pc cfg s p pc = (s1, out) -> (forall u, In u (out_subs out) -> In u (snd t)) ->
     forall rest, f (s_log s) (out_subs out ++ rest) = f (s_log s1) rest) ->
  forall rest, f (s_log s) (snd t ++ rest) = f (s_log s') rest.
Proof.
  intros Hf H K. destruct (is_task e) eqn:Ht.
  - destruct (task_anatomy _ _ _ _ _ Ht H) as [[-> Hs]|(s1 & out & A)]; [intros rest; now rewrite Hs|].
    intros rest. rewrite (an_subs _ _ _ _ _ _ _ A), <- !app_assoc, (skips_tpre f _ _ _ _ Hf), (an_log _ _ _ _ _ _ _ A),
      <- (skips_tpost f s e out _ rest Hf). generalize (tpost s e out ++ rest).
    pose proof (an_src _ _ _ _ _ _ _ A) as Src.
    destruct (pc_of s e) as [pc|] eqn:Hpc; [|destruct Src as (o & _ & -> & ->); intros r; now rewrite invoke_subs].
    apply (K pc _ s1 out eq_refl Src). intros u Hu. rewrite (an_subs _ _ _ _ _ _ _ A).
    apply in_or_app. right. apply in_or_app. now left.
  - destruct (env_step _ _ _ _ _ Ht H) as [-> [->|(n & x & x' & _ & -> & _)]]; reflexivity.
Qed.

Lemma entry_led s : nodes_ok s -> entry led s.
Proof. intros Hn e x sg Hg. apply led_owned, (node_ok_ginv _ _ (Hn _ _ Hg)). Qed.

Lemma InvLed_step cfg s e s' t : InvG led s -> cl_step cfg s e = (s', t) -> InvG led s'.
Proof.
  intros Hi. apply (InvG_step led); [exact (entry_led _ (ig_nodes _ _ Hi))| |exact Hi].
  intros n x c a sg _ Hg _. apply led_step, (node_ok_ginv _ _ (ig_nodes _ _ Hi _ _ Hg)).
Qed.

Lemma cl_step_fscan cfg s e s' t : InvG led s -> cl_step cfg s e = (s', t) ->
  forall rest, c23_foreign_scan (s_log s) (snd t ++ rest) = c23_foreign_scan (s_log s') rest.
Proof.
  intros [Hn Hp] H. apply (cl_step_scan _ _ _ _ _ _ skips_fscan H). intros pc p s1 out Hpc Hx _.
  specialize (Hp e). rewrite Hpc in Hp. exact (exec_pc_fscan _ _ _ _ _ _ Hn Hp Hx).
Qed.

Lemma init_node_of cfg n x : get_node (cl_init cfg) n = Some x -> x = init_node cfg n /\ In n (node_ids cfg).
Proof.
  intros Hg. unfold get_node, cl_init in Hg. cbn [s_nodes] in Hg.
  apply (lookup_In N_cmp_ok) in Hg. apply In_of_list in Hg. apply in_map_iff in Hg.
  destruct Hg as (n' & E & Hin). inversion E. subst. auto.
Qed.

Lemma init_client_idle cfg i : pc_of (cl_init cfg) (EvC i) = None.
Proof.
  cbn [pc_of cl_init s_clients]. destruct (nth_error _ i) as [c|] eqn:E; [|reflexivity].
  apply nth_error_In, in_map_iff in E. now destruct E as (ops & <- & _).
Qed.

Lemma init_pc_rest cfg a : pc_at_rest (pc_of (cl_init cfg) a) = true.
Proof.
  destruct a as [i|n|n|n|n]; [now rewrite init_client_idle|..]; cbn [pc_of cl_init s_lease s_mon]; try reflexivity.
  (* the two tables of loops alike *)
  all: destruct (lookup _ _ _) as [pc|] eqn:E; [|reflexivity].
  all: apply (lookup_In N_cmp_ok), In_of_list, in_map_iff in E; now destruct E as (n' & [= _ <-] & _).
Qed.

Lemma rest_off o e : pc_at_rest o = true -> in_region e o = false.
Proof. destruct o as [[]|]; try discriminate; reflexivity. Qed.

Lemma rok_init (G : mstate -> N -> N -> Prop) cfg a : rok G (cl_init cfg) (pc_of (cl_init cfg) a).
Proof. apply rok_off. intros e. apply rest_off, init_pc_rest. Qed.

Lemma nodes_ok_init cfg : nodes_ok (cl_init cfg).
Proof.
  intros n x Hg. destruct (init_node_of _ _ _ Hg) as [-> _].
  split; cbn [init_node nd_meta nd_applied cl_init s_log]; [now rewrite firstn_all|lia].
Qed.

Lemma InvG_init (G : mstate -> N -> N -> Prop) cfg : InvG G (cl_init cfg).
Proof. split; [apply nodes_ok_init|apply rok_init]. Qed.

Lemma run_foreign cfg sched : forall s, InvG led s ->
  c23_foreign_scan (s_log s) (events (fst (cl_run cfg s sched))) = true.
Proof.
  induction sched as [|e r IH]; intros s Hi; cbn [cl_run]; [reflexivity|].
  destruct (cl_step cfg s e) as [s1 t] eqn:E.
  specialize (IH s1 (InvLed_step _ _ _ _ _ Hi E)). destruct (cl_run cfg s1 r) as [ts s2]. cbn [fst] in *.
  unfold events in *. cbn [flat_map]. now rewrite (cl_step_fscan _ _ _ _ _ Hi E).
Qed.

Lemma never_foreign cfg sched : c23_foreign_ok cfg (cl_trace cfg sched) = true.
Proof.
  unfold c23_foreign_ok, cl_trace. change (boot_log cfg) with (s_log (cl_init cfg)).
  apply run_foreign, InvG_init.
Qed.
