(* EnginePos.v — vocabulary of positions.  For the restart theorems (C06/C09): the non-empty blocks of a
   topic in the order a restart rebuilds them ([memne]), the entries behind a position in such a block list
   ([from]), positions that name a block a restart would not rebuild ([stale_p], [stale_tail]), how the block
   list and the topic state grow under appends ([MG], [Grow]).  For the read side: what "the persisted position
   IS the reader's cursor" means ([PosIs]), and one leg of a read ([Leg], [Since]). *)
From W Require Import model.Base model.Engine proofs.EngineWF proofs.EngineInv.

Definition nonempty_b (b : blk) : bool := match b_ents b with [] => false | _ => true end.

(* the topic's blocks that hold entries, oldest first: what a restart rebuilds as the chain *)
Definition memne (ts : tstate) : list blk := filter nonempty_b (chain_of ts ++ w_list ts).

(* entries behind position (block j, in-block offset o) of a block list *)
Definition from (c : Cfg) (bl : list blk) (j : nat) (o : N) : list entry :=
  match skipn j bl with
  | b :: r => ents_from c (b_ents b) o ++ chain_ents r
  | [] => []
  end.

(* the block a persisted position names (a tail position: found by id, block 0 if no block has the id; a sealed
   one: the index cut at the length, as [clamp_idx] does in the model's hydration) and the offset in it, cut at
   the block's fill *)
Definition res (bl : list blk) (p : ppos) : nat * N :=
  let j := if p_tail p then match find_id bl (p_a p) 0 with Some j => j | None => 0%nat end
           else clamp_idx (p_a p) (length bl) in
  (j, match used_at bl j with Some u => N.min (p_off p) u | None => 0 end).

(* a tail position whose block is not among the blocks a restart rebuilds *)
Definition stale_p (bl : list blk) (p : ppos) : bool :=
  p_tail p && negb (existsb (fun b => b_id b =? p_a p) bl).

Definition stale_tail (s : st) : bool :=
  existsb (fun q : N * tstate =>
    match ts_index (snd q) with Some p => stale_p (memne (snd q)) p | None => false end) (s_topics s).

(* growth of a block list by appended entries [es]: blocks keep their place and id, only the
   last one may receive entries, new blocks come behind *)
Definition MG (M M' : list blk) (es : list entry) : Prop :=
  (length M <= length M')%nat /\
  (forall j b, nth_error M j = Some b ->
     exists b' e1, nth_error M' j = Some b' /\ b_id b' = b_id b /\ b_ents b' = b_ents b ++ e1 /\
                   ((S j < length M)%nat -> e1 = [])) /\
  chain_ents M' = chain_ents M ++ es.

Definition Grow (ts ts' : tstate) : Prop :=
  (exists q, chain_of ts' = chain_of ts ++ q /\ Forall (fun b => b_ents b <> []) q) /\
  exists es, stream ts' = stream ts ++ es /\ MG (memne ts) (memne ts') es.

(* the persisted position [p] is exactly the cursor of the (hydrated) reader of [ts]; a tail
   position is only ever persisted for a writer block that holds entries (model read_next: the provisional
   persist asks for [0 <? b_used w], and a consuming tail read has just read an entry) *)
Definition PosIs (ts : tstate) (p : ppos) : Prop :=
  if p_tail p
  then exists w, ts_writer ts = Some w /\ p_a p = b_id w /\
                 r_idx (reader_of ts) = length (chain_of ts) /\ p_off p = tail_start ts w /\ b_ents w <> []
  else p_a p = N.of_nat (r_idx (reader_of ts)) /\ (r_idx (reader_of ts) < length (chain_of ts))%nat /\
       p_off p = r_off (reader_of ts).

(* every sealed block of the chain holds entries (blocks sealed empty are retired) *)
Definition CNE (ts : tstate) : Prop := Forall (fun b => b_ents b <> []) (chain_of ts).

Lemma nonempty_b_true b : nonempty_b b = true <-> b_ents b <> [].
Proof. unfold nonempty_b. destruct (b_ents b); split; intros; congruence. Qed.

Lemma memne_cne ts : CNE ts -> memne ts = chain_of ts ++ filter nonempty_b (w_list ts).
Proof.
  intros H. unfold memne. rewrite filter_app. f_equal. apply filter_all.
  eapply Forall_impl; [|exact H]. intros b Hb. now apply nonempty_b_true.
Qed.

Lemma memne_tail ts w : CNE ts -> ts_writer ts = Some w -> b_ents w <> [] -> memne ts = chain_of ts ++ [w].
Proof.
  intros H Hw Hne. rewrite (memne_cne ts H). unfold w_list. rewrite Hw. cbn [filter].
  apply nonempty_b_true in Hne. now rewrite Hne.
Qed.

Lemma chain_ents_filter l : chain_ents (filter nonempty_b l) = chain_ents l.
Proof.
  induction l as [|b l IH]; cbn [filter]; [reflexivity|]. unfold nonempty_b at 1.
  destruct (b_ents b) eqn:E; unfold chain_ents in *; cbn [flat_map]; rewrite ?E, IH; reflexivity.
Qed.

Lemma chain_ents_memne ts : chain_ents (memne ts) = stream ts.
Proof.
  unfold memne, stream. rewrite chain_ents_filter, chain_ents_app. f_equal.
  unfold w_list, w_ents. destruct (ts_writer ts); cbn; [now rewrite app_nil_r|reflexivity].
Qed.

Lemma Grow_CNE ts ts' : Grow ts ts' -> CNE ts -> CNE ts'.
Proof. intros ((q & Hq & Hne) & _) H. unfold CNE. rewrite Hq. apply Forall_app. now split. Qed.

Lemma MG_refl M : MG M M [].
Proof.
  split; [lia|]. split; [|now rewrite app_nil_r].
  intros j b H. exists b, []. rewrite app_nil_r. auto.
Qed.

Lemma MG_trans M1 M2 M3 es1 es2 : MG M1 M2 es1 -> MG M2 M3 es2 -> MG M1 M3 (es1 ++ es2).
Proof.
  intros (L1 & P1 & C1) (L2 & P2 & C2). split; [lia|]. split; [|now rewrite C2, C1, app_assoc].
  intros j b Hj. destruct (P1 j b Hj) as (b2 & e1 & H2 & I2 & E2 & Z2).
  destruct (P2 j b2 H2) as (b3 & e2 & H3 & I3 & E3 & Z3).
  exists b3, (e1 ++ e2). split; [exact H3|]. split; [congruence|]. split; [now rewrite E3, E2, app_assoc|].
  intros Hl. rewrite (Z2 Hl), (Z3 ltac:(lia)). reflexivity.
Qed.

(* the AtLeastOnce counter [r_since] over one leg of a read ([bt]: a batch read).  A leg that persists leaves it
   (Strict) or resets it; one that consumes nothing leaves it; one that consumes without persisting is an
   AtLeastOnce read, and if it is a read_next it has counted one up and stays below the period.  (A consuming
   batch read in AtLeastOnce mode never persists, whatever the counter says.) *)
Definition Since (m : mode) (bt : bool) (T : tstate) (d : list entry) (b : bool) (T' : tstate) : Prop :=
  let s := r_since (reader_of T) in
  let s' := r_since (reader_of T') in
  if b then match m with Strict => s' = s | ALO _ => s' = 0 end
  else match d with
       | [] => s' = s
       | _ => exists n, m = ALO n /\ (bt = false -> s' = N.min (s + 1) u32_max /\ s' < N.max n 1)
       end.

(* one leg of a read: the reader moves over [d]; then the position [q], which is its cursor, is persisted ([b]),
   or the persisted position stays *)
Record Leg (c : Cfg) (nid : N) (m : mode) (bt : bool) (T : tstate) (d : list entry) (b : bool) (q : ppos) (T' : tstate) : Prop := {
  lg_read : Read c nid T d T';
  lg_index : ts_index T' = (if b then Some q else ts_index T);
  lg_pos : b = true -> PosIs T' q;
  lg_since : Since m bt T d b T'
}.

Lemma Leg_quiet c nid m bt T T' q : Read c nid T [] T' -> untouched T T' -> Leg c nid m bt T [] false q T'.
Proof. intros H (U1 & U2). constructor; [exact H|exact U1|discriminate|exact U2]. Qed.

(* the frame of a whole read, from its two legs *)
Lemma legs_Read c nid m bt T T1 T' d f q1 p q :
  Leg c nid m bt T [] f q1 T1 -> Leg c nid m bt T1 d p q T' -> Read c nid T d T'.
Proof. intros L1 L2. exact (Read_trans c nid T [] T1 d T' (lg_read _ _ _ _ _ _ _ _ _ L1) (lg_read _ _ _ _ _ _ _ _ _ L2)). Qed.
