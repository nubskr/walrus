(* DurableW.v — appends under the SyncEach protocol: an invariant between the protocol monitor
   (events only) and the durability state, preserved along every accepted trace, and the
   consequence: an acknowledged write is reflected in every power-loss outcome.
   [mstep_rel] says what a monitor step can do, as two protocols that share the names: [wal_step] on
   the record of one WAL file, [idx_step] on the record of one pair.  [WInv] has one clause per name
   ([WOne] for a WAL file; a name without record that is no pair's has never been used) and [Acked]
   for the acknowledged ids.  An event other than the directory fsync leaves alone every name it does
   not mention ([dframe] on the disk, [mstep_frame] in the monitor), so only the file it names needs
   an argument ([winv_by_frame]). *)
From W Require Import model.Base model.Durable proofs.ListP proofs.DurableP.

Definition known (m : dmstate) (g : N) : Prop := In g (map w_name (m_wal m)) \/ is_idx_name m g = true.

Definition idx_names (m : dmstate) : list (N * N) := map (fun i => (i_tmp i, i_fin i)) (m_idx m).
Lemma is_idx_name_names m f :
  is_idx_name m f = existsb (fun p => (fst p =? f) || (snd p =? f)) (idx_names m).
Proof.
  unfold is_idx_name, idx_names. induction (m_idx m) as [|i l IH]; cbn; [reflexivity|]. now rewrite IH.
Qed.

Lemma is_idx_in m r : In r (m_idx m) -> is_idx_name m (i_tmp r) = true /\ is_idx_name m (i_fin r) = true.
Proof.
  intros H. unfold is_idx_name. split; apply existsb_exists; exists r; (split; [assumption|]); rewrite N.eqb_refl; [reflexivity|apply orb_true_r].
Qed.

Lemma find_wal_some m f w : find_wal m f = Some w -> In w (m_wal m) /\ w_name w = f.
Proof. apply find_eqb. Qed.
Lemma find_wal_none m f w : find_wal m f = None -> In w (m_wal m) -> w_name w <> f.
Proof. unfold find_wal. intros H Hin. apply (find_none _ _ H) in Hin. now apply N.eqb_neq. Qed.

Lemma upd_wal_names m g f : (forall w, w_name (g w) = w_name w) -> map w_name (upd_wal m g f) = map w_name (m_wal m).
Proof. exact (map_upd_proj w_name _ g (m_wal m)). Qed.

(* The invariants read the WAL records through [find_wal] only, the first record of a name;
   the monitor rewrites records by maps that keep the names. *)
Lemma find_wal_map m m' (h : wst -> wst) f : m_wal m' = map h (m_wal m) -> (forall w, w_name (h w) = w_name w) ->
  find_wal m' f = option_map h (find_wal m f).
Proof.
  unfold find_wal. intros -> Hn. induction (m_wal m) as [|w l IH]; [reflexivity|]. cbn [map find]. rewrite Hn.
  destruct (w_name w =? f); [reflexivity|exact IH].
Qed.
Lemma find_upd_wal m m' g f f' : m_wal m' = upd_wal m g f -> (forall w, w_name (g w) = w_name w) ->
  find_wal m' f' = if f' =? f then option_map g (find_wal m f') else find_wal m f'.
Proof.
  intros E Hg. rewrite (find_wal_map m m' (fun w => if w_name w =? f then g w else w) f' E).
  - destruct (find_wal m f') as [w|] eqn:Ef; [|now destruct (f' =? f)]. apply find_wal_some in Ef as (_ & <-). cbn [option_map].
    now destruct (w_name w =? f).
  - intros w. destruct (w_name w =? f); [apply Hg|reflexivity].
Qed.
Lemma find_wal_cons m w0 f : find_wal (with_wal m (w0 :: m_wal m)) f = if w_name w0 =? f then Some w0 else find_wal m f.
Proof. reflexivity. Qed.

Lemma overlaps_sym a b c d : overlaps a b c d = overlaps c d a b.
Proof. unfold overlaps. apply andb_comm. Qed.

Ltac mstep_inv H :=
  repeat match type of H with
         | match ?c with Some _ => _ | None => _ end = Some _ => let E := fresh "Ef" in destruct c eqn:E; try discriminate
         | (if ?c then _ else _) = Some _ => let E := fresh "Ec" in destruct c eqn:E; try discriminate
         end; inversion H; subst; clear H.

(* What a monitor step can do.  The events belong to two protocols that share the name space: one acts on
   the record of one WAL file ([wal_step m f e w' m']: afterwards w' is the record of f), the other on the
   record of one pair ([idx_step r e g]: the record of pair r becomes g r); the directory fsync acts on
   every record, the two acknowledgements on none.  [ws_setlen] leaves out mstep's guard that nothing was
   written yet: no proof needs it. *)
Inductive wal_step (m : dmstate) (f : N) : ev -> wst -> dmstate -> Prop :=
| ws_create : is_idx_name m f = false -> find_wal m f = None ->
    wal_step m f (ECreate f) (mkW f false 0 false) (with_wal m (mkW f false 0 false :: m_wal m))
| ws_setlen n w : find_wal m f = Some w -> w_len w = 0 -> 0 < n ->
    wal_step m f (ESetLen f n) (mkW (w_name w) (w_dsync w) n false)
      (with_wal m (upd_wal m (fun w => mkW (w_name w) (w_dsync w) n false) f))
| ws_write off len id osync w : find_wal m f = Some w -> w_dsync w = true -> off + len <= w_len w ->
    (forall o2 l2 i2, In (f, (o2, l2, i2)) (m_writes m) -> overlaps off len o2 l2 = false) ->
    (forall f2 o2 l2, ~ In (f2, (o2, l2, id)) (m_writes m)) ->
    wal_step m f (EWrite f off len id osync) (mkW (w_name w) (w_dsync w) (w_len w) true)
      (mkM (upd_wal m (fun w => mkW (w_name w) (w_dsync w) (w_len w) true) f) ((f, (off, len, id)) :: m_writes m)
           (if osync then m_pend m else (f, id) :: m_pend m) (m_acked m) (m_idx m) (m_racked m))
| ws_sync w : find_wal m f = Some w ->
    wal_step m f (ESyncFile f) w
      (mkM (m_wal m) (m_writes m) (filter (fun p => negb (fst p =? f)) (m_pend m)) (m_acked m) (m_idx m) (m_racked m)).

Inductive idx_step (r : ist) : ev -> (ist -> ist) -> Prop :=
| xs_sync : i_phase r <> 0 ->
    idx_step r (ESyncFile (i_tmp r)) (fun p => mkI (i_tmp p) (i_fin p) 2 (i_cur p) (i_ren p) (i_dur p))
| xs_write len id : i_phase r = 0 -> i_cur r < id ->
    idx_step r (ETmpWrite (i_tmp r) len id) (fun p => mkI (i_tmp p) (i_fin p) 1 id (i_ren p) (i_dur p))
| xs_rename : i_phase r = 2 ->
    idx_step r (ERename (i_tmp r) (i_fin r)) (fun p => mkI (i_tmp p) (i_fin p) 0 (i_cur p) (i_cur p) (i_dur p)).

Inductive mstep_rel (fixed : bool) (m : dmstate) : ev -> dmstate -> Prop :=
| ms_wal f e w' m' : wal_step m f e w' m' -> mstep_rel fixed m e m'
| ms_idx r e g : In r (m_idx m) -> idx_step r e g -> mstep_rel fixed m e (with_idx m (upd_idx m g (i_tmp r)))
| ms_dir : mstep_rel fixed m ESyncDir
    (mkM (map (fun w => mkW (w_name w) true (w_len w) (w_written w)) (m_wal m)) (m_writes m) (m_pend m) (m_acked m)
         (map (fun p => mkI (i_tmp p) (i_fin p) (i_phase p) (i_cur p) (i_ren p) (i_ren p)) (m_idx m)) (m_racked m))
| ms_ack id : (exists f off len, In (f, (off, len, id)) (m_writes m)) -> (forall f, ~ In (f, id) (m_pend m)) ->
    mstep_rel fixed m (EAck id) (mkM (m_wal m) (m_writes m) (m_pend m) (id :: m_acked m) (m_idx m) (m_racked m))
| ms_rack r id : In r (m_idx m) -> 0 < id -> id <= (if fixed then i_dur r else i_ren r) ->
    mstep_rel fixed m (EAckRead (i_fin r) id)
      (mkM (m_wal m) (m_writes m) (m_pend m) (m_acked m) (m_idx m) ((i_fin r, id) :: m_racked m)).

Lemma mstep_spec fixed m e m' : mstep fixed m e = Some m' -> mstep_rel fixed m e m'.
Proof.
  (* Ef.., Ec.. are the guards as [mstep_inv] names them; w and i are the binders of [mstep]'s own matches *)
  intros H. destruct e; cbn [mstep] in H; mstep_inv H.
  - (* ECreate *) eapply (ms_wal _ _ f). now constructor.
  - (* ESetLen *) rewrite !andb_true_iff, negb_true_iff, N.eqb_eq, N.ltb_lt in Ec. destruct Ec as ((_ & Hl) & Hn).
    eapply (ms_wal _ _ f). now apply (ws_setlen _ _ _ w).
  - (* EWrite *) rewrite !andb_true_iff, !negb_true_iff, N.leb_le in Ec. destruct Ec as (((Hds & Hfit) & Hno) & Hfresh).
    eapply (ms_wal _ _ f). apply (ws_write _ _ _ _ _ _ w); try assumption.
    + intros o2 l2 i2 Hx. apply (existsb_false_in _ _ _ Hno) in Hx. cbn [fst snd] in Hx. now rewrite N.eqb_refl in Hx.
    + intros f2 o2 l2 Hx. apply (existsb_false_in _ _ _ Hfresh) in Hx. cbn [snd] in Hx. rewrite N.eqb_refl in Hx. discriminate.
  - (* ESyncFile, of a WAL file *) eapply (ms_wal _ _ f). now apply (ws_sync _ _ w).
  - (* ESyncFile, of a temporary file *)
    destruct (find_eqb _ _ _ _ Ef0) as (Hi & <-). apply N.eqb_neq in Ec. apply (ms_idx _ _ i); [assumption|now constructor].
  - (* ESyncDir *) constructor.
  - (* ETmpWrite *) destruct (find_eqb _ _ _ _ Ef) as (Hi & <-). rewrite andb_true_iff, N.eqb_eq, N.ltb_lt in Ec.
    apply (ms_idx _ _ i); [assumption|now constructor].
  - (* ERename *) destruct (find_eqb _ _ _ _ Ef) as (Hi & <-). rewrite andb_true_iff, !N.eqb_eq in Ec. destruct Ec as (Eph & <-).
    apply (ms_idx _ _ i); [assumption|now constructor].
  - (* EAck; ERemove is never accepted *) apply andb_prop in Ec as (Hex & Hnp). apply negb_true_iff in Hnp. constructor.
    + apply existsb_exists in Hex as ([f0 [[o0 l0] id0]] & Hw & E). apply N.eqb_eq in E. cbn [snd] in E. subst id0. eauto.
    + intros f Hp. apply (existsb_false_in _ _ _ Hnp) in Hp. cbn [snd] in Hp. rewrite N.eqb_refl in Hp. discriminate.
  - (* EAckRead *) destruct (find_eqb _ _ _ _ Ef) as (Hi & <-). rewrite andb_true_iff, N.ltb_lt, N.leb_le in Ec. now constructor.
Qed.

Lemma wal_step_scope m f e w' m' : wal_step m f e w' m' ->
  ev_names e = [f] /\ e <> ESyncDir /\ m_idx m' = m_idx m /\ m_racked m' = m_racked m.
Proof. intros []; repeat split; discriminate. Qed.

Lemma idx_step_names r e g : idx_step r e g ->
  incl (ev_names e) [i_tmp r; i_fin r] /\ e <> ESyncDir /\ forall p, (i_tmp (g p), i_fin (g p)) = (i_tmp p, i_fin p).
Proof. intros []; (split; [|split; [discriminate|reflexivity]]); cbn [ev_names]; auto with datatypes. Qed.

Lemma wal_step_find m f e w' m' g : wal_step m f e w' m' -> find_wal m' g = if g =? f then Some w' else find_wal m g.
Proof.
  intros [Hi Hf|n w Hf _ _|off len id osync w Hf _ _ _ _|w Hf].
  - rewrite find_wal_cons, N.eqb_sym. reflexivity.
  - rewrite (find_upd_wal m (with_wal m (upd_wal m _ f)) _ f g eq_refl) by reflexivity. destruct (N.eqb_spec g f) as [->|]; [now rewrite Hf|reflexivity].
  - rewrite (find_upd_wal m (mkM (upd_wal m _ f) _ _ _ _ _) _ f g eq_refl) by reflexivity. destruct (N.eqb_spec g f) as [->|]; [now rewrite Hf|reflexivity].
  - destruct (N.eqb_spec g f) as [->|]; [exact Hf|reflexivity].
Qed.

Lemma mstep_idx_names fixed m e m' : mstep_rel fixed m e m' -> idx_names m' = idx_names m.
Proof.
  intros [f ? w' ? []|r ? g _ Hs| | |]; try reflexivity.
  - exact (map_upd_proj (fun i => (i_tmp i, i_fin i)) _ g (m_idx m) (proj2 (proj2 (idx_step_names _ _ _ Hs)))).
  - unfold idx_names. cbn [m_idx]. now rewrite map_map.
Qed.
Lemma mstep_is_idx_name fixed m e m' g : mstep_rel fixed m e m' -> is_idx_name m' g = is_idx_name m g.
Proof. intros H. now rewrite !is_idx_name_names, (mstep_idx_names _ _ _ _ H). Qed.

(* The monitor's footprint: a name is either named by the event and a WAL file afterwards, or the monitor has
   left its record, its writes and its pending ids alone, and the event names it only if it is the name of a pair *)
Lemma mstep_frame fixed m e m' g : mstep_rel fixed m e m' -> e <> ESyncDir ->
  In g (ev_names e) /\ find_wal m' g <> None \/
  (is_idx_name m g = false -> ~ In g (ev_names e)) /\ find_wal m' g = find_wal m g /\
    (forall x, In (g, x) (m_writes m') <-> In (g, x) (m_writes m)) /\ (forall id, In (g, id) (m_pend m) -> In (g, id) (m_pend m')).
Proof.
  intros [f ? w' ? Hs|r ? u Hr Hs| | |] He.
  - (* a WAL event on f *) rewrite (wal_step_find _ _ _ _ _ g Hs). destruct (wal_step_scope _ _ _ _ _ Hs) as (-> & _).
    destruct (N.eqb_spec g f) as [->|Hn]; [left; split; [now left|discriminate]|right].
    split; [intros _ [E|[]]; congruence|]. split; [reflexivity|]. destruct Hs; cbn [m_writes m_pend with_wal]; try now split.
    + (* EWrite *) split; [intros x; split; [intros [[= E]|Hx]; [congruence|exact Hx]|now right]|destruct osync; auto using in_cons].
    + (* ESyncFile *) split; [reflexivity|]. intros id Hp. apply filter_In. split; [exact Hp|]. cbn [fst]. now apply negb_true_iff, N.eqb_neq.
  - (* an event of pair r *) right. destruct (idx_step_names _ _ _ Hs) as (Hin & _). destruct (is_idx_in _ _ Hr).
    split; [intros Hg Hi; destruct (Hin _ Hi) as [<-|[<-|[]]]; congruence|now repeat split].
  - destruct He. reflexivity.
  - (* EAck *) right. split; [intros _ []|now repeat split].
  - (* EAckRead *) right. split; [intros _ []|now repeat split].
Qed.

Definition Acked (m : dmstate) : Prop := forall id, In id (m_acked m) ->
  (exists f off len, In (f, (off, len, id)) (m_writes m)) /\ forall f, ~ In (f, id) (m_pend m).

Lemma acked_step fixed m e m' : Acked m -> mstep_rel fixed m e m' -> Acked m'.
Proof.
  intros A [f ? w' ? [| |off len id osync w _ _ _ _ Hfresh|w _]|r ? u _ _| |id Hw Hnp|r id _ _ _]; try exact A; intros id0 Ha.
  - (* EWrite, under a new id: pending, but not acknowledged *)
    destruct (A id0 Ha) as ((f2 & o2 & l2 & Hx) & Hp). split; [exists f2, o2, l2; now right|]. cbn [m_pend].
    intros f0 Hp'. destruct osync; [exact (Hp _ Hp')|]. destruct Hp' as [[= <- <-]|Hp']; [exact (Hfresh _ _ _ Hx)|exact (Hp _ Hp')].
  - (* ESyncFile of a WAL file *) destruct (A id0 Ha) as (Hx & Hp). split; [exact Hx|]. intros f0 Hp'. apply filter_In in Hp'. exact (Hp _ (proj1 Hp')).
  - (* EAck *) destruct Ha as [<-|Ha]; [split; assumption|exact (A _ Ha)].
Qed.

(* an operation the protocol allows on the inode of WAL file f, sized n *)
Definition wal_op (f n : N) (writes : list (N * (N * N * N))) (o : fop) : Prop :=
  (o = FSetLen n /\ 0 < n) \/ exists off len id, o = FWrite off len id /\ In (f, (off, len, id)) writes.

Lemma wal_op_mono f n n' W W' o : n' = n \/ n = 0 -> (forall x, In (f, x) W -> In (f, x) W') -> wal_op f n W o -> wal_op f n' W' o.
Proof.
  intros El HW [(-> & Hpos)|(off & len & id & -> & Hin)].
  - left. destruct El as [->|E0]; [auto|]. rewrite E0 in Hpos. destruct (N.lt_irrefl _ Hpos).
  - right. exists off, len, id. auto.
Qed.

(* WAL file f with record w, recorded writes W and pending ids P: the one directory operation on the name is
   its link to inode i, on disk when the record says so; the inode's operations are the set_len and the recorded
   writes; every recorded write was made after the link was synced, lies within the size, is there, on disk or
   pending, and overlaps no other *)
Record WOne (s : dstate) (W : list (N * (N * N * N))) (P : list (N * N)) (f : N) (w : wst) (i : N) : Prop := {
  wo_v : vlook (d_vdir s) f = Some i;
  wo_link : nops s f = [(w_dsync w, DLink f i)];
  wo_ops : forall b o, In (b, (i, o)) (d_fops s) -> wal_op f (w_len w) W o;
  wo_wr : forall off len id, In (f, (off, len, id)) W -> w_dsync w = true /\ off + len <= w_len w /\
          exists b, In (b, (i, FWrite off len id)) (d_fops s) /\ (b = true \/ In (f, id) P);
  wo_same : forall o1 l1 i1 o2 l2 i2, In (f, (o1, l1, i1)) W -> In (f, (o2, l2, i2)) W ->
            overlaps o1 l1 o2 l2 = true -> (o2, l2, i2) = (o1, l1, i1) }.

(* Every name is a WAL file, the name of a pair, or has never been used *)
Record WInv (m : dmstate) (s : dstate) : Prop := {
  wi_g : GInv s;
  wi_one : forall f w, find_wal m f = Some w ->
           is_idx_name m f = false /\ exists i, WOne s (m_writes m) (m_pend m) f w i;
  wi_none : forall g, find_wal m g = None -> (forall x, ~ In (g, x) (m_writes m)) /\
            (is_idx_name m g = false -> vlook (d_vdir s) g = None /\ nops s g = []);
  wi_ack : Acked m }.

Lemma winv_init pairs : WInv (dm_init pairs) d_init.
Proof. constructor; [apply ginv_init|discriminate|now split|intros id []]. Qed.

Lemma known_wal m w : In w (m_wal m) -> known m (w_name w).
Proof. intros H. left. now apply in_map. Qed.

(* an event on other names, and a monitor step that leaves the records about f alone *)
Lemma wone_frame ns s s' W P W' P' f w i :
  WOne s W P f w i -> GInv s' -> dframe ns s s' -> ~ In f ns ->
  (forall x, In (f, x) W' <-> In (f, x) W) -> (forall id, In (f, id) P -> In (f, id) P') ->
  WOne s' W' P' f w i.
Proof.
  intros [A B D E S] G' [V _ Dn O] Hf HW HP. rewrite <- (V f Hf) in A.
  assert (Ei : iops s' i = iops s i).
  { apply O. intros g Hg Eg. apply Hf. now rewrite <- (g_inj _ G' _ _ _ Eg A). }
  constructor; [exact A|now rewrite (Dn f Hf)| | |].
  - intros b o H. apply in_iops in H. rewrite Ei in H. apply in_iops in H. exact (wal_op_mono _ _ _ _ _ _ (or_introl eq_refl) (fun x => proj2 (HW x)) (D _ _ H)).
  - intros off len id Hx. destruct (E _ _ _ (proj1 (HW _) Hx)) as (Hds & Hfit & b & Hb & Hor). do 2 (split; [assumption|]). exists b.
    split; [apply in_iops; rewrite Ei; now apply in_iops|destruct Hor; auto].
  - intros o1 l1 i1 o2 l2 i2 H1 H2. exact (S _ _ _ _ _ _ (proj1 (HW _) H1) (proj1 (HW _) H2)).
Qed.

Lemma winv_by_frame fixed m s e m' : WInv m s -> mstep_rel fixed m e m' -> e <> ESyncDir ->
  (forall f w, In f (ev_names e) -> find_wal m' f = Some w ->
     is_idx_name m f = false /\ exists i, WOne (dstep s e) (m_writes m') (m_pend m') f w i) ->
  WInv m' (dstep s e).
Proof.
  intros [G W1 W0 Wa] H He Hact. pose proof (dstep_dframe s e He) as D.
  pose proof (fun g => mstep_is_idx_name _ _ _ _ g H) as En.
  constructor; [now apply ginv_step| | |exact (acked_step _ _ _ _ Wa H)].
  - intros f w Hf. rewrite En. destruct (mstep_frame _ _ _ _ f H He) as [(Hin & _)|(Hn & Ef & HW & HP)]; [now apply Hact|].
    rewrite Ef in Hf. destruct (W1 f w Hf) as (Hi & i & Wo). split; [exact Hi|]. exists i.
    exact (wone_frame _ s _ _ _ _ _ f w i Wo (ginv_step s e G) D (Hn Hi) HW HP).
  - intros g Hg. rewrite En. destruct (mstep_frame _ _ _ _ g H He) as [(_ & Hr)|(Hn & Ef & HW & _)]; [contradiction|].
    rewrite Ef in Hg. destruct (W0 g Hg) as (Hnw & Hv). split; [intros x Hx; exact (Hnw x (proj1 (HW x) Hx))|].
    intros Hi. destruct (Hv Hi) as (V & T). pose proof (Hn Hi) as Hnin.
    split; [now rewrite (df_vdir _ _ _ D g Hnin)|now rewrite (df_dops _ _ _ D g Hnin)].
Qed.

Lemma winv_step fixed m s e m' : WInv m s -> mstep_rel fixed m e m' -> WInv m' (dstep s e).
Proof.
  intros W H. pose proof W as [G W1 W0 Wa]. pose proof (acked_step _ _ _ _ Wa H) as Wa'.
  destruct H as [f ? w' ? Hs|r ? u Hr Hs| |id Hw Hnp|r id Hr Hpos Hle].
  - (* a WAL event on f *) destruct (wal_step_scope _ _ _ _ _ Hs) as (En & He & _). apply (winv_by_frame _ _ _ _ _ W (ms_wal fixed _ _ _ _ _ Hs) He).
    rewrite En. intros f0 w0 [<-|[]]. rewrite (wal_step_find _ _ _ _ _ f Hs), N.eqb_refl. intros [= <-].
    destruct Hs as [Hi Hf|n w Hf Hl Hn|off len id osync w Hf Hds Hfit Hno _|w Hf].
    + (* ECreate, a new WAL file: the name was never used; its inode is fresh *)
      destruct (W0 f Hf) as (Hnw & Hv). destruct (Hv Hi) as (Hv1 & Hd). split; [exact Hi|]. exists (d_next s).
      cbn [dstep]. unfold do_create. rewrite Hv1. constructor; cbn [d_vdir d_fops vlook w_dsync w_len m_writes with_wal].
      * now rewrite N.eqb_refl.
      * unfold nops in *. cbn [d_dops filter snd touchesb]. now rewrite N.eqb_refl, Hd.
      * intros b o Hin. destruct (N.lt_irrefl _ (g_flt _ G _ _ _ Hin)).
      * intros off len id Hx. destruct (Hnw _ Hx).
      * intros o1 l1 i1 o2 l2 i2 Hx. destruct (Hnw _ Hx).
    + (* ESetLen: no write was recorded before the sizing *)
      destruct (W1 f w Hf) as (Hi & i & [A B D E S]). split; [exact Hi|]. exists i. cbn [dstep]. rewrite A.
      constructor; cbn [add_fop d_vdir d_fops d_dops w_dsync w_len m_writes m_pend with_wal]; auto.
      * intros b o [[= <- <-]|Hin]; [left; auto|exact (wal_op_mono _ _ _ _ _ _ (or_intror Hl) (fun _ Hx => Hx) (D _ _ Hin))].
      * intros off len id Hx. destruct (E _ _ _ Hx) as (H1 & H2 & b & Hb & Hor). split; [exact H1|]. split; [lia|]. exists b. split; [now right|exact Hor].
    + (* EWrite: disjoint from the other writes of f, flagged or pending *)
      destruct (W1 f w Hf) as (Hi & i & [A B D E S]). split; [exact Hi|]. exists i. cbn [dstep]. unfold do_write. rewrite A.
      constructor; cbn [add_fop d_vdir d_fops d_dops w_dsync w_len m_writes m_pend]; auto.
      * intros b o [[= <- <-]|Hin]; [right; exists off, len, id; split; [reflexivity|now left]|].
        exact (wal_op_mono _ _ _ _ _ _ (or_introl eq_refl) (fun x => in_cons _ _ _) (D _ _ Hin)).
      * intros off' len' id' [[= <- <- <-]|Hx].
        -- do 2 (split; [assumption|]). exists osync. split; [now left|]. destruct osync; [now left|right; now left].
        -- destruct (E _ _ _ Hx) as (H1 & H2 & b & Hb & Hor). do 2 (split; [assumption|]). exists b. split; [now right|].
           destruct Hor as [Hb'|Hp]; [now left|right]. destruct osync; auto using in_cons.
      * intros o1 l1 i1 o2 l2 i2 [E1|H1] [E2|H2] Ho.
        -- rewrite E1 in E2. now inversion E2.
        -- inversion E1; subst. rewrite (Hno _ _ _ H2) in Ho. discriminate.
        -- inversion E2; subst. rewrite overlaps_sym, (Hno _ _ _ H1) in Ho. discriminate.
        -- exact (S _ _ _ _ _ _ H1 H2 Ho).
    + (* ESyncFile: nothing of f stays pending *)
      destruct (W1 f w Hf) as (Hi & i & [A B D E S]). split; [exact Hi|]. exists i. cbn [dstep]. rewrite A.
      constructor; cbn [d_vdir d_fops d_dops m_writes m_pend]; auto.
      * intros b o Hin. apply in_sync_ino in Hin as (b' & Hin & _). eauto.
      * intros off len id Hx. destruct (E _ _ _ Hx) as (H1 & H2 & b & Hb & _). do 2 (split; [assumption|]). exists (b || (i =? i)).
        split; [exact (sync_ino_in i _ _ _ Hb)|left; rewrite N.eqb_refl; apply orb_true_r].
  - (* an event of pair r: the names of a pair are no WAL names *)
    destruct (idx_step_names _ _ _ Hs) as (Hin & He & _). apply (winv_by_frame _ _ _ _ _ W (ms_idx fixed _ _ _ _ Hr Hs) He).
    intros f0 w0 Hf0 Hw. destruct (W1 f0 w0 Hw) as (Hx & _). destruct (is_idx_in _ _ Hr). destruct (Hin _ Hf0) as [<-|[<-|[]]]; congruence.
  - (* ESyncDir: every link is on disk, every record says so *)
    set (m' := mkM _ _ _ _ _ _) in *. pose proof (fun f' => find_wal_map m m' _ f' eq_refl (fun _ => eq_refl)) as Efw.
    pose proof (fun g => mstep_is_idx_name _ _ _ _ g (ms_dir fixed m)) as En.
    constructor; [now apply ginv_step| | |exact Wa']; intros f; rewrite Efw, En; destruct (find_wal m f) as [w0|] eqn:E; try discriminate.
    + intros w [= <-]. destruct (W1 f w0 E) as (Hi & i & [A B D E' S]). split; [exact Hi|]. exists i.
      constructor; cbn [w_dsync w_len]; auto.
      * now rewrite nops_sync_dir, B.
      * intros off len id Hx. destruct (E' _ _ _ Hx) as (_ & R). auto.
    + intros _. destruct (W0 f E) as (Hnw & Hv). split; [exact Hnw|]. intros Hi. destruct (Hv Hi) as (V & T). split; [exact V|].
      now rewrite nops_sync_dir, T.
  - (* EAck *) apply (winv_by_frame _ _ _ _ _ W (ms_ack fixed _ _ Hw Hnp)); [discriminate|intros f0 w0 []].
  - (* EAckRead *) apply (winv_by_frame _ _ _ _ _ W (ms_rack fixed _ _ _ Hr Hpos Hle)); [discriminate|intros f0 w0 []].
Qed.

Lemma dmrun_ind fixed (R : dmstate -> dstate -> Prop) :
  (forall m s e m', R m s -> mstep_rel fixed m e m' -> R m' (dstep s e)) ->
  forall tr m s m', R m s -> dmrun fixed m tr = Some m' -> R m' (drun_from s tr).
Proof.
  intros Hstep. induction tr as [|e tr IH]; intros m s m' I H; cbn [dmrun] in H.
  - inversion H; subst. exact I.
  - destruct (mstep fixed m e) as [m1|] eqn:E; [|discriminate]. exact (IH _ _ _ (Hstep _ _ _ _ I (mstep_spec _ _ _ _ E)) H).
Qed.

Definition recorded (m : dmstate) (e : ev) : Prop :=
  match e with
  | EWrite f off len id _ => In (f, (off, len, id)) (m_writes m)
  | EAck id => In id (m_acked m)
  | EAckRead x id => In (x, id) (m_racked m)
  | _ => True
  end.

Lemma recorded_step fixed m e m' : mstep_rel fixed m e m' -> recorded m' e /\ forall e', recorded m e' -> recorded m' e'.
Proof. intros [f ? w' ? []|r ? g _ []| | |]; (split; [|intros []]); cbn [recorded m_writes m_acked m_racked with_wal with_idx]; auto using in_eq, in_cons. Qed.

Lemma dmrun_record fixed tr : forall m m', dmrun fixed m tr = Some m' ->
  (forall e, recorded m e -> recorded m' e) /\ forall e, In e tr -> recorded m' e.
Proof.
  induction tr as [|e tr IH]; intros m m' H; cbn [dmrun] in H.
  - inversion H; subst. split; [auto|intros e []].
  - destruct (mstep fixed m e) as [m1|] eqn:E; [|discriminate]. destruct (IH _ _ H) as (Hk & Hr).
    destruct (recorded_step _ _ _ _ (mstep_spec _ _ _ _ E)) as (R1 & Rk). split; [auto|]. intros e' [<-|Hin]; auto.
Qed.

Lemma dmrun_firstn fixed tr : forall k m m', dmrun fixed m tr = Some m' -> exists m'', dmrun fixed m (firstn k tr) = Some m''.
Proof.
  induction tr as [|e tr IH]; intros k m m' H.
  - rewrite firstn_nil. now exists m.
  - destruct k; [now exists m|]. cbn in *. destruct (mstep fixed m e) as [m1|]; [|discriminate]. eauto.
Qed.

Lemma winv_reflected m s f off len id o :
  WInv m s -> In (f, (off, len, id)) (m_writes m) -> In id (m_acked m) -> admissible s o -> reflected o f off len id.
Proof.
  intros [G W1 W0 Wa] Hw Ha (Af & Ad).
  destruct (find_wal m f) as [w|] eqn:Hf; [|destruct (proj1 (W0 f Hf) _ Hw)].
  destruct (W1 f w Hf) as (_ & i & [A B D E S]). destruct (E _ _ _ Hw) as (Hds & _ & b & Hb & Hor). rewrite Hds in B.
  (* acknowledged, so no longer pending: the write is flagged *)
  assert (b = true) by (destruct Hor as [->|Hp]; [reflexivity|destruct (proj2 (Wa _ Ha) _ Hp)]). subst b.
  exists i. split.
  - apply (adm_filter (touchesb f)) in Ad. unfold nops in B. rewrite B in Ad. rewrite dlook_find, (adm_single_true _ _ Ad). reflexivity.
  - apply (kept_write _ i (w_len w) f off len id (m_writes m)).
    + intros o' Ho. destruct (adm_sub _ _ _ Af Ho) as (b & Ho'). destruct (D _ _ Ho') as [(-> & _)|R]; [now left|now right].
    + intros off' len' id' Hw'. exact (proj1 (proj2 (E _ _ _ Hw'))).
    + intros off' len' id' Hw'. exact (S _ _ _ _ _ _ Hw Hw').
    + exact Hw.
    + exact (adm_keeps _ _ _ Af Hb).
Qed.
