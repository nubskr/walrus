(* ClusterSeq.v — C22, the sequential system of ClusterSys.v (operations never overlap, every
   proposed command applied at once).  Utilities for the proof for any number of nodes
   (ClusterSeqN.v, ClusterSeqN2.v): segment ranges, [apply_everywhere] with nothing pending, the two
   acceptors [c22_seq_scan] and [seq_hist] along the sub-events of one step ([Acc]), the clients'
   index history ([hist_ok]).  Then the invariant of the system with ONE node, spelled out on that
   node's record ([Inv]); only [count_appended] and [unchanged] are stated over it: the proofs of C22,
   the one-node theorem included, go through its counterpart for any number of nodes ([Invn]). *)
From W Require Import model.Base model.Map model.Bincode model.Cluster model.ClusterSys
  spec.StreamSpec proofs.MapP.
Open Scope N_scope.

Fixpoint nrange (lo : N) (n : nat) : list N :=
  match n with O => [] | S k => lo :: nrange (lo + 1) k end.
Definition segs (c : N) : list N := nrange 1 (N.to_nat c).

Lemma in_nrange n : forall lo s, In s (nrange lo n) <-> lo <= s /\ s < lo + N.of_nat n.
Proof.
  induction n as [|n IH]; intros lo s; cbn [nrange In].
  - split; [tauto|lia].
  - rewrite IH. lia.
Qed.

Lemma nrange_app a : forall lo b, nrange lo (a + b) = nrange lo a ++ nrange (lo + N.of_nat a) b.
Proof.
  induction a as [|a IH]; intros lo b; cbn [nrange Nat.add app].
  - f_equal. lia.
  - rewrite IH. do 3 f_equal. lia.
Qed.

Lemma in_segs c s : In s (segs c) <-> 1 <= s /\ s <= c.
Proof. unfold segs. rewrite in_nrange. lia. Qed.

Lemma segs_succ c : segs (c + 1) = segs c ++ [c + 1].
Proof.
  unfold segs. replace (N.to_nat (c + 1)) with (N.to_nat c + 1)%nat by lia.
  rewrite nrange_app. cbn [nrange]. do 2 f_equal. lia.
Qed.

Lemma segs_split c k : 1 <= k -> k <= c ->
  segs c = segs (k - 1) ++ k :: nrange (k + 1) (N.to_nat (c - k)).
Proof.
  intros H1 H2. unfold segs.
  replace (N.to_nat c) with (N.to_nat (k - 1) + S (N.to_nat (c - k)))%nat by lia.
  rewrite nrange_app. cbn [nrange]. f_equal. f_equal; [lia|]. f_equal. lia.
Qed.

Definition nlen {A} (l : list A) : N := N.of_nat (length l).
Lemma nlen_nil {A} : nlen (@nil A) = 0. Proof. reflexivity. Qed.
Lemma nlen_cons {A} (a : A) l : nlen (a :: l) = nlen l + 1. Proof. unfold nlen. cbn [length]. lia. Qed.
Lemma nlen_app {A} (a b : list A) : nlen (a ++ b) = nlen a + nlen b.
Proof. unfold nlen. rewrite app_length. lia. Qed.
Lemma nlen_0 {A} (l : list A) : nlen l = 0 -> l = [].
Proof. destruct l; [reflexivity|]. rewrite nlen_cons. lia. Qed.

Lemma lookup_ins_or {V} (d : V) o seg v s :
  match lookup N.compare s (ins N.compare seg v o) with Some c => c | None => d end =
  if s =? seg then v else match lookup N.compare s o with Some c => c | None => d end.
Proof.
  destruct (N.eqb_spec s seg) as [->|Hne].
  - now rewrite (lookup_ins_same N_cmp_ok).
  - now rewrite (lookup_ins_other N_cmp_ok) by exact Hne.
Qed.

Definition sealed_of (t : tstate) (s : N) : N :=
  match lookup N.compare s (t_sealed t) with Some c => c | None => 0 end.
Definition cur_of (x : node) : N * N := match nd_cursor x with Some c => c | None => (0, 0) end.

(* nothing pending: ClusterSeqN.fold_catch covers it, but node by node; the rewrites need an
   equation between states *)
Lemma ap_noop fuel s n :
  (forall x, get_node s n = Some x -> (length (s_log s) <= nd_applied x)%nat) -> apply_pending fuel s n = s.
Proof.
  intros H. destruct fuel as [|f]; [reflexivity|]. cbn [apply_pending]. unfold Cluster.step_apply.
  destruct (get_node s n) as [x|] eqn:Hg; [|reflexivity].
  replace (nth_error (s_log s) (nd_applied x)) with (@None cmd); [reflexivity|].
  symmetry. apply nth_error_None. now apply H.
Qed.

Lemma fold_ap_id l : forall s,
  (forall n x, get_node s n = Some x -> nd_applied x = length (s_log s)) ->
  fold_left (fun s n => apply_pending (length (s_log s)) s n) l s = s.
Proof.
  induction l as [|n l IH]; intros s H; cbn [fold_left]; [reflexivity|].
  rewrite ap_noop; [now apply IH|]. intros x Hx. rewrite (H _ _ Hx). lia.
Qed.

Lemma ae_id cfg s :
  (forall n x, get_node s n = Some x -> nd_applied x = length (s_log s)) -> apply_everywhere cfg s = s.
Proof. apply fold_ap_id. Qed.

Definition quiet_ev (e : csub) : bool := match e with EInv _ _ _ _ | EResp _ _ _ => false | _ => true end.
Definition quiet (l : list csub) : bool := forallb quiet_ev l.

Definition hst := option (N * N * bool).
(* Q: the queue of c22_seq_scan; hl, hc: last index per client and open operation of seq_hist *)
Definition Acc (Q : list cpayload) (hl : list (N * N)) (hc : hst) (subs : list csub)
               (Q' : list cpayload) (hl' : list (N * N)) (hc' : hst) : Prop :=
  (forall rest, c22_seq_scan Q' rest = true -> c22_seq_scan Q (subs ++ rest) = true) /\
  (forall rest, seq_hist hl' hc' rest = true -> seq_hist hl hc (subs ++ rest) = true).

Lemma Acc_nil Q hl hc : Acc Q hl hc [] Q hl hc.
Proof. split; intros rest H; exact H. Qed.

Lemma Acc_trans Q0 hl0 hc0 s1 Q1 hl1 hc1 s2 Q2 hl2 hc2 :
  Acc Q0 hl0 hc0 s1 Q1 hl1 hc1 -> Acc Q1 hl1 hc1 s2 Q2 hl2 hc2 -> Acc Q0 hl0 hc0 (s1 ++ s2) Q2 hl2 hc2.
Proof. intros [A1 A2] [B1 B2]. split; intros rest H; rewrite <- app_assoc; auto. Qed.

Lemma Acc_quiet Q hl hc subs : quiet subs = true -> Acc Q hl hc subs Q hl hc.
Proof.
  induction subs as [|e subs IH]; intros H; [apply Acc_nil|].
  cbn [quiet forallb] in H. apply andb_prop in H. destruct H as [He Hs]. specialize (IH Hs). destruct IH as [A1 A2].
  split; intros rest H; cbn [app]; destruct e; try discriminate; cbn [c22_seq_scan seq_hist]; auto.
Qed.

Lemma Acc_invoke Q hl c k b n :
  (forall k0, lookup N.compare c hl = Some k0 -> k0 < k) ->
  Acc Q hl None [EInv c k b n] Q (ins N.compare c k hl) (Some (c, k, b)).
Proof.
  intros H. split; intros rest Hr; cbn [app c22_seq_scan seq_hist]; [exact Hr|].
  destruct (lookup N.compare c hl) as [k0|] eqn:E; [|exact Hr].
  rewrite Hr, andb_true_r. apply N.ltb_lt. auto.
Qed.

(* [hl] (seq_hist's last index per client) is below the index a client will invoke next, at most that of its open operation *)
Definition hist_ok (cs : list client) (hl : list (N * N)) : Prop :=
  forall j cj k0, nth_error cs j = Some cj -> lookup N.compare (N.of_nat j) hl = Some k0 ->
    match cl_pc cj with None => k0 < cl_k cj | Some _ => k0 <= cl_k cj end.

Lemma forallb_combine_seq {A} (f : A -> bool) i : forall (l : list A) a,
  forallb (fun ic => Nat.eqb (fst ic) i || f (snd ic)) (combine (seq a (length l)) l) = true ->
  forall j y, nth_error l j = Some y -> (a + j)%nat <> i -> f y = true.
Proof.
  induction l as [|z l IH]; intros a H j y Hj Hne; [destruct j; discriminate|].
  cbn [length seq combine forallb fst snd] in H. apply andb_prop in H. destruct H as [H0 H1].
  destruct j as [|j]; cbn [nth_error] in Hj.
  - inversion Hj; subst. destruct (Nat.eqb_spec a i); [lia|]. exact H0.
  - apply (IH (S a) H1 j y Hj). lia.
Qed.

Lemma forallb_nth {A} (f : A -> bool) l : forallb f l = true -> forall j y, nth_error l j = Some y -> f y = true.
Proof. intros H j y Hj. rewrite forallb_forall in H. apply H. eapply nth_error_In; eauto. Qed.

(* the read cursor (seg, del) against the engine's queues and the offsets map; [c] = current segment *)
Record CV (x : node) (c seg del : N) : Prop := {
  cv_le : seg <= c;
  cv_lo : forall s, s < seg -> queue_of x s = [];
  cv_hi : forall s, seg < s -> count_of x s = nlen (queue_of x s);
  cv_at : 1 <= seg -> del + nlen (queue_of x seg) = count_of x seg;
  cv_0 : seg = 0 -> del = 0
}.

Record Dc (x : node) (t : tstate) (Q : list cpayload) : Prop := {
  d_lead : t_leader t = 1;
  d_cur : 1 <= t_cur t;
  d_leaders : forall s l, lookup N.compare s (t_leaders t) = Some l -> l = 1;
  d_sealed : forall s, 1 <= s -> s < t_cur t -> sealed_of t s = count_of x s;
  d_out : forall s, s = 0 \/ t_cur t < s -> queue_of x s = [] /\ count_of x s = 0;
  d_q : Q = flat_map (queue_of x) (segs (t_cur t))
}.

Definition D (x : node) (t : tstate) (Q : list cpayload) : Prop :=
  Dc x t Q /\ CV x (t_cur t) (fst (cur_of x)) (snd (cur_of x)).

(* record_append's effect *)
Definition recorded (x : node) (seg : N) : node :=
  with_offsets x (ins N.compare seg (count_of x seg + 1) (nd_offsets x)).
(* the engine append's effect (the key mutex is released in the same step) *)
Definition appended (x : node) (seg : N) (p : cpayload) : node :=
  let x1 := with_q x (ins N.compare seg (queue_of x seg ++ [p]) (nd_q x)) in
  with_kl x1 (remove1 seg (nd_kl x1)).

Lemma count_appended x seg p s : count_of (appended x seg p) s = count_of x s.
Proof. reflexivity. Qed.

Inductive kind := KPut (p : cpayload) | KGet | KLease | KMon.
Definition isputk (kd : kind) : Prop := match kd with KPut _ => True | _ => False end.
(* the acceptor's queue once the task's pending answer is given *)
Definition Qk (kd : kind) (Q : list cpayload) : list cpayload := match kd with KPut p => Q ++ [p] | _ => Q end.
Definition ppk_ok (kd : kind) (k : ppk) : Prop :=
  match k with PKPut => isputk kd | PKMon n => n = 1 /\ kd = KMon end.

Definition St (kd : kind) (pc : cpc) (x : node) (t : tstate) (Q : list cpayload) : Prop :=
  match pc with
  | PUlRead e ex k | PUlWrite e ex k =>
    e = 1 /\ D x t Q /\ match k with KAppend seg att => isputk kd /\ seg = t_cur t | KTick => kd = KLease end
  | PEnsure e seg att | PWlRead e seg att | PWlWrite e seg att | PKeyLock e seg att | PSpawn e seg att =>
    e = 1 /\ D x t Q /\ isputk kd /\ seg = t_cur t
  | PRecord e seg => e = 1 /\ seg = t_cur t /\ isputk kd /\ D (recorded x seg) t (Qk kd Q)
  | PCount e seg => e = 1 /\ seg = t_cur t /\ isputk kd /\ D x t (Qk kd Q)
  | PPropose c k => c = RolloverTopic tname 1 (count_of x (t_cur t)) /\ D x t (Qk kd Q) /\ ppk_ok kd k
  | PWaitApplied idx k => D x t (Qk kd Q) /\ ppk_ok kd k
  | PGLock h => h = 1 /\ kd = KGet /\ D x t Q
  | PGRead h e cur => h = 1 /\ e = 1 /\ cur = t_cur t /\ kd = KGet /\ D x t Q /\ 1 <= fst (cur_of x)
  | PGHw h e cur r =>
    h = 1 /\ e = 1 /\ cur = t_cur t /\ kd = KGet /\ 1 <= fst (cur_of x) /\
    match r with
    | Some a => exists Q', Q = a :: Q' /\
                  D (with_cursor x (Some (fst (cur_of x), snd (cur_of x) + 1)) false) t Q'
    | None => D x t Q /\ queue_of x (fst (cur_of x)) = []
    end
  | PLTick n => n = 1 /\ kd = KLease /\ D x t Q
  | PMTick n => n = 1 /\ kd = KMon /\ D x t Q
  | PMCount n seg => n = 1 /\ seg = t_cur t /\ kd = KMon /\ D x t Q
  | PPutRpc _ _ | PMetaRpc _ _ | PGRpc _ _ _ => False
  end.

Definition kind_of (p : cpayload) (o : cop) : kind := match o with OPut _ => KPut p | OGet _ => KGet end.

Definition idle (cs : list client) : Prop := forall j cj, nth_error cs j = Some cj -> cl_pc cj = None.

Inductive Active (cs : list client) (x : node) (t : tstate) (Q : list cpayload) : hst -> cpc -> cpc -> Prop :=
| ARest : idle cs -> D x t Q -> Active cs x t Q None (PLTick 1) (PMTick 1)
| AClient i ci o rest pc :
    nth_error cs i = Some ci -> cl_ops ci = o :: rest -> cl_pc ci = Some pc ->
    (forall j cj, j <> i -> nth_error cs j = Some cj -> cl_pc cj = None) ->
    St (kind_of (N.of_nat i, cl_k ci) o) pc x t Q ->
    Active cs x t Q (Some (N.of_nat i, cl_k ci, is_put o)) (PLTick 1) (PMTick 1)
| ALease lpc : idle cs -> pc_at_rest (Some lpc) = false -> St KLease lpc x t Q -> Active cs x t Q None lpc (PMTick 1)
| AMon mpc : idle cs -> pc_at_rest (Some mpc) = false -> St KMon mpc x t Q -> Active cs x t Q None (PLTick 1) mpc.

Inductive Inv : cst -> list cpayload -> list (N * N) -> hst -> Prop :=
| Inv_intro x t lpc mpc log cs Q hl hc :
    nd_applied x = length log -> topic_of (nd_meta x) = Some t -> hist_ok cs hl ->
    Active cs x t Q hc lpc mpc ->
    Inv (mkSt [(1, x)] log cs [(1, lpc)] [(1, mpc)]) Q hl hc.

Lemma unchanged cfg x lpc mpc log cs Q hl hc :
  cf_nodes cfg = 1 -> Inv (mkSt [(1, x)] log cs [(1, lpc)] [(1, mpc)]) Q hl hc ->
  exists Q' hl' hc', Inv (apply_everywhere cfg (mkSt [(1, x)] log cs [(1, lpc)] [(1, mpc)])) Q' hl' hc' /\ Acc Q hl hc [] Q' hl' hc'.
Proof.
  intros _ H. rewrite ae_id; [exists Q, hl, hc; split; [exact H|apply Acc_nil]|].
  inversion H; subst. intros n y Hy. unfold get_node in Hy. cbn [s_nodes s_log lookup] in *.
  destruct (N.compare n 1); inversion Hy; subst; assumption.
Qed.
