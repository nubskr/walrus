(* EngineALO2.v — a crash between two operations of a restart-free history, ANY mode: after the
   restart nothing is skipped.  An instance of the with-restarts theorem of EngineCrashA.v: a history
   without OReopen is [outside_known], and its ledger is the plain ledger run ([restart_free_outside_ledger]). *)
From W Require Import model.Base model.Engine spec.Queue proofs.EngineWF proofs.EngineInv proofs.EngineMain proofs.EngineDisk proofs.EngineNorm
  proofs.EngineReopen proofs.EngineC06 proofs.EngineSinceR proofs.EngineCrashA.

Lemma restart_free_outside_ledger c m be ops : Forall (op_ok c) ops -> id_drift c (exec (env_of c m be) init ops) = false ->
  outside_known (env_of c m be) init (ops ++ [OReopen]) = true /\
  gm_ledger (env_of c m be) init [] ops = ledger_run [] (trace (env_of c m be) init ops).
Proof.
  intros Hok Hd. split; [exact (outside_known_snoc _ _ _ (op_ok_outside_known c _ ops init Hok) Hd)|exact (gm_ledger_noreopen c _ ops init [] Hok)].
Qed.

(* crash between two operations of a restart-free history, ANY mode (AtLeastOnce in particular), no block-id drift
   at the crash (the half of [restart_known] that is used): the stream is intact and the consumer resumes at or
   BEFORE the first entry it had not been handed (k <= number of entries returned by consuming reads): never skips *)
Theorem crash_between_operations_never_skips c m be ops : cfg_ok c -> Forall (op_ok c) ops ->
  N.of_nat (length (offered_all ops)) <= u64_max -> sum_len (offered_all ops) <= u64_max ->
  restart_known c (exec (env_of c m be) init ops) = false ->
  let s := exec (env_of c m be) init ops in
  let g := ledger_run [] (trace (env_of c m be) init ops) in
  forall t x,
    stream (get_ts (reopen c s) t) = l_app (lget g t) /\
    exists k, (k <= l_del (lget g t))%nat /\
              unread c (nrm x (get_ts (reopen c s) t)) = skipn k (l_app (lget g t)).
Proof.
  intros Hc Hok HB HBb Hk. cbn zeta. intros t x. apply orb_false_iff in Hk.
  destruct (restart_free_outside_ledger c m be ops Hok (proj1 Hk)) as (Ho & <-).
  destruct (crash_between_operations_never_skips_with_restarts c m be ops Hc Ho HB HBb t x) as (Hs & _ & _ & Hk'). auto.
Qed.
